(* Drv_mon — evaluate a property monitor on a trace (model's or implementation's).
   case = (property trace)   property = 1 | 2 | 3 | 9 | 10 | 103 (chk_C03_partial) ; trace = (event ...) oldest first
   result = (1) accepted | (0 index-of-first-rejected-event) *)
From Coq Require Import ZArith NArith List Bool.
From SL Require Import Sx LoopSem LoopWire Monitors.
Import ListNotations.

Definition run (s : sx) : sx :=
  match s with
  | L [I p; t] =>
    do tr <- as_list as_event t;
    let chk := match p with
               | 1%Z => Some chk_C01 | 2%Z => Some chk_C02 | 3%Z => Some chk_C03
               | 9%Z => Some chk_C09 | 10%Z => Some chk_C10 | 103%Z => Some chk_C03_partial | _ => None end in
    match chk with
    | Some c => match run_mon c world0 tr 0 with None => L [I 1%Z] | Some i => L [I 0%Z; of_nat i] end
    | None => bad_input
    end
  | _ => bad_input
  end.

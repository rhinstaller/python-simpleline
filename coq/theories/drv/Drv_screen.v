(* Drv_screen — wire entry for the screen-layer correspondence (C04..C08, C18, C12 reads, C17 separator).
   case   = (fuel (spec ...) (typed ...) quit? run_empty (action ...))
   spec   = ((setup-result ...) (scmd ...)refresh (scmd ...)show (scmd ...)closed ((key (scmd ...) ret) ...)
             ((scmd ...) ret?) prompt_none input_required no_separator skip_check pages answer0)
   typed  = (line) | ()  end of file
   action = (0 scmd ...) commands issued by the application outside any callback | (1) App.run()
   scmd   = (0 s a) push | (1 s a) push modal | (2 s a) replace | (3 s a) schedule | (4) self.close() | (5) close_screen()
          | (6) self.redraw() | (7) scheduler.redraw() | (8) raise | (9) exit | (10) force_quit | (11) get_user_input
          | (12 b) input_required := b | (13 a) answer := a | (14 n) mark | (15 k (then) (else))
          | (16) sys.exit(1) | (17 s) screens[s].redraw() | (18 s) screens[s].close()
          | (19 b) type-ahead := b | (20 h skip) handler object h: skip_concurrency_check := skip; get_input | (21 h) h.wait_on_input()
          | (22 c k) self.connect(Custom_c, callback_k) | (23 c prio) self.emit(Custom_c signal) | (24) process_signals()
   ret    = (0) PROCESSED | (1) PROCESSED_AND_REDRAW | (2) PROCESSED_AND_CLOSE | (3) DISCARDED | (4 key) | (5) None
   result = ((outcome ...) (event ...) (stack entry ids, top first) (level ...)) *)
From Coq Require Import ZArith NArith List Bool.
From SL Require Import Sx PyInt LoopSem LoopWire ScreenSem.
Import ListNotations.

Definition as_answer (s : sx) : option answer :=
  match s with I 0%Z => Some AnsNoAttr | I 1%Z => Some AnsTrue | I 2%Z => Some AnsOther | I 3%Z => Some AnsOther | _ => None end.   (* 2 = False, 3 = None *)

Fixpoint as_scmd (fuel : nat) (s : sx) : option scmd :=
  match fuel with
  | O => None
  | S f =>
    let two (k : nat -> nat -> scmd) a b := match as_nat a, as_nat b with Some a, Some b => Some (k a b) | _, _ => None end in
    match s with
    | L [I 0%Z; a; b] => two SPush a b
    | L [I 1%Z; a; b] => two SPushModal a b
    | L [I 2%Z; a; b] => two SReplace a b
    | L [I 3%Z; a; b] => two SSchedule a b
    | L [I 4%Z] => Some SCloseSig
    | L [I 5%Z] => Some SCloseNow
    | L [I 6%Z] => Some SRedrawSig
    | L [I 7%Z] => Some SSchedRedraw
    | L [I 8%Z] => Some SRaise
    | L [I 9%Z] => Some SExit
    | L [I 10%Z] => Some SForceQuit
    | L [I 11%Z] => Some SGetUserInput
    | L [I 12%Z; b] => option_map SSetInputRequired (as_bool b)
    | L [I 13%Z; a] => option_map SSetAnswer (as_answer a)
    | L [I 14%Z; n] => option_map SMark (as_nat n)
    | L [I 16%Z] => Some SSysExit
    | L [I 17%Z; a] => option_map SRedrawOther (as_nat a)
    | L [I 18%Z; a] => option_map SCloseOther (as_nat a)
    | L [I 19%Z; b] => option_map SSetTypeAhead (as_bool b)
    | L [I 20%Z; h; b] => match as_nat h, as_bool b with Some h, Some b => Some (SHandlerAsk h b) | _, _ => None end
    | L [I 21%Z; h] => option_map SHandlerWait (as_nat h)
    | L [I 24%Z] => Some SProcess
    | L [I 22%Z; c; k] => two SConnect c k
    | L [I 23%Z; c; I p] => option_map (fun c => SEmit c p) (as_nat c)
    | L [I 15%Z; k; t; e] =>
      match as_nat k, as_list (as_scmd f) t, as_list (as_scmd f) e with
      | Some k, Some t, Some e => Some (SIfCount k t e) | _, _, _ => None end
    | _ => None
    end
  end.
Definition as_cmds := as_list (as_scmd 30).

Definition as_ret (s : sx) : option ret_val :=
  match s with
  | L [I 0%Z] => Some RProcessed | L [I 1%Z] => Some RRedraw | L [I 2%Z] => Some RClose
  | L [I 3%Z] => Some RDiscarded | L [I 4%Z; k] => option_map RKey (as_str k) | L [I 5%Z] => Some RNone
  | _ => None
  end.

Definition as_input_entry (s : sx) : option (str * (list scmd * ret_val)) :=
  match s with
  | L [k; c; r] => match as_str k, as_cmds c, as_ret r with Some k, Some c, Some r => Some (k, (c, r)) | _, _, _ => None end
  | _ => None
  end.

Definition as_spec12 (s : sx) : option screen_spec :=
  match s with
  | L [su; rf; sh; cl; it; L [dc; dr]; pn; ir; ns; sk; pg; a0] =>
    match as_list as_bool su, as_cmds rf, as_cmds sh, as_cmds cl, as_list as_input_entry it, as_cmds dc, as_opt as_ret dr with
    | Some su, Some rf, Some sh, Some cl, Some it, Some dc, Some dr =>
      match as_bool pn, as_bool ir, as_bool ns, as_bool sk, as_nat pg, as_answer a0 with
      | Some pn, Some ir, Some ns, Some sk, Some pg, Some a0 =>
        Some {| sc_setup := su; sc_refresh := rf; sc_show := sh; sc_closed := cl; sc_input := it;
                sc_input_default := (dc, dr); sc_prompt_none := pn; sc_input_required := ir;
                sc_no_separator := ns; sc_skip_check := sk; sc_pages := pg; sc_answer0 := a0; sc_custom := []; sc_setup_cmds := [] |}
      | _, _, _, _, _, _ => None
      end
    | _, _, _, _, _, _, _ => None
    end
  | _ => None
  end.

(* the 11-element form: no initial answer attribute;
   the 13-element form carries the screen's own signal callbacks (a list of command lists) *)
Definition as_spec (s : sx) : option screen_spec :=
  match s with
  | L [su; rf; sh; cl; it; d; pn; ir; ns; sk; pg] => as_spec12 (L [su; rf; sh; cl; it; d; pn; ir; ns; sk; pg; I 0%Z])
  | L [su; rf; sh; cl; it; d; pn; ir; ns; sk; pg; a0; cu] =>
    match as_spec12 (L [su; rf; sh; cl; it; d; pn; ir; ns; sk; pg; a0]), as_list as_cmds cu with
    | Some sp, Some cu => Some {| sc_setup := sc_setup sp; sc_refresh := sc_refresh sp; sc_show := sc_show sp;
                                  sc_closed := sc_closed sp; sc_input := sc_input sp; sc_input_default := sc_input_default sp;
                                  sc_prompt_none := sc_prompt_none sp; sc_input_required := sc_input_required sp;
                                  sc_no_separator := sc_no_separator sp; sc_skip_check := sc_skip_check sp;
                                  sc_pages := sc_pages sp; sc_answer0 := sc_answer0 sp; sc_custom := cu; sc_setup_cmds := [] |}
    | _, _ => None
    end
  | L [su; rf; sh; cl; it; d; pn; ir; ns; sk; pg; a0; cu; sc] =>       (* the 14-element form: + the commands of setup() itself *)
    match as_spec12 (L [su; rf; sh; cl; it; d; pn; ir; ns; sk; pg; a0]), as_list as_cmds cu, as_cmds sc with
    | Some sp, Some cu, Some sc =>
                          Some {| sc_setup := sc_setup sp; sc_refresh := sc_refresh sp; sc_show := sc_show sp;
                                  sc_closed := sc_closed sp; sc_input := sc_input sp; sc_input_default := sc_input_default sp;
                                  sc_prompt_none := sc_prompt_none sp; sc_input_required := sc_input_required sp;
                                  sc_no_separator := sc_no_separator sp; sc_skip_check := sc_skip_check sp;
                                  sc_pages := sc_pages sp; sc_answer0 := sc_answer0 sp; sc_custom := cu; sc_setup_cmds := sc |}
    | _, _, _ => None
    end
  | _ => as_spec12 s
  end.

Definition as_saction (s : sx) : option saction :=
  match s with
  | L (I 0%Z :: r) => option_map SACmds (all_some (map (as_scmd 30) r))
  | L [I 1%Z] => Some SARun
  | _ => None
  end.

Definition of_outcome (o : outcome) : sx :=
  match o with ONormal => I 0%Z | OThrow e => of_exn e | OBlocked => I 4%Z | OFuel => I 5%Z end.

Definition run (s : sx) : sx :=
  match s with
  | L [fu; sps; ty; qu; re; acts] =>
    do fuel <- as_nat fu;
    do specl <- as_list as_spec sps;
    do typed <- as_list (as_opt as_str) ty;
    do quit <- as_opt as_nat qu;
    do run_empty <- as_bool re;
    do actions <- as_list as_saction acts;
    let specs := fun n => nth n specl default_spec in
    let '(os, st) := app_run_all specs specl typed quit run_empty fuel actions in
    L [ of_list of_outcome os;
        of_list of_event (rev (trace st));
        of_list of_nat (map sd_id (st_stack (ust st)));
        of_list of_nat (levels st) ]
  | _ => bad_input
  end.

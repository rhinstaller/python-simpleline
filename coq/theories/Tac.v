(* Tac.v — what the proofs/*.v files share on the side of tactics; no definitions of the model.  The hook makes [lia]
   replace [/] and [mod] (on nat, N and Z) by their Euclidean equations first, so that goals with division and remainder
   are within its reach.  [Ltac ::=] takes effect in every file that requires this one, directly or through another. *)
From Coq Require Export ZArith NArith List Bool Lia ZifyBool ZifyNat ZifyN.
Ltac Zify.zify_post_hook ::= Z.to_euclidean_division_equations.

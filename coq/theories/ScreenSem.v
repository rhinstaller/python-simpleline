(* ScreenSem.v — the screen layer on top of the event loop, as programs [prog sstate]:
     render/screen_scheduler.py  ScreenScheduler (schedule/replace/push/push_modal/close/redraw,
                                 _process_screen, _draw_screen, process_input_result)
     render/screen_stack.py      ScreenStack / ScreenData
     render/screen/__init__.py   UIScreen (setup, show_all + paging prompts, get_user_input)
     render/screen/input_manager.py  InputManager (get_input, get_input_blocking, process_input, _process_input)
     input/input_handler.py      InputHandler (registers an InputReadySignal handler at creation, one-shot callback,
                                 wait_on_input)
     input/input_threading.py    InputThreadManager (request stack, concurrency check, hand-off) and the reader thread
   Each Python method is one definition below, same name, same order of effects.  The application's
   screens are data: a [screen_spec] per screen id says what its callbacks do (commands [scmd]) and answer.
   The reader thread is modelled by the loop's [ext] mechanism: when a thread is started it takes the next
   typed line and its InputReceivedSignal arrives when the loop next finds its active queue empty
   (the canonical timing; other timings are the subject of C19). *)
From Coq Require Import ZArith NArith List Bool.
From RecordUpdate Require Import RecordUpdate.
From SL Require Import PyInt LoopSem.
Import ListNotations.

Definition CLS_RENDER : nat := 1.       (* RenderScreenSignal *)
Definition CLS_CLOSE : nat := 2.        (* CloseScreenSignal *)
Definition CLS_RECEIVED : nat := 3.     (* InputReceivedSignal *)
Definition CLS_READY : nat := 4.        (* InputReadySignal *)
Definition H_RENDER : nat := 0.         (* ScreenScheduler._process_screen_callback *)
Definition H_CLOSE : nat := 1.          (* ScreenScheduler._close_screen_callback *)
Definition H_RECEIVED : nat := 2.       (* InputThreadManager._input_received_handler *)
Definition H_READY (n : nat) : nat := 10 + n.   (* InputHandler n ._input_received_handler *)
(* application-defined signals (SignalHandler.connect / create_signal / emit of a UIScreen): class c, callback k *)
(* class number 99 stands for ExceptionSignal itself: an application may connect its own callback to ExceptionSignal
   (which replaces the loop's kill-the-application handling of failures) *)
Definition CLS_CUSTOM (c : nat) : nat := if (c =? 99)%nat then CLS_EXCEPTION else 5 + c.
Definition H_CUSTOM (k : nat) : nat := 3 + k.     (* k < 7: handler ids 3..9 *)

(* ---- what the application's screens do ---- *)
Inductive ret_val := RProcessed | RRedraw | RClose | RDiscarded | RKey (s : str) | RNone.
Inductive action := ANoop | ARedraw | AClose | AQuit | AError.      (* UserInputAction *)
Inductive answer := AnsNoAttr | AnsTrue | AnsOther.                  (* quit_screen.answer: missing / True / else *)

Inductive scmd :=
| SPush (s args : nat) | SPushModal (s args : nat) | SReplace (s args : nat) | SSchedule (s args : nat)
| SCloseSig            (* self.close(): enqueue CloseScreenSignal(self) *)
| SCloseNow            (* scheduler.close_screen() *)
| SRedrawSig           (* self.redraw(): enqueue RenderScreenSignal(self) *)
| SSchedRedraw         (* scheduler.redraw() *)
| SRaise | SExit | SForceQuit
| SSysExit             (* sys.exit(1) from a callback (ErrorDialog.input does it) *)
| SRedrawOther (s : nat)   (* screens[s].redraw(): a render signal whose source is ANOTHER screen *)
| SCloseOther (s : nat)    (* screens[s].close(): a close signal whose source is another screen *)
| SConnect (c k : nat)     (* self.connect(Custom_c, self.callback_k): register_signal_handler(Custom_c, callback_k, data=None) *)
| SEmit (c : nat) (prio : Z)   (* self.emit(self.create_signal(Custom_c, prio)): a signal of class c whose source is this screen *)
| SProcess             (* App.get_event_loop().process_signals(): dispatch the most urgent batch now, from inside this callback *)
| SGetUserInput        (* self.get_user_input(...): blocking *)
| SSetTypeAhead (b : bool)     (* from now on the user has (b = true) / has not typed ahead: with type-ahead a reader thread
                                  returns at once and its InputReceivedSignal is enqueued before start_input_thread returns *)
| SHandlerAsk (h : nat) (skip : bool)   (* the application's own InputHandler object h (created on first use, source None):
                                           h.skip_concurrency_check = skip; h.get_input(prompt) *)
| SHandlerWait (h : nat)       (* h.wait_on_input(); then look at (h.input_successful(), h.value) *)
| SSetInputRequired (b : bool)
| SSetAnswer (a : answer)
| SMark (n : nat)
| SIfCount (k : nat) (t e : list scmd).     (* earlier invocations of this callback of this screen < k *)

Record screen_spec := {
  sc_setup : list bool;            (* result of the i-th setup() call (last repeats; [] = True); True = calls the base setup *)
  sc_refresh : list scmd;
  sc_show : list scmd;             (* run at the end of show_all() *)
  sc_closed : list scmd;
  sc_input : list (str * (list scmd * ret_val));
  sc_input_default : list scmd * option ret_val;    (* None = return the key itself *)
  sc_prompt_none : bool;           (* prompt() returns None *)
  sc_input_required : bool;
  sc_no_separator : bool;
  sc_skip_check : bool;            (* input_manager.skip_concurrency_check *)
  sc_pages : nat;                  (* "press ENTER to continue" prompts its content needs *)
  sc_answer0 : answer;             (* the screen's `answer` attribute before any callback ran (quit dialogs) *)
  sc_custom : list (list scmd);    (* the screen's own signal callbacks: what callback k does when its signal is dispatched *)
  sc_setup_cmds : list scmd        (* what setup(args) itself does BEFORE it reports its result (and, when that is True, calls the
                                      base setup): `def setup(self, args): <commands>; return super().setup(args) if ok else False` *)
}.
Definition default_spec : screen_spec :=
  {| sc_setup := []; sc_refresh := []; sc_show := []; sc_closed := []; sc_input := [];
     sc_input_default := ([], None); sc_prompt_none := false; sc_input_required := true;
     sc_no_separator := false; sc_skip_check := false; sc_pages := 0; sc_answer0 := AnsNoAttr;
     sc_custom := []; sc_setup_cmds := [] |}.

(* ---- state of the screen layer ---- *)
Record sdata := { sd_id : nat; sd_scr : nat; sd_args : nat; sd_modal : bool }.     (* ScreenData; args: an id, 0 = None *)

Record scrst := {
  ss_ready : bool; ss_input_required : bool; ss_err : nat; ss_input_args : nat; ss_answer : answer;
  ss_n_setup : nat; ss_n_refresh : nat; ss_n_show : nat; ss_n_input : nat; ss_n_closed : nat }.
#[export] Instance eta_scrst : Settable _ :=
  settable! Build_scrst <ss_ready; ss_input_required; ss_err; ss_input_args; ss_answer;
                         ss_n_setup; ss_n_refresh; ss_n_show; ss_n_input; ss_n_closed>.

Record ihandler := {
  ih_src : option nat;      (* handler.source if it is a screen (a registered source); None = an InputManager *)
  ih_owner : nat;           (* the screen whose InputManager created it *)
  ih_cb : bool;             (* one-shot callback (InputManager.process_input of the owner) still set *)
  ih_received : bool; ih_success : bool; ih_value : option str;
  ih_args : nat }.          (* the arguments bound into the callback: those of the request this handler carries *)
#[export] Instance eta_ih : Settable _ := settable! Build_ihandler <ih_src; ih_owner; ih_cb; ih_received; ih_success; ih_value; ih_args>.

Record sstate := {
  st_stack : list sdata;            (* ScreenStack._screens, TOP FIRST *)
  st_first : bool;                  (* _first_screen_scheduled *)
  st_quit : option nat;             (* quit_screen *)
  st_scr : list scrst;              (* per screen id *)
  st_ih : list ihandler;            (* every InputHandler ever created; id = index *)
  st_istack : list nat;             (* InputThreadManager._input_stack, MOST RECENT FIRST *)
  st_processing : bool;             (* _processing_input *)
  st_typed : list (option str);     (* what the user will type: Some line | None = end of file *)
  st_next_sd : nat;
  st_rb : bool;                     (* registers for results of callbacks *)
  st_rv : ret_val;
  st_run_empty : bool;              (* configuration: should_run_with_empty_stack *)
  st_typeahead : bool;              (* the user has typed ahead: the next reader thread gets its line at once *)
  st_hobj : list (nat * nat)        (* the application's own InputHandler objects: name -> index in st_ih *)
}.
#[export] Instance eta_sstate : Settable _ :=
  settable! Build_sstate <st_stack; st_first; st_quit; st_scr; st_ih; st_istack; st_processing; st_typed;
                          st_next_sd; st_rb; st_rv; st_run_empty; st_typeahead; st_hobj>.

Definition scr0 (sp : screen_spec) : scrst :=
  {| ss_ready := false; ss_input_required := sc_input_required sp; ss_err := 0; ss_input_args := 0;
     ss_answer := sc_answer0 sp; ss_n_setup := 0; ss_n_refresh := 0; ss_n_show := 0; ss_n_input := 0; ss_n_closed := 0 |}.

Definition sprog := prog sstate.

(* ---- events of this layer: EUser tag args text ---- *)
Definition T_SETUP := 1.  Definition T_REFRESH := 2.  Definition T_SHOW := 3.  Definition T_SEPARATOR := 4.
Definition T_PROMPT := 5. Definition T_INPUT := 7.    Definition T_CLOSED := 8. Definition T_MODAL_ENTER := 9.
Definition T_MODAL_RETURN := 10. Definition T_REFUSED := 11. Definition T_READY := 12. Definition T_GOT := 13.
Definition T_MARK := 14.  Definition T_STACK := 15.   Definition T_ASK := 16.
Definition T_OP := 17. Definition T_REQ := 18. Definition T_ACTION := 19.
(* T_WAITED [h; n; input_successful(); value is not None] value: what the application sees after h.wait_on_input() *)
Definition T_WAITED := 20.
(* T_CUSTOM [k; scr; 1 + source | 0]: callback k of screen scr is invoked for one of the application's own signals *)
Definition T_CUSTOM := 21.
(* T_SETUP_BEGIN [entry id; scr; args]: a setup() that runs commands of its own is entered (only such setups log it;
   T_SETUP is then logged when setup() returns, with its result) *)
Definition T_SETUP_BEGIN := 22.
(* stack primitives, T_STACK [kind; entry id; screen; args; modal]:  ScreenStack.append / add_first / pop *)
Definition K_APPEND := 0. Definition K_ADD_FIRST := 1. Definition K_POP := 2.
(* scheduler operations, T_OP [kind; screen; args], logged on entry *)
Definition O_SCHEDULE := 0. Definition O_PUSH := 1. Definition O_PUSH_MODAL := 2. Definition O_REPLACE := 3.
Definition O_CLOSE := 4.

Definition ev (tag : nat) (args : list nat) : sprog := PEmit (EUser tag args []).
Definition evt (tag : nat) (args : list nat) (text : str) : sprog := PEmit (EUser tag args text).
Definition b2n (b : bool) : nat := if b then 1 else 0.

Definition rd (f : sstate -> sprog) : sprog := PSt (fun u => (u, f u)).
Definition wr (g : sstate -> sstate) : sprog := PSt (fun u => (g u, PRet)).
Notation "p ;; q" := (PSeq p q) (at level 61, right associativity).

Definition scr_of (u : sstate) (s : nat) : scrst := nth s (st_scr u) (scr0 default_spec).
Fixpoint upd_nth {A} (l : list A) (n : nat) (f : A -> A) : list A :=
  match l, n with
  | [], _ => []
  | a :: r, O => f a :: r
  | a :: r, S k => a :: upd_nth r k f
  end.
Definition upd_scr (s : nat) (f : scrst -> scrst) (u : sstate) : sstate := u <| st_scr := upd_nth (st_scr u) s f |>.
Definition ih_of (u : sstate) (n : nat) : ihandler :=
  nth n (st_ih u) {| ih_src := None; ih_owner := 0; ih_cb := false; ih_received := false; ih_success := false; ih_value := None; ih_args := 0 |}.
Definition upd_ih (n : nat) (f : ihandler -> ihandler) (u : sstate) : sstate := u <| st_ih := upd_nth (st_ih u) n f |>.

Definition render_spec (src : option nat) : sigspec :=
  {| sp_cls := CLS_RENDER; sp_prio := 0%Z; sp_src := src; sp_a := 0; sp_b := false; sp_data := [] |}.
Definition close_spec (scr : nat) : sigspec :=
  {| sp_cls := CLS_CLOSE; sp_prio := 0%Z; sp_src := Some scr; sp_a := 0; sp_b := false; sp_data := [] |}.
Definition received_spec (req : nat) (data : str) : sigspec :=
  {| sp_cls := CLS_RECEIVED; sp_prio := 0%Z; sp_src := None; sp_a := req; sp_b := false; sp_data := data |}.
Definition ready_spec (src : option nat) (handler : nat) (data : str) (ok : bool) : sigspec :=
  {| sp_cls := CLS_READY; sp_prio := 0%Z; sp_src := src; sp_a := handler; sp_b := ok; sp_data := data |}.

Definition raise_exception_signal : sprog := PApi (AEnqueue exception_spec).

Section Screens.
  Variable spec : nat -> screen_spec.

  (* ScreenScheduler.redraw *)
  Definition sched_redraw : sprog := PApi (AEnqueue (render_spec None)).

  Definition new_sd (scr args : nat) (modal : bool) (k : sdata -> sprog) : sprog :=
    rd (fun u => let d := {| sd_id := st_next_sd u; sd_scr := scr; sd_args := args; sd_modal := modal |} in
                 wr (fun u => u <| st_next_sd := S (st_next_sd u) |>) ;; k d).
  Definition ev_stack (kind : nat) (d : sdata) : sprog :=
    ev T_STACK [kind; sd_id d; sd_scr d; sd_args d; b2n (sd_modal d)].

  (* _get_last_screen: raise ExitMainLoop when the stack is empty *)
  Definition with_top (k : sdata -> sprog) : sprog :=
    rd (fun u => match st_stack u with [] => PThrow XExit | top :: _ => k top end).

  (* ---------------- InputThreadManager ---------------- *)
  (* the reader thread: prints the prompt, takes the next typed line, will submit InputReceivedSignal *)
  Definition start_thread (req : nat) : sprog :=
    ev T_PROMPT [req; 0] ;;
    rd (fun u => match st_typed u with
                 | l :: r => wr (fun u => u <| st_typed := r |>) ;;
                             (* the thread's App.get_event_loop().enqueue_signal(InputReceivedSignal(self, data)): with
                                type-ahead it happens before start_thread() returns, else when the loop is idle *)
                             (if st_typeahead u
                              then PApi (AEnqueue (received_spec req (match l with Some s => s | None => [] end)))
                              else PApi (AExtAdd (received_spec req (match l with Some s => s | None => [] end))))
                 | [] => PRet                      (* the user types nothing more: the thread waits for ever *)
                 end).

  (* start_input_thread(request, concurrent_check) *)
  Definition start_input_thread (req : nat) (check : bool) : sprog :=
    wr (fun u => u <| st_istack := req :: st_istack u |>) ;;
    rd (fun u =>
      (if negb (length (st_istack u) =? 1)%nat && check
       then ev T_REFUSED (rev (st_istack u)) ;;
            wr (fun u => u <| st_istack := tl (st_istack u) |>) ;;       (* the refused request is popped *)
            PThrow XError                                               (* KeyError *)
       else PRet) ;;
      rd (fun u => if st_processing u then ev T_PROMPT [req; 1]          (* _print_new_prompt *)
                   else wr (fun u => u <| st_processing := true |>) ;; start_thread req)).

  (* InputRequest.emit_input_ready_signal / emit_failed_input_ready_signal *)
  Definition emit_ready (req : nat) (data : str) (ok : bool) : sprog :=
    rd (fun u => PApi (AEnqueue (ready_spec (ih_src (ih_of u req)) req data ok))).

  Fixpoint emit_failed_all (reqs : list nat) : sprog :=
    match reqs with [] => PRet | r :: rest => emit_ready r [] false ;; emit_failed_all rest end.

  (* InputThreadManager._input_received_handler(signal) *)
  Definition input_received_handler (sg : signal) : sprog :=
    rd (fun u => match st_istack u with
                 | [] => PThrow XError                                   (* pop from empty list *)
                 | top :: rest =>
                   wr (fun u => u <| st_istack := rest |>) ;;
                   emit_ready top (sg_data sg) true ;;
                   emit_failed_all (rev rest) ;;                         (* for t in self._input_stack: oldest first *)
                   wr (fun u => u <| st_istack := [] |> <| st_processing := false |>)
                 end).

  (* InputHandler(source=...): registers its InputReadySignal handler *)
  Definition new_input_handler (src : option nat) (owner : nat) (cb : bool) (k : nat -> sprog) : sprog :=
    rd (fun u => let n := length (st_ih u) in
                 wr (fun u => u <| st_ih := st_ih u ++ [{| ih_src := src; ih_owner := owner; ih_cb := cb;
                                                          ih_received := false; ih_success := false; ih_value := None;
                                                          ih_args := 0 |}] |>) ;;
                 PApi (ARegHandler CLS_READY (H_READY n) 0) ;; k n).

  (* InputHandler.get_input(prompt): _clear_input(); start_input_thread(request, not skip) *)
  Definition handler_get_input (n : nat) (skip : bool) : sprog :=
    wr (upd_ih n (fun h => h <| ih_received := false |> <| ih_value := None |>)) ;;
    start_input_thread n (negb skip).

  (* InputManager.get_input_blocking of screen scr: handler with source = the manager; wait_on_input *)
  Definition get_input_blocking (scr : nat) : sprog :=
    rd (fun u => ev T_ASK [scr; length (st_ih u)]) ;;
    new_input_handler None scr false (fun n =>
      handler_get_input n (sc_skip_check (spec scr)) ;;
      PWhile (fun u => negb (ih_received (ih_of u n))) (PApi (AProcess (Some CLS_READY))) ;;
      ev T_GOT [scr; n]).

  (* the application's own InputHandler objects *)
  Fixpoint hlookup (h : nat) (m : list (nat * nat)) : option nat :=
    match m with [] => None | (k, n) :: r => if (h =? k)%nat then Some n else hlookup h r end.

  Definition handler_ask (self h : nat) (skip : bool) : sprog :=
    rd (fun u => match hlookup h (st_hobj u) with
                 | Some n => handler_get_input n skip
                 | None => new_input_handler None self false (fun n =>
                             wr (fun u => u <| st_hobj := (h, n) :: st_hobj u |>) ;; handler_get_input n skip)
                 end).

  (* InputHandler.wait_on_input(): while not self._input_received: process_signals(InputReadySignal) *)
  Definition handler_wait (h : nat) : sprog :=
    rd (fun u => match hlookup h (st_hobj u) with
                 | Some n =>
                   PWhile (fun u => negb (ih_received (ih_of u n))) (PApi (AProcess (Some CLS_READY))) ;;
                   rd (fun u => evt T_WAITED [h; n; b2n (ih_success (ih_of u n));
                                              b2n (match ih_value (ih_of u n) with Some _ => true | None => false end)]
                                    (match ih_value (ih_of u n) with Some v => v | None => [] end))
                 | None => PRet
                 end).

  (* ---------------- the application's callbacks ---------------- *)
  (* [close_now] = what scheduler.close_screen() means here (see below: the closed() callback runs
     its commands with a dummy, which breaks the recursion closed() -> close_screen() -> closed()) *)
  Fixpoint do_scmd (close_now : sprog) (self count : nat) (c : scmd) {struct c} : sprog :=
    match c with
    | SPush s a =>
      ev T_OP [O_PUSH; s; a] ;;
      new_sd s a false (fun d => wr (fun u => u <| st_stack := d :: st_stack u |>) ;; ev_stack K_APPEND d ;; sched_redraw)
    | SPushModal s a =>
      ev T_OP [O_PUSH_MODAL; s; a] ;;
      new_sd s a true (fun d => wr (fun u => u <| st_stack := d :: st_stack u |>) ;; ev_stack K_APPEND d ;;
                                PApi (ANewLoop (render_spec None)) ;;
                                ev T_MODAL_RETURN [sd_id d; s])
    | SReplace s a =>
      ev T_OP [O_REPLACE; s; a] ;;
      rd (fun u => match st_stack u with
                   | [] => PThrow XError                                 (* ScreenStackEmptyException *)
                   | top :: r => wr (fun u => u <| st_stack := r |>) ;; ev_stack K_POP top ;;
                                 new_sd s a (sd_modal top) (fun d =>
                                   wr (fun u => u <| st_stack := d :: st_stack u |>) ;; ev_stack K_APPEND d ;; sched_redraw)
                   end)
    | SSchedule s a =>
      ev T_OP [O_SCHEDULE; s; a] ;;
      new_sd s a false (fun d => wr (fun u => u <| st_stack := st_stack u ++ [d] |>) ;; ev_stack K_ADD_FIRST d ;;
                                 rd (fun u => if st_first u then PRet
                                              else sched_redraw ;; wr (fun u => u <| st_first := true |>)))
    | SCloseSig => PApi (AEnqueue (close_spec self))
    | SCloseNow => close_now
    | SRedrawSig => PApi (AEnqueue (render_spec (Some self)))
    | SSchedRedraw => sched_redraw
    | SRaise => PThrow XError
    | SExit => PThrow XExit
    | SForceQuit => PApi AForceQuit
    | SSysExit => PThrow XSysExit
    | SRedrawOther s => PApi (AEnqueue (render_spec (Some s)))
    | SCloseOther s => PApi (AEnqueue (close_spec s))
    | SConnect c k => PApi (ARegHandler (CLS_CUSTOM c) (H_CUSTOM k) self)
    | SEmit c p => PApi (AEnqueue {| sp_cls := CLS_CUSTOM c; sp_prio := p; sp_src := Some self; sp_a := 0; sp_b := false;
                                    sp_data := [] |})
    | SProcess => PApi (AProcess None)
    | SGetUserInput => get_input_blocking self
    | SSetTypeAhead b => wr (fun u => u <| st_typeahead := b |>)
    | SHandlerAsk h skip => handler_ask self h skip
    | SHandlerWait h => handler_wait h
    | SSetInputRequired b => wr (upd_scr self (fun s => s <| ss_input_required := b |>))
    | SSetAnswer a => wr (upd_scr self (fun s => s <| ss_answer := a |>))
    | SMark n => ev T_MARK [self; n]
    | SIfCount k t e =>
      let fix seq (l : list scmd) : sprog := match l with [] => PRet | x :: r => do_scmd close_now self count x ;; seq r end in
      if (count <? k)%nat then seq t else seq e
    end.
  Fixpoint do_scmds (close_now : sprog) (self count : nat) (l : list scmd) : sprog :=
    match l with [] => PRet | x :: r => do_scmd close_now self count x ;; do_scmds close_now self count r end.

  (* ---------------- ScreenScheduler.close_screen ---------------- *)
  (* screen.ui_screen.closed(): a closed() callback that itself calls scheduler.close_screen() synchronously
     is outside the model (marked 999) *)
  Definition call_closed (d : sdata) : sprog :=
    rd (fun u => let n := ss_n_closed (scr_of u (sd_scr d)) in
      wr (upd_scr (sd_scr d) (fun s => s <| ss_n_closed := S n |>)) ;;
      ev T_CLOSED [sd_id d; sd_scr d] ;;
      do_scmds (ev T_MARK [sd_scr d; 999]) (sd_scr d) n (sc_closed (spec (sd_scr d)))).

  Definition close_screen (closed_from : option nat) : sprog :=
    ev T_OP [O_CLOSE; match closed_from with Some c => S c | None => 0 end; 0] ;;
    rd (fun u => match st_stack u with
      | [] => PThrow XError                                            (* ScreenStackEmptyException *)
      | top :: r =>
        wr (fun u => u <| st_stack := r |>) ;; ev_stack K_POP top ;;
        call_closed top ;;
        (match closed_from with
         | Some c => if (c =? sd_scr top)%nat then PRet else PThrow XError   (* RenderUnexpectedError *)
         | None => PRet end) ;;
        (if sd_modal top then PApi ACloseLoop else PRet) ;;
        rd (fun u => match st_stack u with
                     | _ :: _ => if sd_modal top then PRet else sched_redraw
                     | [] => PRet end) ;;
        rd (fun u => match st_stack u with [] => PThrow XExit | _ => PRet end)
      end).

  Definition run_cmds (self count : nat) (l : list scmd) : sprog := do_scmds (close_screen None) self count l.

  (* ---------------- UIScreen callbacks ---------------- *)
  Definition nth_last (l : list bool) (n : nat) : bool :=
    match l with [] => true | _ => nth n l (last l true) end.

  (* top_screen.ui_screen.setup(args): result in st_rb; the base setup sets ready and registers the source *)
  Definition call_setup_plain (d : sdata) : sprog :=
    rd (fun u => let scr := sd_scr d in
      let n := ss_n_setup (scr_of u scr) in
      let ok := nth_last (sc_setup (spec scr)) n in
      wr (upd_scr scr (fun s => s <| ss_n_setup := S n |>)) ;;
      ev T_SETUP [sd_id d; scr; sd_args d; b2n ok] ;;
      (if ok then wr (upd_scr scr (fun s => s <| ss_ready := true |>)) ;; PApi (ARegSource scr) else PRet) ;;
      wr (fun u => u <| st_rb := ok |>)).

  (* a setup() that does something itself first (pushes a screen, opens a dialog, emits a signal, raises ...): the commands
     run inside the setup() call, i.e. inside _process_screen and OUTSIDE its try block — an exception leaves the handler *)
  Definition call_setup_cmds (d : sdata) (cmds : list scmd) : sprog :=
    rd (fun u => let scr := sd_scr d in
      let n := ss_n_setup (scr_of u scr) in
      let ok := nth_last (sc_setup (spec scr)) n in
      wr (upd_scr scr (fun s => s <| ss_n_setup := S n |>)) ;;
      ev T_SETUP_BEGIN [sd_id d; scr; sd_args d] ;;
      run_cmds scr n cmds ;;
      ev T_SETUP [sd_id d; scr; sd_args d; b2n ok] ;;
      (if ok then wr (upd_scr scr (fun s => s <| ss_ready := true |>)) ;; PApi (ARegSource scr) else PRet) ;;
      wr (fun u => u <| st_rb := ok |>)).

  Definition call_setup (d : sdata) : sprog :=
    match sc_setup_cmds (spec (sd_scr d)) with
    | [] => call_setup_plain d
    | cmds => call_setup_cmds d cmds
    end.

  Definition call_refresh (d : sdata) : sprog :=
    rd (fun u => let scr := sd_scr d in
      let n := ss_n_refresh (scr_of u scr) in
      wr (upd_scr scr (fun s => s <| ss_n_refresh := S n |>)) ;;
      ev T_REFRESH [sd_id d; scr; sd_args d] ;;
      run_cmds scr n (sc_refresh (spec scr))).

  (* show_all(): window.render + _print_widget (sc_pages continue prompts), then the screen's own commands *)
  Fixpoint ask_pages (scr k : nat) : sprog :=
    match k with O => PRet | S k' => get_input_blocking scr ;; ask_pages scr k' end.
  Definition call_show_all (d : sdata) : sprog :=
    rd (fun u => let scr := sd_scr d in
      let n := ss_n_show (scr_of u scr) in
      wr (upd_scr scr (fun s => s <| ss_n_show := S n |>)) ;;
      ev T_SHOW [sd_id d; scr] ;;
      ask_pages scr (sc_pages (spec scr)) ;;
      run_cmds scr n (sc_show (spec scr))).

  Fixpoint assoc_str (k : str) (l : list (str * (list scmd * ret_val))) : option (list scmd * ret_val) :=
    match l with
    | [] => None
    | (k', v) :: r => if (length k =? length k')%nat && forallb (fun p => (fst p =? snd p)%N) (combine k k') then Some v else assoc_str k r
    end.

  (* self._ui_screen.input(self._input_args, key): the answer goes to st_rv *)
  Definition call_input (scr : nat) (key : str) : sprog :=
    rd (fun u =>
      let n := ss_n_input (scr_of u scr) in
      let '(cmds, rv) := match assoc_str key (sc_input (spec scr)) with
                         | Some (c, r) => (c, r)
                         | None => (fst (sc_input_default (spec scr)),
                                    match snd (sc_input_default (spec scr)) with Some r => r | None => RKey key end)
                         end in
      wr (upd_scr scr (fun s => s <| ss_n_input := S n |>)) ;;
      evt T_INPUT [scr; ss_input_args (scr_of u scr)] key ;;
      run_cmds scr n cmds ;;
      wr (fun u => u <| st_rv := rv |>)).

  (* InputManager._process_input: the table InputState / global keys -> UserInputAction *)
  Definition str1 (c : N) (s : str) : bool := match s with [x] => (x =? c)%N | _ => false end.
  Definition action_of (rv : ret_val) : action :=
    match rv with
    | RProcessed => ANoop | RRedraw => ARedraw | RClose => AClose | RDiscarded => AError
    | RKey k => if str1 114 k then ARedraw            (* Prompt.REFRESH  'r' *)
                else if str1 99 k then AClose         (* Prompt.CONTINUE 'c' *)
                else if str1 113 k then AQuit         (* Prompt.QUIT     'q' *)
                else AError
    | RNone => AError
    end.

  (* ---------------- InputManager.get_input / ScreenScheduler.process_input_result ---------------- *)
  (* InputManager.get_input(args) of screen scr *)
  Definition get_input (scr args : nat) : sprog :=
    if sc_prompt_none (spec scr)
    then wr (upd_scr scr (fun s => s <| ss_err := 0 |>))              (* prompt() returned None *)
    else
      rd (fun u => ev T_REQ [scr; args; length (st_ih u)]) ;;        (* prompt(args) returned a prompt *)
      wr (upd_scr scr (fun s => s <| ss_input_args := args |>)) ;;
      (* handler.set_callback(partial(self._process_request_input, args)): the arguments belong to the request *)
      new_input_handler (Some scr) scr true (fun n =>
        wr (upd_ih n (fun h => h <| ih_args := args |>)) ;; handler_get_input n (sc_skip_check (spec scr))).

  Definition push_screen_modal (s a : nat) : sprog := do_scmd PRet 0 0 (SPushModal s a).

  Definition process_input_result (act : action) (should_redraw : bool) : sprog :=
    with_top (fun active =>
      match act with
      | AError => if should_redraw then sched_redraw else get_input (sd_scr active) (sd_args active)
      | ANoop => PRet
      | ARedraw => sched_redraw
      | AClose => close_screen None
      | AQuit =>
        rd (fun u => match st_quit u with
          | Some qs =>
            push_screen_modal qs 0 ;;
            rd (fun u => match ss_answer (scr_of u qs) with
                         | AnsTrue => PThrow XExit
                         | AnsNoAttr => PThrow XExit          (* AttributeError -> ExitMainLoop *)
                         | AnsOther => sched_redraw end)
          | None => PThrow XExit
          end)
      end).

  (* InputManager.process_input(user_input) of screen scr *)
  Definition process_input (scr : nat) (line : str) : sprog :=
    wr (fun u => u <| st_rb := false |>) ;;
    PTry (call_input scr line ;; wr (fun u => u <| st_rb := true |>))
         (raise_exception_signal ;; wr (fun u => u <| st_rb := false |>)) ;;   (* except Exception: enqueue ExceptionSignal; return *)
    rd (fun u => if st_rb u then
      let act := action_of (st_rv u) in
      ev T_ACTION [scr; match act with ANoop => 0 | ARedraw => 1 | AClose => 2 | AQuit => 3 | AError => 4 end] ;;
      wr (upd_scr scr (fun s => match act with AError => s <| ss_err := S (ss_err s) |> | _ => s <| ss_err := 0 |> end)) ;;
      rd (fun u => process_input_result act (Nat.modulo (ss_err (scr_of u scr)) 5 =? 0)%nat)
    else PRet).

  (* InputHandler n ._input_received_handler(signal, args) *)
  Definition input_ready_handler (n : nat) (sg : signal) : sprog :=
    if negb (sg_a sg =? n)%nat then PRet                  (* signal.input_handler_source != self *)
    else
      wr (upd_ih n (fun h => h <| ih_received := true |> <| ih_success := sg_b sg |>)) ;;
      evt T_READY [n; b2n (sg_b sg)] (sg_data sg) ;;
      if negb (sg_b sg) then PRet
      else
        wr (upd_ih n (fun h => h <| ih_value := Some (sg_data sg) |>)) ;;
        rd (fun u => if ih_cb (ih_of u n)
                     then wr (upd_ih n (fun h => h <| ih_cb := false |>)) ;;
                          (* _process_request_input(args, user_input): self._input_args = args; self.process_input(user_input) *)
                          wr (upd_scr (ih_owner (ih_of u n)) (fun s => s <| ss_input_args := ih_args (ih_of u n) |>)) ;;
                          process_input (ih_owner (ih_of u n)) (sg_data sg)
                     else PRet).

  (* ---------------- ScreenScheduler._process_screen / _draw_screen ---------------- *)
  Definition draw_screen (d : sdata) : sprog :=
    PTry ((if sc_no_separator (spec (sd_scr d)) then PRet else ev T_SEPARATOR [sd_scr d]) ;; call_show_all d)
         raise_exception_signal.

  Definition process_screen : sprog :=
    with_top (fun top =>
      let scr := sd_scr top in
      rd (fun u => if ss_ready (scr_of u scr) then wr (fun u => u <| st_rb := true |>) else call_setup top) ;;
      rd (fun u =>
        if negb (st_rb u) then
          (* self._screen_stack.pop(); modal: close its loop (fix b544e1f), else redraw; return *)
          rd (fun u => match st_stack u with
                       | t :: r => wr (fun u => u <| st_stack := r |>) ;; ev_stack K_POP t
                       | [] => PThrow XError end) ;;
          (if sd_modal top then PApi ACloseLoop else sched_redraw)
        else
          PApi (ARegSource scr) ;;                        (* fix 359cd83 *)
          PTry (call_refresh top ;;
                with_top (fun top' =>
                  if (sd_id top' =? sd_id top)%nat then
                    draw_screen top ;;
                    rd (fun u => if ss_input_required (scr_of u scr) then get_input scr (sd_args top) else PRet)
                  else PRet))                              (* the screen was closed / replaced in refresh() *)
               raise_exception_signal)).

  (* ---------------- the handler table ---------------- *)
  (* a screen's own signal callback k, connected by screen `scr` (the registered data): callback(signal, data) *)
  Definition custom_handler (k : nat) (sg : signal) (scr : nat) : sprog :=
    ev T_CUSTOM [k; scr; match sg_src sg with Some x => S x | None => 0 end] ;;
    run_cmds scr 0 (nth k (sc_custom (spec scr)) []).

  Definition screen_code (hid : nat) (sg : signal) (data : nat) : sprog :=
    if (hid =? H_RENDER)%nat then process_screen
    else if (hid =? H_CLOSE)%nat then close_screen (sg_src sg)       (* close_screen(signal.source) *)
    else if (hid =? H_RECEIVED)%nat then input_received_handler sg
    else if (10 <=? hid)%nat then input_ready_handler (hid - 10) sg
    else if (3 <=? hid)%nat then custom_handler (hid - 3) sg data      (* H_CUSTOM k, registered with data = the screen *)
    else PRet.

  (* App.initialize(): ScreenScheduler registers its two handlers, InputThreadManager its own *)
  Definition app_initialize : sprog :=
    PApi (ARegHandler CLS_RENDER H_RENDER 0) ;; PApi (ARegHandler CLS_CLOSE H_CLOSE 0) ;;
    PApi (ARegHandler CLS_RECEIVED H_RECEIVED 0).
End Screens.

Definition sstate0 (specs : list screen_spec) (typed : list (option str)) (quit : option nat) (run_empty : bool) : sstate :=
  {| st_stack := []; st_first := false; st_quit := quit; st_scr := map scr0 specs; st_ih := []; st_istack := [];
     st_processing := false; st_typed := typed; st_next_sd := 0; st_rb := false; st_rv := RNone;
     st_run_empty := run_empty; st_typeahead := false; st_hobj := [] |}.


(* no screen's setup() does anything but report its result (a hypothesis of theorems of props/C05.v; C04 and C08 ask
   less: [failing_setup_plain] of proofs/ScreenLink.v) *)
Definition plain_setup (specs : nat -> screen_spec) : Prop := forall s, sc_setup_cmds (specs s) = [].

(* ---- a whole application session ---- *)
Inductive saction := SACmds (l : list scmd) | SARun.

(* the application's session: App.initialize(), then the actions; App.run() refuses an empty stack *)
Fixpoint app_session (specs : nat -> screen_spec) (fuel : nat) (acts : list saction) (s : lstate sstate)
  : list outcome * lstate sstate :=
  match acts with
  | [] => ([], s)
  | a :: r =>
    let '(o, s1) :=
      match a with
      | SACmds l => exec (screen_code specs) fuel (CProg (run_cmds specs 0 0 l)) (emit ETop s)
      | SARun =>
        match st_stack (ust s), st_run_empty (ust s) with
        | [], false => (OThrow XError, emit ETop s)                 (* NothingScheduledError *)
        | _, _ => exec (screen_code specs) fuel CRun (emit ETop s)
        end
      end in
    match o with
    | OBlocked | OFuel | OThrow XSysExit => ([o], s1)
    | _ => let '(os, s2) := app_session specs fuel r s1 in (o :: os, s2)
    end
  end.


(* App.initialize() on a fresh loop, then the session *)
Definition app_run_all (specs : nat -> screen_spec) (specl : list screen_spec) (typed : list (option str))
           (quit : option nat) (run_empty : bool) (fuel : nat) (acts : list saction) : list outcome * lstate sstate :=
  let s0 := init_state (sstate0 specl typed quit run_empty) in
  let '(_, s1) := exec (screen_code specs) 20 (CProg app_initialize) s0 in
  app_session specs fuel acts s1.

(* AdvWidgets.v — simpleline/render/adv_widgets.py: the stock dialogs, as data of the screen-layer model.

   Every class of adv_widgets.py is a UIScreen subclass that overrides refresh / prompt / input (and
   defines the `answer` property); ScreenSem.v describes what a screen's callbacks do by a [screen_spec].
   For each stock class this file gives THE spec that describes it, so that every theorem quantified over
   tables of specs (C04..C08, C18, C17's separator clause) speaks about applications that use the stock
   dialogs, next to their own screens.  Definitions only; the facts are in proofs/AdvWidgetsProofs.v and
   props/Adv.v.  drv/Drv_advspec.v prints these specs in the wire format of drv/Drv_screen.v; the harness
   (harness/adv_specs.py, checks/adv_corr.py) compares them with its own copy and runs sessions on the REAL
   classes against the model run on these specs.

   Modelled: the return value of input() for every key (InputState / exit), the `answer` attribute as the
   quit protocol of ScreenScheduler.process_input_result sees it (missing / True / anything else), that
   prompt() returns a prompt, input_required (True: never changed by the stock classes), no_separator
   (False: never changed), no stack operation in any callback, content that fits one page.
   Abstracted: the widgets put into the window by refresh() (title, message, help text: C15/C16/C17 are about
   rendering), the text of the prompt, the stored value (`GetInputScreen.value`, the password string), how
   the line is read (input() or getpass: `hide_user_input` only selects PasswordInputHandler, whose request
   goes through the same InputThreadManager), translation (the keys are the untranslated "yes" / "no").

   Said with [sc_answer0] and [SSysExit] of ScreenSem.v:
   (G1) the initial value of `answer`: YesNoDialog and PasswordDialog define the property in the class, initially
        None; [sc_answer0 := AnsOther] says so (it holds before any callback ran, also for a quit dialog that was
        never rendered: push_screen_modal() that returns at once after force_quit()).
   (G2) ErrorDialog.input() calls sys.exit(1): [SSysExit] (SystemExit passes `except Exception` of
        InputManager.process_input and `except ExitMainLoop` of run(), the session ends).
   What the vocabulary of ScreenSem.v cannot say:
   (G3) PasswordDialog.prompt() does the work itself: it creates a PasswordInputHandler with source = the
        screen, waits for the line, stores it, calls self.close() when the input was successful, and returns
        None.  A spec's prompt is only "None or not"; the nearest description is "the last thing show_all()
        does is a blocking get_user_input(), then self.close()" ([password_dialog_spec]).  Differences:
        the source of the InputReadySignal is the screen, not its InputManager; a failed request (another
        request overlapped) does not close.  PasswordDialog.input() is described exactly, but the scheduler
        never calls it (prompt() returns None). *)
From Coq Require Import ZArith NArith List Bool.
From SL Require Import PyInt LoopSem ScreenSem.
Import ListNotations.

Definition s_yes : str := [121; 101; 115]%N.     (* C_('TUI|Spoke Navigation', 'yes') = "yes" *)
Definition s_no : str := [110; 111]%N.           (* C_('TUI|Spoke Navigation', 'no')  = "no"  *)

(* a UIScreen subclass that overrides nothing *)
Definition stock_base : screen_spec :=
  {| sc_setup := [];                 (* UIScreen.setup: always True *)
     sc_refresh := []; sc_show := []; sc_closed := [];
     sc_input := []; sc_input_default := ([], None);      (* UIScreen.input returns the key *)
     sc_prompt_none := false; sc_input_required := true; sc_no_separator := false; sc_skip_check := false;
     sc_pages := 0; sc_answer0 := AnsNoAttr; sc_custom := []; sc_setup_cmds := [] |}.

(* ---------------------------------------------------------------- YesNoDialog
   input(args, key):  key == "yes": _response = True;  return PROCESSED_AND_CLOSE
                      key == "no":  _response = False; return PROCESSED_AND_CLOSE
                      return DISCARDED                       (also for c / r / q: no global key inside the dialog)
   answer: _response (None | True | False);  prompt(): Prompt("Please respond 'yes' or 'no'") *)
Definition yes_no_dialog_spec : screen_spec :=
  {| sc_setup := []; sc_refresh := []; sc_show := []; sc_closed := [];
     sc_input := [ (s_yes, ([SSetAnswer AnsTrue], RClose)); (s_no, ([SSetAnswer AnsOther], RClose)) ];
     sc_input_default := ([], Some RDiscarded);
     sc_prompt_none := false; sc_input_required := true; sc_no_separator := false; sc_skip_check := false;
     sc_pages := 0; sc_answer0 := AnsOther;     (* self._response = None in __init__ *)
     sc_custom := []; sc_setup_cmds := [] |}.

(* ---------------------------------------------------------------- ErrorDialog
   input(args, key): sys.exit(1)   = [SSysExit];  no `answer`;  prompt(): Prompt("Press ENTER to exit") *)
Definition error_dialog_spec : screen_spec :=
  {| sc_setup := []; sc_refresh := []; sc_show := []; sc_closed := [];
     sc_input := []; sc_input_default := ([SSysExit], Some RNone);
     sc_prompt_none := false; sc_input_required := true; sc_no_separator := false; sc_skip_check := false;
     sc_pages := 0; sc_answer0 := AnsNoAttr; sc_custom := []; sc_setup_cmds := [] |}.

(* ---------------------------------------------------------------- HelpScreen
   input(args, key): return PROCESSED_AND_CLOSE;  no `answer`;  prompt(): Prompt("Press ENTER to return").
   refresh() reads the help file: its text is content (abstracted; here: it fits one page) *)
Definition help_screen_spec : screen_spec :=
  {| sc_setup := []; sc_refresh := []; sc_show := []; sc_closed := [];
     sc_input := []; sc_input_default := ([], Some RClose);
     sc_prompt_none := false; sc_input_required := true; sc_no_separator := false; sc_skip_check := false;
     sc_pages := 0; sc_answer0 := AnsNoAttr; sc_custom := []; sc_setup_cmds := [] |}.

(* ---------------------------------------------------------------- GetInputScreen / GetPasswordInputScreen
   input(args, key): if not self._test_input(key): return DISCARDED
                     self._value = key; return PROCESSED_AND_CLOSE
   _test_input(key): for f, args in self._conditions: if not f(key, args): return False;  return True
   An acceptance condition is a function of the key; with a finite table of literal keys plus a default
   ([sc_input], [sc_input_default]) exactly the conditions "key is one of l" / "key is none of l" and their
   conjunctions can be written ([CondIn []] = never, [CondNotIn []] = always).  Conditions are pure
   (no side effects, no exceptions), so that the short-circuit of _test_input is not observable. *)
Inductive acond := CondIn (l : list str) | CondNotIn (l : list str).

Definition str_eqb (a b : str) : bool :=                      (* the comparison of ScreenSem.assoc_str *)
  (length a =? length b)%nat && forallb (fun p => (fst p =? snd p)%N) (combine a b).
Definition mem_str (k : str) (l : list str) : bool := existsb (str_eqb k) l.
Definition cond_accepts (c : acond) (k : str) : bool :=
  match c with CondIn l => mem_str k l | CondNotIn l => negb (mem_str k l) end.
Definition test_input (conds : list acond) (k : str) : bool := forallb (fun c => cond_accepts c k) conds.

Definition cond_keys (c : acond) : list str := match c with CondIn l => l | CondNotIn l => l end.
Definition cond_default (c : acond) : bool := match c with CondIn _ => false | CondNotIn _ => true end.
Definition accept_ret (b : bool) : ret_val := if b then RClose else RDiscarded.

Definition get_input_screen_spec (conds : list acond) : screen_spec :=
  {| sc_setup := []; sc_refresh := []; sc_show := []; sc_closed := [];
     sc_input := map (fun k => (k, ([], accept_ret (test_input conds k)))) (flat_map cond_keys conds);
     sc_input_default := ([], Some (accept_ret (forallb cond_default conds)));
     sc_prompt_none := false; sc_input_required := true; sc_no_separator := false; sc_skip_check := false;
     sc_pages := 0; sc_answer0 := AnsNoAttr; sc_custom := []; sc_setup_cmds := [] |}.

(* GetPasswordInputScreen = GetInputScreen with hide_user_input = True (the line is read by getpass) *)
Definition get_password_input_screen_spec (conds : list acond) : screen_spec := get_input_screen_spec conds.

(* ---------------------------------------------------------------- PasswordDialog  -- (G3)
   prompt(): handler = PasswordInputHandler(source=self); handler.get_input(...); handler.wait_on_input()
             if not handler.input_successful(): return None
             self._password = handler.value; self.close(); return None
   input(args, key): if key: _password = key; return PROCESSED_AND_CLOSE;  return DISCARDED
   answer: _password (None | the string): never `True` *)
Definition password_dialog_spec : screen_spec :=
  {| sc_setup := []; sc_refresh := [];
     sc_show := [SGetUserInput; SCloseSig];
     sc_closed := [];
     sc_input := [ ([], ([], RDiscarded)) ]; sc_input_default := ([SSetAnswer AnsOther], Some RClose);
     sc_prompt_none := true; sc_input_required := true; sc_no_separator := false; sc_skip_check := false;
     sc_pages := 0; sc_answer0 := AnsOther;     (* self._password = None in __init__ *)
     sc_custom := []; sc_setup_cmds := [] |}.

(* ---------------------------------------------------------------- the kinds the harness can ask for *)
Inductive adv_kind :=
| KYesNo | KError | KHelp | KGetInput (conds : list acond) | KGetPasswordInput (conds : list acond) | KPassword.

Definition adv_spec (k : adv_kind) : screen_spec :=
  match k with
  | KYesNo => yes_no_dialog_spec
  | KError => error_dialog_spec
  | KHelp => help_screen_spec
  | KGetInput c => get_input_screen_spec c
  | KGetPasswordInput c => get_password_input_screen_spec c
  | KPassword => password_dialog_spec
  end.

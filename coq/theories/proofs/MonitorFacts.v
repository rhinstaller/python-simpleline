(* MonitorFacts.v — facts about the observer of the loop's trace (Monitors.v) that do not depend on any invariant:
   its finite maps, [world_step] field by field, and what [run_mon] does when one more event is appended. *)
From SL Require Import Tac.
From RecordUpdate Require Import RecordUpdate.
From SL Require Import LoopSem Monitors.
Import ListNotations.

Lemma lookup_update {A} k' k (f : option A -> A) m :
  lookup k' (update k f m) = if (k' =? k)%nat then Some (f (lookup k m)) else lookup k' m.
Proof.
  induction m as [|[k0 v] r IH]; cbn.
  - destruct (k' =? k)%nat; reflexivity.
  - destruct (k =? k0)%nat eqn:E; cbn.
    + apply Nat.eqb_eq in E; subst k0. destruct (k' =? k)%nat; reflexivity.
    + rewrite IH. destruct (k' =? k)%nat eqn:E2; [|reflexivity].
      apply Nat.eqb_eq in E2; subst k'. rewrite E. reflexivity.
Qed.

Lemma update_add_handler hs cls hid data :
  update cls (fun o => match o with Some l => l ++ [(hid, data)] | None => [(hid, data)] end) hs
  = add_handler hs cls hid data.
Proof.
  induction hs as [|[c l] r IH]; cbn; [reflexivity|].
  rewrite (Nat.eqb_sym cls c). destruct (c =? cls)%nat; [reflexivity|]. f_equal. exact IH.
Qed.

Lemma lookup_find {A} k (m : list (nat * A)) :
  lookup k m = option_map snd (find (fun p => (fst p =? k)%nat) m).
Proof.
  induction m as [|[k0 v] r IH]; cbn; [reflexivity|].
  rewrite (Nat.eqb_sym k k0). destruct (k0 =? k)%nat; [reflexivity|exact IH].
Qed.

(* [world_step] field by field.  It branches on more than the event (an ExceptionSignal expected, the kind of wait ...):
   a field is read off once those tests are decided.  The intro pattern of [ws_cases] is by position over the
   constructors of [event]: it has to follow every change of that type. *)
Ltac ws_cases w e :=
  destruct e as [| | | | | | | | |? ? [[| |]|]| | | | |[?|] ?|[?|] ?| | | | | | | | |]; cbn [world_step];
  try match goal with
      | |- context [(w_expect_exc w =? ?n)%nat] => destruct (w_expect_exc w =? n)%nat
      | |- context [if w_fq w then _ else _] => destruct (w_fq w) eqn:?
      | |- context [last_opt (removelast (w_levels w))] => destruct (last_opt (removelast (w_levels w)))
      end.

Lemma ws_sig w e : w_sig (world_step w e) =
  match e with ESigNew sid c p src => (sid, (c, p, src)) :: w_sig w | _ => w_sig w end.
Proof. ws_cases w e; reflexivity. Qed.
Lemma ws_hand w e : w_hand (world_step w e) =
  match e with ERegHandler c h d => add_handler (w_hand w) c h d | _ => w_hand w end.
Proof. ws_cases w e; try reflexivity. apply update_add_handler. Qed.
Lemma ws_levels w e : w_levels (world_step w e) =
  match e with
  | ENewLoopEnter q => w_levels w ++ [q] | EClosePop _ => removelast (w_levels w) | EForceQuit => []
  | _ => w_levels w
  end.
Proof. ws_cases w e; reflexivity. Qed.
Lemma ws_active w e : w_active (world_step w e) =
  match e with
  | ENewLoopEnter q => q
  | EClosePop _ => match last_opt (removelast (w_levels w)) with Some a => a | None => w_active w end
  | _ => w_active w
  end.
Proof. ws_cases w e; reflexivity. Qed.
Lemma ws_sources w e q : sources (world_step w e) q =
  match e with
  | ERegSource o q0 => if (q =? q0)%nat then (if existsb (Nat.eqb o) (sources w q) then sources w q else sources w q ++ [o])
                       else sources w q
  | _ => sources w q
  end.
Proof.
  ws_cases w e; try reflexivity. unfold sources; cbn. rewrite lookup_update.
  destruct (Nat.eqb_spec q q0) as [->|]; [destruct (lookup q0 (w_src w))|]; reflexivity.
Qed.
Lemma ws_pend w e q : pend (world_step w e) q =
  match e with
  | EEnq sid q0 => if (q =? q0)%nat then stable_insert (sig_prio w sid) sid (pend w q) else pend w q
  | EDispatch _ q0 _ => if (q =? q0)%nat then tl (pend w q) else pend w q
  | _ => pend w q
  end.
Proof.
  ws_cases w e; try reflexivity; unfold pend; cbn; rewrite lookup_update;
    (destruct (Nat.eqb_spec q q0) as [->|]; [|reflexivity]); [reflexivity..|].
  destruct (lookup q0 (w_pend w)) as [[|x r]|]; reflexivity.
Qed.
Lemma ws_fq w e : w_fq (world_step w e) = match e with EForceQuit => true | ERunEnter => false | _ => w_fq w end.
Proof. ws_cases w e; reflexivity || assumption. Qed.
Lemma ws_quit w e : w_quit (world_step w e) = match e with ESetQuitCb a => Some a | _ => w_quit w end.
Proof. ws_cases w e; reflexivity. Qed.
Lemma ws_runloop w e : w_runloop (world_step w e) =
  match e with
  | ENewLoopReturn _ => if w_fq w then w_runloop w else true
  | EClosePop _ | EForceQuit => false
  | ERunEnter => true
  | _ => w_runloop w
  end.
Proof. ws_cases w e; reflexivity. Qed.
Lemma ws_stillborn w e : w_stillborn (world_step w e) =
  match e with
  | ENewLoopEnter q => if w_runloop w then w_stillborn w else q :: w_stillborn w
  | _ => w_stillborn w
  end.
Proof. ws_cases w e; reflexivity. Qed.
#[global] Hint Rewrite ws_sig ws_hand ws_levels ws_active ws_sources ws_pend ws_fq ws_quit ws_runloop ws_stillborn : ws.

(* the same for the fields the delivery monitor reads *)
Definition expect_step (n : nat) (e : event) : nat :=
  match e with
  | ESigNew _ _ _ _ => if (n =? 1)%nat then 2 else n
  | EEnq _ _ | EDropped _ => if (n =? 2)%nat then 0 else n
  | EHandlerEnd _ _ (Some XError) => 1
  | ETop => 0
  | _ => n
  end.

Definition frames_step (cls : nat -> nat) (F : list frame) (e : event) : list frame :=
  match e with
  | EDispatch sid _ _ => {| f_sid := sid; f_cls := cls sid; f_idx := 0; f_in := false |} :: F
  | EHandler _ _ _ => match F with f :: r => (f <| f_in := true |>) :: r | [] => [] end
  | EHandlerEnd _ sid (None | Some XError) =>
    match unwind_to sid F with f :: r => (f <| f_in := false |> <| f_idx := S (f_idx f) |>) :: r | [] => [] end
  | EHandlerEnd _ sid _ => tl (unwind_to sid F)
  | EDispatchEnd _ => tl F
  | ERunEnter | ETop => []
  | _ => F
  end.

Lemma ws_killed w e : w_killed (world_step w e) = match e with EKill => true | _ => w_killed w end.
Proof. ws_cases w e; reflexivity. Qed.
Lemma ws_expect w e : w_expect_exc (world_step w e) = expect_step (w_expect_exc w) e.
Proof. unfold expect_step. ws_cases w e; reflexivity. Qed.
Lemma ws_frames w e : w_frames (world_step w e) = frames_step (sig_cls w) (w_frames w) e.
Proof. ws_cases w e; reflexivity. Qed.

(* ... and for the stacks of waits and of non-waiting process_signals() *)
Definition release_cls (c : nat) (t : waiter) : waiter :=
  if (wt_cls t =? c)%nat then t <| wt_released := true |> else t.

Lemma ws_waiters w e : w_waiters (world_step w e) =
  match e with
  | EDispatch sid _ _ => map (release_cls (sig_cls w sid)) (w_waiters w)
  | EProcEnter (Some c) t =>
    {| wt_cls := c; wt_ticket := t; wt_released := false; wt_depth := length (w_frames w) |} :: w_waiters w
  | EProcReturn (Some _) t => filter (fun x => negb (wt_ticket x =? t)%nat) (w_waiters w)
  | ERunEnter | ETop => []
  | _ => w_waiters w
  end.
Proof. ws_cases w e; reflexivity. Qed.
Lemma ws_iters w e : w_iters (world_step w e) =
  match e with
  | EDispatch sid _ _ =>
    match w_iters w with
    | (dp, None) :: r => if (dp =? length (w_frames w))%nat then (dp, Some (sig_prio w sid)) :: r else w_iters w
    | _ => w_iters w
    end
  | EProcEnter None _ => (length (w_frames w), None) :: w_iters w
  | EProcReturn None _ => tl (w_iters w)
  | ERunEnter | ETop => []
  | _ => w_iters w
  end.
Proof. ws_cases w e; reflexivity. Qed.
#[global] Hint Rewrite ws_killed ws_expect ws_frames ws_waiters ws_iters : ws.

Lemma w_stillborn_step w e : incl (w_stillborn w) (w_stillborn (world_step w e)).
Proof.
  rewrite ws_stillborn. destruct e; try apply incl_refl. destruct (w_runloop w); [apply incl_refl|apply incl_tl, incl_refl].
Qed.

(* [run_mon] when one more event is appended; ScreenFacts.v has the same three lemmas, by the same proofs, for the screen
   layer's runner [srun_mon], which the model defines apart over its own world *)
Lemma run_mon_snoc chk t : forall w i e,
  run_mon chk w (t ++ [e]) i =
  match run_mon chk w t i with
  | Some j => Some j
  | None => if chk (fold_left world_step t w) e then None else Some (i + length t)
  end.
Proof.
  induction t as [|a t IH]; intros w i e; cbn [app run_mon fold_left length].
  - rewrite Nat.add_0_r. reflexivity.
  - destruct (chk w a); [|reflexivity]. rewrite IH, Nat.add_succ_comm. reflexivity.
Qed.

Lemma run_mon_snoc_none chk t w i e :
  run_mon chk w (t ++ [e]) i = None <-> run_mon chk w t i = None /\ chk (fold_left world_step t w) e = true.
Proof.
  rewrite run_mon_snoc. destruct (run_mon chk w t i); [split; [discriminate|intros [H _]; discriminate H]|].
  destruct (chk _ e); split; auto; try discriminate. intros [_ H]; discriminate H.
Qed.

Lemma ok_snoc chk t e : ok chk (t ++ [e]) = ok chk t && chk (fold_left world_step t world0) e.
Proof.
  unfold ok. rewrite run_mon_snoc. destruct (run_mon chk world0 t 0); [reflexivity|].
  destruct (chk _ e); reflexivity.
Qed.

Lemma run_mon_app chk t1 : forall w i t2,
  run_mon chk w (t1 ++ t2) i = None -> run_mon chk (fold_left world_step t1 w) t2 (i + length t1) = None.
Proof.
  induction t1 as [|a t1 IH]; intros w i t2 H; cbn [app run_mon fold_left length] in *.
  - now rewrite Nat.add_0_r.
  - destruct (chk w a); [|discriminate]. apply IH in H. now rewrite <- Nat.add_succ_comm.
Qed.

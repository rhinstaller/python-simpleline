(* LoopHoare.v — a program logic for LoopSem.exec, generic in the handlers' state [U] and the handler table [code].
   [hoare n c s Q]: every run of the call [c] from [s] with fuel at most [n] ends in [Q]; [Q] speaks of every outcome,
   also of the run that is cut short (OFuel, OBlocked), so there is no side predicate: what holds at every moment is
   what [Q] says of OFuel.  One rule per constructor of [prog], each one step of [exec]; for the calls of the loop itself
   one rule, [loop_step] / [loop_rule] (second half): InputLink's [Spec] and ScreenLink's [loop_inv] are instances. *)
From SL Require Import Tac.
From RecordUpdate Require Import RecordUpdate.
From SL Require Import LoopSem proofs.C09Exec.
Import ListNotations.

Section Hoare.
  Context {U : Type} (code : nat -> signal -> nat -> prog U).
  Implicit Types (s : lstate U) (c : call U) (p q h b : prog U) (Q : outcome -> lstate U -> Prop).

  Definition hoare (n : nat) c s Q : Prop :=
    forall f o s', f <= n -> exec code f c s = (o, s') -> Q o s'.

  Lemma hoare_fuel n c s Q : hoare n c s Q -> Q OFuel s.
  Proof. intros H. exact (H 0 OFuel s (Nat.le_0_l n) eq_refl). Qed.

  Lemma hoare_conseq n c s Q Q' : hoare n c s Q -> (forall o s', Q o s' -> Q' o s') -> hoare n c s Q'.
  Proof. intros H HQ f o s' Hf E. exact (HQ o s' (H f o s' Hf E)). Qed.

  Lemma hoare_mono n m c s Q : m <= n -> hoare n c s Q -> hoare m c s Q.
  Proof. intros Hm H f o s' Hf. apply H. lia. Qed.

  (* what an induction on the derivations [C09Exec.Exec] has shown of every run may be assumed of the run in hand *)
  Lemma hoare_Exec n c s Q (P : outcome -> lstate U -> Prop) :
    (forall o s', Exec code c s o s' -> P o s') -> hoare n c s (fun o s' => P o s' -> Q o s') -> hoare n c s Q.
  Proof. intros HP H f o s' Hf E. exact (H f o s' Hf E (HP o s' (exec_Exec code f c s o s' E))). Qed.

  Lemma hoare_step n c s Q :
    Q OFuel s -> (forall f o s', S f <= n -> exec code (S f) c s = (o, s') -> Q o s') -> hoare n c s Q.
  Proof. intros H0 HS [|f] o s' Hf E; [injection E as <- <-; exact H0 | exact (HS f o s' Hf E)]. Qed.

  Lemma hoare_0 c s Q : Q OFuel s -> hoare 0 c s Q.
  Proof. intros H. apply hoare_step; [exact H|]. intros f o s' Hf. lia. Qed.

  (* a call followed, when it returns normally, by [k]: the shape of every sequencing inside [exec] *)
  Lemma hoare_bind n f c s (k : lstate U -> outcome * lstate U) Q o s' :
    f <= n ->
    hoare n c s (fun o1 s1 => match o1 with ONormal => k s1 = (o, s') -> Q o s' | _ => Q o1 s1 end) ->
    (let '(o1, s1) := exec code f c s in match o1 with ONormal => k s1 | _ => (o1, s1) end) = (o, s') -> Q o s'.
  Proof.
    intros Hf H E. destruct (exec code f c s) as [o1 s1] eqn:E1. apply (H f o1 s1 Hf) in E1.
    destruct o1; [exact (E1 E) | ..]; injection E as <- <-; exact E1.
  Qed.

  Lemma hoare_ret n s Q : Q OFuel s -> Q ONormal s -> hoare n (CProg PRet) s Q.
  Proof. intros H0 H. apply hoare_step; [exact H0|]. intros f o s' _ E. injection E as <- <-. exact H. Qed.

  Lemma hoare_throw n x s Q : Q OFuel s -> Q (OThrow x) s -> hoare n (CProg (PThrow x)) s Q.
  Proof. intros H0 H. apply hoare_step; [exact H0|]. intros f o s' _ E. injection E as <- <-. exact H. Qed.

  Lemma hoare_emit n e s Q : Q OFuel s -> Q ONormal (emit (user_event e) s) -> hoare n (CProg (PEmit e)) s Q.
  Proof. intros H0 H. apply hoare_step; [exact H0|]. intros f o s' _ E. injection E as <- <-. exact H. Qed.

  Lemma hoare_seq n p q s Q :
    hoare n (CProg p) s (fun o s1 => match o with ONormal => hoare n (CProg q) s1 Q | _ => Q o s1 end) ->
    hoare n (CProg (PSeq p q)) s Q.
  Proof.
    intros H. apply hoare_step; [exact (hoare_fuel _ _ _ _ H)|]. intros f o s' Hf E.
    refine (hoare_bind n f (CProg p) s _ Q o s' _ _ E); [lia|].
    eapply hoare_conseq; [exact H|]. intros [] s1 H1; try exact H1. apply H1. lia.
  Qed.

  Lemma hoare_try n p h s Q :
    hoare n (CProg p) s (fun o s1 => match o with OThrow XError => hoare n (CProg h) s1 Q | _ => Q o s1 end) ->
    hoare n (CProg (PTry p h)) s Q.
  Proof.
    intros H. apply hoare_step; [exact (hoare_fuel _ _ _ _ H)|]. intros f o s' Hf E. cbn [exec] in E.
    destruct (exec code f (CProg p) s) as [o1 s1] eqn:E1. apply (H f o1 s1 ltac:(lia)) in E1.
    destruct o1 as [|[]| |]; try (injection E as <- <-; exact E1). exact (E1 f o s' ltac:(lia) E).
  Qed.

  Lemma hoare_st n (g : U -> U * prog U) s Q :
    Q OFuel s -> hoare n (CProg (snd (g (ust s)))) (s <| ust := fst (g (ust s)) |>) Q -> hoare n (CProg (PSt g)) s Q.
  Proof.
    intros H0 H. apply hoare_step; [exact H0|]. intros f o s' Hf E. cbn [exec] in E.
    destruct (g (ust s)) as [u' p']. apply (H f); [lia|exact E].
  Qed.

  Lemma hoare_api n a s Q : hoare n (CApi a) s Q -> hoare n (CProg (PApi a)) s Q.
  Proof.
    intros H. apply hoare_step; [exact (hoare_fuel _ _ _ _ H)|]. intros f o s' Hf E. apply (H f); [lia|exact E].
  Qed.

  (* the API calls that do not re-enter the loop, and the state they leave *)
  Definition api_exact (a : api) s : option (lstate U) :=
    match a with
    | AEnqueue sp => Some (do_enqueue (snd (new_signal s sp)) (fst (new_signal s sp)))
    | AForceQuit => Some (emit EForceQuit (s <| force_quit := true |> <| levels := [] |> <| run_loop := false |>))
    | ARegSource o => Some (emit (ERegSource o (active s)) (set_q s (active s) (q_add_source (get_q s (active s)) o)))
    | ARegHandler cls hid data => Some (emit (ERegHandler cls hid data) (s <| handlers := add_handler (handlers s) cls hid data |>))
    | ASetQuitCb arg => Some (emit (ESetQuitCb arg) (s <| quit_cb := Some arg |>))
    | AExtAdd sp => Some (s <| ext := ext s ++ [sp] |>)
    | _ => None
    end.

  Lemma hoare_api_exact n a s s1 Q : api_exact a s = Some s1 -> Q OFuel s -> Q ONormal s1 -> hoare n (CApi a) s Q.
  Proof.
    intros X H0 H. apply hoare_step; [exact H0|]. intros f o s' _ E.
    destruct a; try discriminate X; injection X as <-; injection E as <- <-; exact H.
  Qed.

  Lemma hoare_while n cnd b s Q (Iv : lstate U -> Prop) :
    Iv s -> (forall s1, Iv s1 -> Q OFuel s1) ->
    (forall s1, Iv s1 -> cnd (ust s1) = true ->
                hoare n (CProg b) s1 (fun o s2 => match o with ONormal => Iv s2 | _ => Q o s2 end)) ->
    (forall s1, Iv s1 -> cnd (ust s1) = false -> Q ONormal s1) ->
    hoare n (CProg (PWhile cnd b)) s Q.
  Proof.
    intros HI H0 Hb Hx f. revert s HI. induction f as [|f IH]; intros s HI o s' Hf E; cbn [exec] in E.
    - injection E as <- <-. auto.
    - destruct (cnd (ust s)) eqn:Ec; [|injection E as <- <-; auto].
      refine (hoare_bind n f (CProg b) s _ Q o s' _ _ E); [lia|].
      eapply hoare_conseq; [exact (Hb s HI Ec)|]. intros [] s1 H1; try exact H1. apply IH; [exact H1|lia].
  Qed.
End Hoare.

(* The rule for the loop-level calls: run(), _mainloop, the three signal-processing loops, _process_signal, and the API
   calls that re-enter the loop.  An invariant [Inv] holds whenever the loop itself is in control, a preorder [R]
   relates the states at two such points; [F] is what is left when a run is cut short (out of fuel, or blocked), [X]
   what SystemExit leaves, relative to the start of the call.  If the loop's own steps ([lstep]) keep [Inv] and [R]
   ([G_step]) and every handler body does, given the calls it may make back into the loop ([HandlerSpec]), then every
   loop-level call does ([LoopSpec]): [loop_step] takes the fuel from n to S n, [loop_rule] closes the induction. *)
Definition how_of (o : outcome) : option exn := match o with OThrow e => Some e | _ => None end.

(* events at which the rule asks only that [Inv] and [R] survive *)
Definition neutral0 (e : event) : bool :=
  match e with
  | ERunEnter | EQuitCb _ | ERunReturn | EDispatchEnd _ | ENewLoopReturn _ | EClosePop _
  | EProcEnter _ _ | EProcReturn _ _ => true
  | _ => false
  end.

(* [s'] differs from [s] only in fields that the loop changes in passing *)
Definition unseen {U} (s s' : lstate U) : Prop :=
  trace s' = trace s /\ ust s' = ust s /\ ext s' = ext s /\ qstore s' = qstore s /\ handlers s' = handlers s.

(* except Exception: self.enqueue_signal(ExceptionSignal(self)) *)
Definition exc_enqueue {U} (s : lstate U) : lstate U :=
  do_enqueue (snd (new_signal s exception_spec)) (fst (new_signal s exception_spec)).

Section LoopRule.
  Context {U : Type} (code : nat -> signal -> nat -> prog U).
  Implicit Types s : lstate U.
  Variable F : lstate U -> Prop.
  Variable X : lstate U -> lstate U -> Prop.
  Variable Inv : lstate U -> Prop.
  Variable R : lstate U -> lstate U -> Prop.
  Variable SigPre : signal -> nat -> lstate U -> Prop.   (* side condition of _process_signal sg from handler idx *)
  Variable okspec : sigspec -> Prop.                     (* signals the handlers may pass to execute_new_loop *)

  Definition loop_call (c : call U) : Prop :=
    match c with
    | CProg _ => False
    | CApi (ANewLoop sp) => okspec sp
    | CApi ACloseLoop | CApi (AProcess _) => True
    | CApi _ => False
    | _ => True
    end.
  Definition call_pre (c : call U) s : Prop :=
    match c with CProcessSignal sg idx => SigPre sg idx s | _ => True end.
  Definition ends s (o : outcome) s' : Prop :=
    match o with
    | OFuel | OBlocked => F s'
    | OThrow XSysExit => X s s'
    | _ => Inv s' /\ R s s'
    end.

  Definition LoopSpec (n : nat) : Prop :=
    forall c s, loop_call c -> Inv s -> call_pre c s -> hoare code n c s (ends s).

  (* a handler body, started by _process_signal; the state is taken after the closing EHandlerEnd *)
  Definition HandlerSpec (n : nat) : Prop := forall s sg idx hs hid data,
    Inv s -> SigPre sg idx s -> force_quit s = false ->
    handlers_of s (sg_cls sg) = Some hs -> nth_error hs idx = Some (hid, data) ->
    hoare code n (CProg (code hid sg data)) (emit (EHandler hid (sg_id sg) data) s)
      (fun o s2 => match o with
                   | OFuel | OBlocked => F s2
                   | _ => let s3 := emit (EHandlerEnd hid (sg_id sg) (how_of o)) s2 in
                          match o with
                          | OThrow XSysExit => X s s3
                          | _ => Inv s3 /\ R s s3 /\ SigPre sg (S idx) s3
                          end
                   end).

  Hypothesis Inv_F : forall s, Inv s -> F s.
  Hypothesis R_refl : forall s, R s s.
  Hypothesis R_trans : forall a b c, R a b -> R b c -> R a c.
  Hypothesis X_R : forall a b c, R a b -> X b c -> X a c.
  Hypothesis G_kill : forall s, Inv s -> X s (emit EKill s).

  (* What the loop itself does between handler bodies: [lstep s s' Q], it goes from s to s' and then owes Q, a fact about
     the side condition of the signal in hand.  [ls_unseen]: a step may change in passing every field that [unseen] does
     not fix (tickets, run_loop, force_quit, levels, active, quit_cb, next_sig); an invariant that reads one of them, like
     [LoopLink.link], cannot be carried by [loop_rule], it needs an induction on [C09Exec.Exec].  The states of [ls_pop],
     [ls_ext], [ls_newloop] are named in C09Exec.v ([disp], [ext_arrival], [nl_enter]). *)
  Inductive lstep : lstate U -> lstate U -> Prop -> Prop :=
  | ls_unseen s s' : unseen s s' -> lstep s s' (forall sg i, SigPre sg i s -> SigPre sg i s')
  | ls_event s e : neutral0 e = true -> lstep s (emit e s) True
  | ls_pop s p c sg q' : q_pop (get_q s (active s)) = Some ((p, c, sg), q') ->
      lstep s (disp sg s (set_q s (active s) q')) (SigPre sg 0 (disp sg s (set_q s (active s) q')))
  | ls_requeue s p c sg q' : q_pop (get_q s (active s)) = Some ((p, c, sg), q') ->
      lstep s (emit (ERequeue (sg_id sg) (active s)) (set_q s (active s) (q_put_entry q' (p, c, sg)))) True
  | ls_ext s sp r : ext s = sp :: r -> q_pop (get_q s (active s)) = None -> lstep s (ext_arrival s sp r) True
  | ls_exc s : lstep s (exc_enqueue s) (forall sg i, SigPre sg i s -> SigPre sg i (exc_enqueue s))
  | ls_newsig s sp : okspec sp -> lstep s (snd (new_signal s sp)) True
  | ls_newloop s sp : okspec sp -> force_quit (snd (new_signal s sp)) = false ->
      lstep s (nl_enter (fst (new_signal s sp)) (snd (new_signal s sp))) True.
  Hypothesis G_step : forall s s' Q, lstep s s' Q -> Inv s -> Inv s' /\ R s s' /\ Q.

  (* the loop is in control in s, which was reached from s0 *)
  Definition Step (s0 s : lstate U) : Prop := Inv s /\ R s0 s.

  Lemma Step_trans a b c : Step a b -> Step b c -> Step a c.
  Proof. intros [_ H1] [HI H2]. split; [exact HI|eapply R_trans; eauto]. Qed.
  Lemma Step_lstep a s s' Q : Step a s -> lstep s s' Q -> Step a s' /\ Q.
  Proof.
    intros ST L. destruct (G_step s s' Q L (proj1 ST)) as (i & r & q). exact (conj (Step_trans a s s' ST (conj i r)) q).
  Qed.
  Lemma Step_same a s s' : Step a s -> unseen s s' -> Step a s'.
  Proof. intros ST E. exact (proj1 (Step_lstep a s s' _ ST (ls_unseen s s' E))). Qed.
  Lemma Step_ev a s e : neutral0 e = true -> Step a s -> Step a (emit e s).
  Proof. intros E ST. exact (proj1 (Step_lstep a s _ _ ST (ls_event s e E))). Qed.

  Section Level.
    Variable n : nat.
    Hypothesis L : LoopSpec n.
    Hypothesis HK : HandlerSpec n.

    Lemma call_from c s0 s : loop_call c -> call_pre c s -> Step s0 s -> hoare code n c s (ends s0).
    Proof.
      intros LC CP [HI HR]. eapply hoare_conseq; [exact (L c s LC HI CP)|].
      intros [|[]| |] s1; cbn [ends]; try exact id; [..|apply X_R, HR]; intros [I1 R1]; (split; [exact I1|exact (R_trans _ _ _ HR R1)]).
    Qed.

    Lemma call_bind f c (k : lstate U -> outcome * lstate U) s0 s o s' :
      f <= n -> loop_call c -> call_pre c s -> Step s0 s ->
      (let '(o1, s1) := exec code f c s in match o1 with ONormal => k s1 | _ => (o1, s1) end) = (o, s') ->
      (forall s1, Step s0 s1 -> k s1 = (o, s') -> ends s0 o s') -> ends s0 o s'.
    Proof.
      intros Hf LC CP ST E HK1. refine (hoare_bind code n f c s k (ends s0) o s' Hf _ E).
      eapply hoare_conseq; [exact (call_from c s0 s LC CP ST)|]. intros [] s1 H; try exact H. exact (HK1 s1 H).
    Qed.

    Lemma call_dispatch f (k : lstate U -> outcome * lstate U) s0 s p c sg q' o s' :
      f <= n -> Step s0 s -> q_pop (get_q s (active s)) = Some ((p, c, sg), q') ->
      (let '(o1, s3) := exec code f (CProcessSignal sg 0) (disp sg s (set_q s (active s) q')) in
       match o1 with ONormal => k s3 | _ => (o1, s3) end) = (o, s') ->
      (forall s3, Step s0 s3 -> k s3 = (o, s') -> ends s0 o s') -> ends s0 o s'.
    Proof.
      intros Hf ST P E HK1. destruct (Step_lstep s0 s _ _ ST (ls_pop s p c sg q' P)) as [S1 sp].
      exact (call_bind f (CProcessSignal sg 0) k s0 _ o s' Hf I sp S1 E HK1).
    Qed.

    (* self._active_queue.get() and the dispatch of what it returns (k); when another thread's signal arrives instead: l *)
    Lemma call_get f (k l : lstate U -> outcome * lstate U) s0 s o s' :
      f <= n -> Step s0 s ->
      match do_get s with
      | inl None => (OBlocked, s)
      | inr s1 => l s1
      | inl (Some (sg, s1)) =>
        let '(o1, s3) := exec code f (CProcessSignal sg 0) (disp sg s s1) in
        match o1 with ONormal => k s3 | _ => (o1, s3) end
      end = (o, s') ->
      (forall s3, Step s0 s3 -> k s3 = (o, s') -> ends s0 o s') ->
      (forall s1, Step s0 s1 -> l s1 = (o, s') -> ends s0 o s') -> ends s0 o s'.
    Proof.
      intros Hf ST E HK1 HL. unfold do_get in E. destruct (q_pop (get_q s (active s))) as [[[[p c] sg] q']|] eqn:P.
      - exact (call_dispatch f k s0 s p c sg q' o s' Hf ST P E HK1).
      - destruct (ext s) as [|sp r] eqn:Ex.
        + injection E as <- <-. apply Inv_F, ST.
        + exact (HL (ext_arrival s sp r) (proj1 (Step_lstep s0 s _ _ ST (ls_ext s sp r Ex P))) E).
    Qed.

    Theorem loop_step : LoopSpec (S n).
    Proof.
      intros c s LC HI CP. apply hoare_step; [apply Inv_F, HI|]. intros f o s' Hf E. apply le_S_n in Hf.
      assert (ST : Step s s) by (split; [exact HI|apply R_refl]).
      assert (CALL : forall c1 s1, loop_call c1 -> call_pre c1 s1 -> Step s s1 -> exec code f c1 s1 = (o, s') -> ends s o s')
        by (intros c1 s1 L1 C1 S1 E1; exact (call_from c1 s s1 L1 C1 S1 f o s' Hf E1)).
      destruct c; cbn [exec] in E; cbn [loop_call call_pre] in LC, CP.
      - (* CRun *)
        assert (S0 : Step s (run_enter s)).
        { apply Step_ev; [reflexivity|]. apply (Step_same _ _ _ ST); repeat split. }
        destruct (exec code f CMainloop _) as [o1 s1] eqn:E1.
        assert (H1 := call_from CMainloop s _ I I S0 f o1 s1 Hf E1).
        assert (FIN : Step s s1 -> Step s (emit ERunReturn (quit_call s1))).
        { intros S1. apply Step_ev; [reflexivity|]. unfold quit_call.
          destruct (quit_cb s1); [apply Step_ev; [reflexivity|]|]; exact S1. }
        destruct o1 as [|[| |]| |]; cbn [ends] in H1; injection E as <- <-; try exact H1; exact (FIN H1).
      - (* CMainloop *)
        destruct (run_loop s).
        + refine (call_bind f CProcLoop _ s s o s' Hf I I ST E _). intros s1 S1 E1. exact (CALL CMainloop s1 I I S1 E1).
        + injection E as <- <-. destruct (force_quit s); [exact ST|]. apply (Step_same _ _ _ ST); repeat split.
      - (* CProcLoop *)
        destruct (run_loop s); [|injection E as <- <-; exact ST].
        refine (call_get f _ _ s s o s' Hf ST E _ _); intros s1 S1 E1; exact (CALL CProcLoop s1 I I S1 E1).
      - (* CProcWait *)
        destruct (run_loop s); [|injection E as <- <-; exact ST].
        refine (call_get f _ _ s s o s' Hf ST E _ _); intros s1 S1 E1; [|exact (CALL (CProcWait cls ticket) s1 I I S1 E1)].
        cbv beta in E1. destruct (check_ticket (tickets s1) cls ticket) as [[[|] t']|].
        + injection E1 as <- <-. apply (Step_same _ _ _ S1); repeat split.
        + exact (CALL (CProcWait cls ticket) s1 I I S1 E1).
        + injection E1 as <- <-. exact S1.
      - (* CProcIter: the entry is taken, or put back *)
        destruct (negb (q_empty (get_q s (active s))) && run_loop s); [|injection E as <- <-; exact ST].
        destruct (q_pop (get_q s (active s))) as [[[[p cnt] sg] q']|] eqn:P; [|injection E as <- <-; exact ST].
        destruct prio as [p0|]; [destruct (p =? p0)%Z|].
        2: { injection E as <- <-. exact (proj1 (Step_lstep s s _ _ ST (ls_requeue s p cnt sg q' P))). }
        all: refine (call_dispatch f _ s s p cnt sg q' o s' Hf ST P E _); intros s3 S3 E3;
          exact (CALL (CProcIter (Some p)) s3 I I S3 E3).
      - (* CProcessSignal *)
        fold (ps_mark sg idx s) in E. set (s0 := ps_mark sg idx s) in E.
        assert (S0 : Step s s0 /\ SigPre sg idx s0).
        { unfold s0, ps_mark. destruct (idx =? 0)%nat; [|split; [exact ST|exact CP]].
          assert (E0 : unseen s (s <| tickets := mark_line_to_go (tickets s) (sg_cls sg) |>)) by (repeat split).
          destruct (Step_lstep s s _ _ ST (ls_unseen _ _ E0)) as [S1 K]. exact (conj S1 (K sg idx CP)). }
        clearbody s0. destruct S0 as [S0 SP0].
        assert (DE : Step s (emit (EDispatchEnd (sg_id sg)) s0)) by (apply Step_ev; [reflexivity|exact S0]).
        destruct (handlers_of s0 (sg_cls sg)) as [hs|] eqn:HS.
        + destruct (force_quit s0) eqn:FQ; [injection E as <- <-; exact DE|].
          destruct (nth_error hs idx) as [[hid data]|] eqn:NE; [|injection E as <- <-; exact DE].
          destruct (exec code f (CProg (code hid sg data)) _) as [o1 s2] eqn:E1.
          assert (H1 := HK s0 sg idx hs hid data (proj1 S0) SP0 FQ HS NE f o1 s2 Hf E1).
          destruct o1 as [|[| |]| |]; cbn [how_of] in H1; cbv zeta in H1.
          * destruct H1 as (a & b & sp). exact (CALL (CProcessSignal sg (S idx)) _ I sp (Step_trans _ _ _ S0 (conj a b)) E).
          * injection E as <- <-. destruct H1 as (a & b & _). exact (Step_trans _ _ _ S0 (conj a b)).
          * (* except Exception: an ExceptionSignal is enqueued, the next handler runs *)
            destruct H1 as (a & b & sp).
            destruct (Step_lstep s _ _ _ (Step_trans _ _ _ S0 (conj a b)) (ls_exc _)) as [S4 K].
            exact (CALL (CProcessSignal sg (S idx)) _ I (K sg (S idx) sp) S4 E).
          * injection E as <- <-. exact (X_R _ _ _ (proj2 S0) H1).
          * injection E as <- <-. exact H1.
          * injection E as <- <-. exact H1.
        + destruct (sg_cls sg =? CLS_EXCEPTION)%nat; injection E as <- <-; [|exact DE].
          exact (X_R _ _ _ (proj2 S0) (G_kill _ (proj1 S0))).
      - (* CApi *)
        match goal with a : api |- _ => destruct a end; cbn [loop_call] in LC; try contradiction.
        + (* execute_new_loop *)
          pose proof (proj1 (Step_lstep s s _ _ ST (ls_newsig s sp LC))) as G1.
          pose proof (fun FQ => proj1 (Step_lstep s s _ _ ST (ls_newloop s sp LC FQ))) as G2.
          destruct (new_signal s sp) as [sg s1]. cbn [fst snd] in G1, G2.
          destruct (force_quit s1) eqn:FQ; [injection E as <- <-; exact G1|].
          refine (call_bind f CMainloop _ s _ o s' Hf I I (G2 eq_refl) E _). intros s4 S4 E4.
          injection E4 as <- <-. apply Step_ev; [reflexivity|exact S4].
        + (* close_loop: process_signals(), then the queue of the loop is popped *)
          refine (call_bind f (CProcIter None) _ s _ o s' Hf I I (Step_ev _ _ (EProcEnter None 0) eq_refl ST) E _). intros s1 S1 E1.
          apply (Step_ev _ _ (EProcReturn None 0) eq_refl) in S1. cbv beta in E1.
          set (s2 := emit (EProcReturn None 0) s1) in *.
          destruct (rev (levels s2)) as [|top rest_rev] eqn:RV; [injection E1 as <- <-; exact S1|].
          assert (S3 : Step s (emit (EClosePop top) (s2 <| levels := rev rest_rev |>))).
          { apply Step_ev; [reflexivity|]. apply (Step_same _ _ _ S1); repeat split. }
          destruct rest_rev as [|q r]; injection E1 as <- <-; [exact S3|].
          apply (Step_same _ _ _ S3); repeat split.
        + (* process_signals *)
          destruct return_after as [cls|].
          * destruct (take_ticket (tickets s) cls) as [t tm].
            assert (S1 : Step s (emit (EProcEnter (Some cls) t) (s <| tickets := tm |>))).
            { apply Step_ev; [reflexivity|]. apply (Step_same _ _ _ ST); repeat split. }
            refine (call_bind f (CProcWait cls t) _ s _ o s' Hf I I S1 E _). intros s2 S2 E2.
            injection E2 as <- <-. apply Step_ev; [reflexivity|exact S2].
          * refine (call_bind f (CProcIter None) _ s _ o s' Hf I I (Step_ev _ _ (EProcEnter None 0) eq_refl ST) E _). intros s1 S1 E1.
            injection E1 as <- <-. apply Step_ev; [reflexivity|exact S1].
      - contradiction.
    Qed.
  End Level.

  Theorem loop_rule : (forall n, LoopSpec n -> HandlerSpec n) -> forall n, LoopSpec n.
  Proof.
    intros HK. induction n as [|n IH]; [|exact (loop_step n IH (HK n IH))].
    intros c s _ HI _. apply hoare_0, Inv_F, HI.
  Qed.
End LoopRule.

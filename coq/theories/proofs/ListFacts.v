(* ListFacts.v — facts about lists that the standard library of Coq 8.16 does not have, used across the proofs, by
   subject: a list with one more element at its end, [firstn] and [skipn], the boolean and the pointwise quantifiers,
   [filter], [NoDup], [fold_left]; insertion sort ([insert_by], [sort_by]), of which the model has three; last, the
   comparison of two strings that three model files define ([Nlist_eqb_refl], [Nlist_eqb_eq]). *)
From Coq Require Import List Bool Arith NArith Lia Permutation Sorted.
Import ListNotations.

Lemma nth_snoc {A} (l : list A) x d j :
  nth j (l ++ [x]) d = if (j <? length l)%nat then nth j l d else if (j =? length l)%nat then x else d.
Proof.
  destruct (j <? length l)%nat eqn:L.
  - apply Nat.ltb_lt in L. apply app_nth1, L.
  - apply Nat.ltb_ge in L. rewrite app_nth2 by exact L. destruct (j =? length l)%nat eqn:E.
    + apply Nat.eqb_eq in E. subst j. rewrite Nat.sub_diag. reflexivity.
    + apply Nat.eqb_neq in E. destruct (j - length l) as [|k] eqn:X; [lia|]. cbn. destruct k; reflexivity.
Qed.

Lemma nth_snoc_default {A} (l : list A) d m : nth m (l ++ [d]) d = nth m l d.
Proof.
  revert m; induction l as [|a r IH]; intros [|m]; cbn; auto. destruct m; reflexivity.
Qed.

Lemma nth_error_snoc {X} (l : list X) x i y :
  nth_error (l ++ [x]) i = Some y -> nth_error l i = Some y \/ (i = length l /\ y = x).
Proof.
  intros H. destruct (Nat.lt_ge_cases i (length l)) as [L|L].
  - rewrite nth_error_app1 in H by exact L. left. exact H.
  - rewrite nth_error_app2 in H by exact L. right.
    destruct (i - length l) as [|[|k]] eqn:D; cbn in H; try discriminate H. inversion H. split; [lia|reflexivity].
Qed.

Lemma nth_error_snoc_true {X} (l : list X) x i y : y <> x -> nth_error (l ++ [x]) i = Some y -> nth_error l i = Some y.
Proof. intros N H. destruct (nth_error_snoc _ _ _ _ H) as [E|[_ E]]; [exact E|destruct (N E)]. Qed.

Lemma app_cons_snoc_inv {A} (a b l : list A) x o :
  l ++ [o] = a ++ x :: b -> (b = [] /\ l = a /\ o = x) \/ exists b', b = b' ++ [o] /\ l = a ++ x :: b'.
Proof.
  intros E. destruct b as [|y b' _] using rev_ind.
  - apply app_inj_tail in E. tauto.
  - rewrite app_comm_cons, app_assoc in E. apply app_inj_tail in E. destruct E as [E ->]. eauto.
Qed.

Lemma find_app {A} (f : A -> bool) l1 l2 :
  find f (l1 ++ l2) = match find f l1 with Some x => Some x | None => find f l2 end.
Proof. induction l1 as [|a r IH]; cbn; [reflexivity|destruct (f a); [reflexivity|exact IH]]. Qed.

Lemma removelast_rev {A} (l : list A) x r : rev l = x :: r -> removelast l = rev r.
Proof.
  intros H. apply (f_equal (@rev A)) in H. rewrite rev_involutive in H. subst l.
  cbn [rev]. apply removelast_last.
Qed.

Lemma last_rev {A} (l : list A) d : l <> [] -> exists r, rev l = last l d :: r.
Proof.
  intros H. destruct (exists_last H) as (l' & a & ->). rewrite rev_app_distr, last_last. cbn. eauto.
Qed.

Lemma last_in {A} (l : list A) d : l <> [] -> In (last l d) l.
Proof. intros H. destruct (exists_last H) as (l' & a & ->). rewrite last_last. apply in_or_app; right; left; reflexivity. Qed.

Lemma firstn_S_skipn {T} (l : list T) k x r : skipn k l = x :: r -> firstn (S k) l = firstn k l ++ [x] /\ skipn (S k) l = r.
Proof.
  revert l. induction k as [|k IH]; intros l E; cbn in E.
  - subst l. split; reflexivity.
  - destruct l as [|y l]; [discriminate E|]. destruct (IH l E) as [A B]. split; [|exact B].
    change (firstn (S (S k)) (y :: l)) with (y :: firstn (S k) l). rewrite A. reflexivity.
Qed.

Lemma In_firstn {A} n (l : list A) x : In x (firstn n l) -> In x l.
Proof. intros H. rewrite <- (firstn_skipn n l). apply in_or_app. now left. Qed.

Lemma In_skipn {A} n (l : list A) x : In x (skipn n l) -> In x l.
Proof. intros H. rewrite <- (firstn_skipn n l). apply in_or_app. now right. Qed.

Lemma Forall_firstn {A} (P : A -> Prop) n (l : list A) : Forall P l -> Forall P (firstn n l).
Proof. intros H. rewrite <- (firstn_skipn n l) in H. apply Forall_app in H. tauto. Qed.

Lemma Forall_skipn {A} (P : A -> Prop) n (l : list A) : Forall P l -> Forall P (skipn n l).
Proof. intros H. rewrite <- (firstn_skipn n l) in H. apply Forall_app in H. tauto. Qed.

Lemma nth_error_seq a n r : r < n -> nth_error (seq a n) r = Some (a + r).
Proof.
  intros H. rewrite (nth_error_nth' (seq a n) 0) by (rewrite seq_length; exact H).
  now rewrite seq_nth.
Qed.

Lemma map_noop {A} (g : A -> A) l : (forall x, In x l -> g x = x) -> map g l = l.
Proof. induction l as [|a r IH]; cbn; intros H; [reflexivity|]. rewrite (H a (or_introl eq_refl)). f_equal. apply IH. auto. Qed.

Lemma forallb_and_split {A} (f g h : A -> bool) l : Forall (fun c => f c = g c && h c) l ->
  forallb f l = forallb g l && forallb h l.
Proof.
  induction 1 as [|x r Hx Hr IH]; cbn; [reflexivity|]. rewrite Hx, IH.
  destruct (g x), (h x), (forallb g r), (forallb h r); reflexivity.
Qed.

Lemma forallb_mono {A} (f g : A -> bool) l :
  (forall x, In x l -> f x = true -> g x = true) -> forallb f l = true -> forallb g l = true.
Proof. rewrite !forallb_forall. auto. Qed.

Lemma existsb_eqb_in q l : existsb (Nat.eqb q) l = true <-> In q l.
Proof.
  rewrite existsb_exists. split.
  - intros (x & I & E). apply Nat.eqb_eq in E. subst. exact I.
  - intros I. exists q. split; [exact I|apply Nat.eqb_refl].
Qed.

Lemma Forall2_weaken {A B} (R S : A -> B -> Prop) (a : list A) (b : list B) :
  (forall x y, R x y -> S x y) -> Forall2 R a b -> Forall2 S a b.
Proof. intros H. induction 1; constructor; auto. Qed.

Lemma Forall2_In_r {A B} (R : A -> B -> Prop) (a : list A) (b : list B) y :
  Forall2 R a b -> In y b -> exists x, In x a /\ R x y.
Proof.
  induction 1 as [|x0 y0 a b Hxy _ IH]; intros Hin; [destruct Hin|].
  destruct Hin as [<-|Hin]; [exists x0; split; [now left|exact Hxy]|].
  destruct (IH Hin) as (x & Hx & Hr). exists x. split; [now right|exact Hr].
Qed.

Lemma Forall2_length {A B} (R : A -> B -> Prop) (a : list A) (b : list B) : Forall2 R a b -> length a = length b.
Proof. induction 1; cbn [length]; congruence. Qed.

Lemma filter_all {A} (p : A -> bool) l : (forall x, In x l -> p x = true) -> filter p l = l.
Proof.
  induction l as [|x l IH]; intros H; cbn [filter]; [reflexivity|].
  rewrite (H x (or_introl eq_refl)). f_equal. apply IH. intros y Hy. apply H. now right.
Qed.

Lemma filter_none {A} (p : A -> bool) l : (forall x, In x l -> p x = false) -> filter p l = [].
Proof.
  induction l as [|x l IH]; intros H; cbn [filter]; [reflexivity|].
  rewrite (H x (or_introl eq_refl)). apply IH. intros y Hy. apply H. now right.
Qed.

Lemma filter_nil_in {A} (f : A -> bool) l x : filter f l = [] -> In x l -> f x = false.
Proof.
  induction l as [|y r IH]; cbn; intros H I; [destruct I|]. destruct (f y) eqn:E; [discriminate|].
  destruct I as [<-|I]; auto.
Qed.

Lemma filter_neq_noop id l : ~ In id l -> filter (fun c => negb (c =? id)%nat) l = l.
Proof.
  intros H. apply filter_all. intros x Hx. apply negb_true_iff, Nat.eqb_neq. intros ->. contradiction.
Qed.

Lemma filter_andb {A} (f h : A -> bool) l : filter (fun y => f y && h y) l = filter h (filter f l).
Proof.
  induction l as [|x l IH]; cbn; [reflexivity|].
  destruct (f x); cbn; [destruct (h x); rewrite IH; reflexivity | exact IH].
Qed.

Lemma filter_comm {A} (p q : A -> bool) l : filter p (filter q l) = filter q (filter p l).
Proof.
  induction l as [|x l IH]; cbn; [reflexivity|].
  destruct (q x) eqn:Eq, (p x) eqn:Ep; cbn; rewrite ?Eq, ?Ep, IH; reflexivity.
Qed.

Lemma filter_filter_sub {A} (p q : A -> bool) l : (forall x, p x = true -> q x = true) -> filter p (filter q l) = filter p l.
Proof.
  intros Hs. induction l as [|x l IH]; [reflexivity|]. cbn. destruct (q x) eqn:Eq; cbn.
  - destruct (p x); rewrite IH; reflexivity.
  - destruct (p x) eqn:Ep; [rewrite (Hs x Ep) in Eq; discriminate | exact IH].
Qed.

Lemma filter_rev' {A} (f : A -> bool) l : filter f (rev l) = rev (filter f l).
Proof.
  induction l as [|x l IH]; [reflexivity|]. cbn. rewrite filter_app, IH. cbn. destruct (f x); cbn; [reflexivity|apply app_nil_r].
Qed.

Lemma perm_filter {A} (f : A -> bool) (l l' : list A) : Permutation l l' -> Permutation (filter f l) (filter f l').
Proof.
  induction 1; cbn; auto.
  - destruct (f x); auto.
  - destruct (f x), (f y); auto. apply perm_swap.
  - eapply perm_trans; eauto.
Qed.

Lemma nodup_app {A} (a b : list A) : NoDup a -> NoDup b -> (forall x, In x a -> ~ In x b) -> NoDup (a ++ b).
Proof.
  induction a as [|x a IH]; cbn; intros Na Nb D; [exact Nb|]. inversion Na; subst. constructor.
  - intros I. apply in_app_or in I. destruct I as [I|I]; [auto|]. apply (D x); auto.
  - apply IH; auto.
Qed.

Lemma NoDup_app_disjoint {A} (a b : list A) x : NoDup (a ++ b) -> In x a -> In x b -> False.
Proof.
  intros N Ia Ib. destruct (in_split _ _ Ia) as (a1 & a2 & ->). rewrite <- app_assoc in N.
  apply NoDup_remove_2 in N. apply N. rewrite !in_app_iff. auto.
Qed.

Lemma NoDup_app_remove_l {A} (l l' : list A) : NoDup (l ++ l') -> NoDup l'.
Proof. induction l as [|x l IH]; cbn [app]; intros H; [exact H|]. inversion H. auto. Qed.

Lemma NoDup_app_remove_r {A} (l l' : list A) : NoDup (l ++ l') -> NoDup l.
Proof.
  intros H. apply NoDup_rev in H. rewrite rev_app_distr in H. apply NoDup_app_remove_l, NoDup_rev in H.
  now rewrite rev_involutive in H.
Qed.

Lemma NoDup_snoc {A} (l : list A) x : NoDup l -> ~ In x l -> NoDup (l ++ [x]).
Proof.
  intros N I. apply (Permutation_NoDup (Permutation_cons_append l x)). constructor; assumption.
Qed.

Lemma nodup_map_inj {A B} (f : A -> B) l x y : NoDup (map f l) -> In x l -> In y l -> f x = f y -> x = y.
Proof.
  induction l as [|a l IH]; cbn; intros N Hx Hy E; [contradiction|]. inversion N as [|? ? Ha N']; subst.
  destruct Hx as [->|Hx], Hy as [->|Hy]; auto; exfalso; apply Ha; [rewrite E | rewrite <- E]; apply in_map; assumption.
Qed.

Lemma NoDup_map_filter {A B} (f : A -> B) p l : NoDup (map f l) -> NoDup (map f (filter p l)).
Proof.
  induction l as [|a l IH]; cbn; intros H; [exact H|]. inversion H as [|? ? Ha H']; subst.
  destruct (p a); cbn; [constructor|]; auto.
  intros Hin. apply in_map_iff in Hin. destruct Hin as (b & Eb & Hb). apply filter_In in Hb. apply Ha. rewrite <- Eb. apply in_map. tauto.
Qed.

Lemma fold_inv {W E} (step : W -> E -> W) (P : W -> Prop) : (forall w e, P w -> P (step w e)) ->
  forall t w, P w -> P (fold_left step t w).
Proof. intros H t. induction t as [|e r IH]; intros w Hw; cbn; [exact Hw|]. apply IH, H, Hw. Qed.

Lemma fold_left_snoc {S E} (f : S -> E -> S) t e i : fold_left f (t ++ [e]) i = f (fold_left f t i) e.
Proof. apply fold_left_app. Qed.

(* Insertion sort: [insert_by before x l] puts [x] in front of the first [y] of [l] with [before x y].  The model has
   three of them (the keys of a prompt, the entries of a queue, the reference queue of the observer): each is this one
   at its own test. *)
Section InsertionSort.
  Context {A : Type} (before : A -> A -> bool).

  Fixpoint insert_by (x : A) (l : list A) : list A :=
    match l with [] => [x] | y :: r => if before x y then x :: l else y :: insert_by x r end.
  Definition sort_by (l : list A) : list A := fold_right insert_by [] l.

  Lemma insert_by_perm x l : Permutation (insert_by x l) (x :: l).
  Proof.
    induction l as [|y r IH]; cbn [insert_by]; [reflexivity|]. destruct (before x y); [reflexivity|].
    etransitivity; [apply perm_skip, IH|apply perm_swap].
  Qed.

  Lemma sort_by_perm l : Permutation (sort_by l) l.
  Proof.
    induction l as [|x l IH]; [reflexivity|]. cbn [sort_by fold_right].
    etransitivity; [apply insert_by_perm|apply perm_skip, IH].
  Qed.

  (* for an order [R] that the test decides on the elements at hand *)
  Lemma insert_by_sorted (R : A -> A -> Prop) x l :
    (forall a b c, R a b -> R b c -> R a c) ->
    (forall y, In y l -> if before x y then R x y else R y x) ->
    StronglySorted R l -> StronglySorted R (insert_by x l).
  Proof.
    intros Tr D S. induction S as [|y r Sr IH Fr]; cbn [insert_by]; [repeat constructor|].
    pose proof (D y (or_introl eq_refl)) as Dy. destruct (before x y).
    - constructor; [constructor; assumption|]. constructor; [exact Dy|].
      eapply Forall_impl; [|exact Fr]. intros z. exact (Tr x y z Dy).
    - constructor; [apply IH; intros z Hz; apply D; right; exact Hz|].
      eapply Permutation_Forall; [apply Permutation_sym, insert_by_perm|]. constructor; assumption.
  Qed.
End InsertionSort.

(* a list sorted by an order without cycles of length one or two has no duplicates and is determined by its elements *)
Lemma StronglySorted_NoDup {A} (R : A -> A -> Prop) : (forall a, ~ R a a) -> forall l, StronglySorted R l -> NoDup l.
Proof.
  intros Irr l S. induction S as [|a l S IH F]; constructor; [|exact IH].
  intros Hin. rewrite Forall_forall in F. exact (Irr a (F a Hin)).
Qed.

Lemma sorted_perm_unique {A} (R : A -> A -> Prop) : (forall a b, R a b -> R b a -> False) ->
  forall l1 l2, StronglySorted R l1 -> StronglySorted R l2 -> Permutation l1 l2 -> l1 = l2.
Proof.
  intros Asym. induction l1 as [|a l1 IH]; intros l2 S1 S2 P; [apply Permutation_nil in P; congruence|].
  destruct l2 as [|b l2]; [apply Permutation_sym, Permutation_nil in P; discriminate|].
  inversion S1 as [|? ? S1' F1]; inversion S2 as [|? ? S2' F2]; subst. rewrite Forall_forall in F1, F2.
  assert (a = b) as ->.
  { assert (Ia : In a (b :: l2)) by (eapply Permutation_in; [exact P|left; reflexivity]).
    assert (Ib : In b (a :: l1)) by (eapply Permutation_in; [apply Permutation_sym; exact P|left; reflexivity]).
    destruct Ia as [->|Ia]; [reflexivity|]. destruct Ib as [->|Ib]; [reflexivity|].
    destruct (Asym a b (F1 b Ib) (F2 a Ia)). }
  f_equal. apply IH; auto. eapply Permutation_cons_inv; eauto.
Qed.

(* strings (lists of N) compared by length and then character by character: the body of ScreenMon.streq, AdvWidgets.str_eqb
   and TextWrap.str_eqb *)
Lemma Nlist_eqb_refl (a : list N) : (length a =? length a)%nat && forallb (fun p => (fst p =? snd p)%N) (combine a a) = true.
Proof.
  rewrite Nat.eqb_refl. cbn [andb]. induction a as [|x r IH]; cbn [combine forallb fst snd]; [reflexivity|].
  rewrite N.eqb_refl. exact IH.
Qed.

Lemma Nlist_eqb_eq (a : list N) : forall b,
  (length a =? length b)%nat && forallb (fun p => (fst p =? snd p)%N) (combine a b) = true -> a = b.
Proof.
  induction a as [|x r IH]; intros [|y s] H; cbn [length combine forallb fst snd Nat.eqb] in H; try discriminate; [reflexivity|].
  apply andb_true_iff in H. destruct H as [L H]. apply andb_true_iff in H. destruct H as [E H].
  apply N.eqb_eq in E. subst y. f_equal. apply IH. rewrite L. exact H.
Qed.

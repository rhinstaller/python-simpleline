(* PagingProofs.v — proofs about Paging.print_widget (property C12, paging part). *)
From SL Require Import Tac.
From SL Require Import Widget Paging.
Import ListNotations.
Local Open Scope Z_scope.

Lemma norm_idx_in_range n i : 0 <= i <= n -> norm_idx n i = i.
Proof. intros Hi. unfold norm_idx. destruct (i <? 0) eqn:E; lia. Qed.

Lemma py_slice_from_nat {A} (l : list A) (k : nat) :
  (k <= length l)%nat -> py_slice_from l (Z.of_nat k) = skipn k l.
Proof.
  intros Hk. unfold py_slice_from. rewrite norm_idx_in_range by lia. now rewrite Nat2Z.id.
Qed.

Lemma py_slice_nat {A} (l : list A) (k p : nat) :
  (k + p <= length l)%nat -> py_slice l (Z.of_nat k) (Z.of_nat k + Z.of_nat p) = firstn p (skipn k l).
Proof.
  intros Hk. unfold py_slice. rewrite !norm_idx_in_range by lia.
  replace (Z.to_nat (Z.of_nat k + Z.of_nat p - Z.of_nat k)) with p by lia.
  now rewrite Nat2Z.id.
Qed.

Lemma skipn_skipn' {A} (a b : nat) (l : list A) : skipn a (skipn b l) = skipn (b + a) l.
Proof.
  revert l. induction b as [|b IH]; intros l; [reflexivity|].
  destruct l as [|x l]; [now rewrite !skipn_nil|]. cbn [skipn Nat.add]. apply IH.
Qed.

Lemma prints_of_app a b : prints_of (a ++ b) = prints_of a ++ prints_of b.
Proof.
  induction a as [|e a IH]; [reflexivity|]. destruct e; cbn [app prints_of]; now rewrite IH.
Qed.

Lemma prints_of_map_print ls : prints_of (map PPrint ls) = ls.
Proof. induction ls as [|l ls IH]; [reflexivity|]. cbn [map prints_of]. now rewrite IH. Qed.

Lemma count_asks_app a b : count_asks (a ++ b) = (count_asks a + count_asks b)%nat.
Proof.
  induction a as [|e a IH]; [reflexivity|]. destruct e; cbn [app count_asks]; now rewrite IH.
Qed.

Lemma count_asks_map_print ls : count_asks (map PPrint ls) = 0%nat.
Proof. induction ls as [|l ls IH]; [reflexivity|]. exact IH. Qed.

Lemma oof_map_print ls : existsb is_out_of_fuel (map PPrint ls) = false.
Proof. induction ls as [|l ls IH]; [reflexivity|]. exact IH. Qed.

Lemma upto_ask_print_app k ls r : upto_ask k (map PPrint ls ++ r) = map PPrint ls ++ upto_ask k r.
Proof. induction ls as [|l ls IH]; [reflexivity|]. cbn [map app upto_ask]. now rewrite IH. Qed.

#[local] Hint Rewrite prints_of_app prints_of_map_print count_asks_app count_asks_map_print
  @existsb_app oof_map_print upto_ask_print_app : observers.

(* page_events: every page but the last comes with its prompt *)
Definition page_with_prompt (p : list line) : list pevent := map PPrint p ++ [PAskContinue].

Lemma page_events_snoc full last :
  page_events (full ++ [last]) = flat_map page_with_prompt full ++ map PPrint last.
Proof.
  induction full as [|p full IH]; [reflexivity|].
  cbn [app flat_map]. unfold page_with_prompt at 1. rewrite <- !app_assoc, <- IH.
  destruct full; reflexivity.
Qed.

Lemma prints_of_pages_with_prompt pages : prints_of (flat_map page_with_prompt pages) = concat pages.
Proof.
  induction pages as [|p pages IH]; [reflexivity|].
  cbn [flat_map concat]. unfold page_with_prompt at 1. autorewrite with observers.
  cbn [prints_of]. now rewrite app_nil_r, IH.
Qed.

Lemma count_asks_pages_with_prompt pages : count_asks (flat_map page_with_prompt pages) = length pages.
Proof.
  induction pages as [|p pages IH]; [reflexivity|].
  cbn [flat_map length]. unfold page_with_prompt at 1. autorewrite with observers. now rewrite IH.
Qed.

Lemma oof_pages_with_prompt pages : existsb is_out_of_fuel (flat_map page_with_prompt pages) = false.
Proof.
  induction pages as [|p pages IH]; [reflexivity|].
  cbn [flat_map]. unfold page_with_prompt at 1. autorewrite with observers. exact IH.
Qed.

Lemma upto_ask_pages_with_prompt : forall full rest k, (k < length full)%nat ->
  upto_ask k (flat_map page_with_prompt full ++ rest) = flat_map page_with_prompt (firstn (S k) full).
Proof.
  induction full as [|p full IH]; intros rest k Hk; [cbn [length] in Hk; lia|].
  cbn [firstn flat_map]. unfold page_with_prompt at 1 3. rewrite <- !app_assoc, upto_ask_print_app.
  cbn [app upto_ask]. f_equal. f_equal.
  destruct k as [|k']; [reflexivity|]. cbn [length] in Hk. apply IH. lia.
Qed.

Lemma length_concat_full {A} (full : list (list A)) (P : nat) :
  Forall (fun p => length p = P) full -> length (concat full) = (length full * P)%nat.
Proof.
  induction 1 as [|p full Hp _ IH]; [reflexivity|].
  cbn [concat length]. rewrite app_length, IH, Hp. lia.
Qed.

(* full pages of P lines and a last page of 1..P lines (none only if there are no lines): (n-1)/P full pages *)
Lemma full_pages_count {A} (lines : list A) (P : nat) full last :
  concat full ++ last = lines -> Forall (fun p => length p = P) full ->
  (1 <= P)%nat -> (length last <= P)%nat -> (lines <> [] -> 1 <= length last)%nat ->
  length full = ((length lines - 1) / P)%nat.
Proof.
  intros Hcat Hfull HP Hle Hge.
  assert (Hn : length lines = (length full * P + length last)%nat).
  { rewrite <- Hcat, app_length, (length_concat_full full P Hfull). reflexivity. }
  destruct lines as [|l0 ls].
  - cbn [length] in *. destruct full as [|p full']; [now rewrite Nat.div_0_l by lia|].
    cbn [length] in Hn. lia.
  - specialize (Hge ltac:(congruence)).
    apply Nat.div_unique with (r := (length last - 1)%nat); [lia|]. rewrite Hn. lia.
Qed.

(* from position k < n, with real height P >= 1, the loop prints the rest of the lines as full pages
   of P lines, each followed by a prompt, and a last page of 1..P lines *)
Lemma page_loop_spec : forall fuel lines (k P : nat),
  (1 <= P)%nat -> (k < length lines)%nat -> (length lines - k <= fuel)%nat ->
  exists full last,
    page_loop fuel lines (Z.of_nat k) (Z.of_nat (length lines) - 1) (Z.of_nat P) (Z.of_nat P + 2)
      = page_events (full ++ [last]) /\
    concat full ++ last = skipn k lines /\
    Forall (fun p => length p = P) full /\
    (1 <= length last <= P)%nat.
Proof.
  induction fuel as [|f IH]; intros lines k P HP Hk Hfuel; [lia|].
  cbn [page_loop].
  destruct (Z.of_nat k <=? Z.of_nat (length lines) - 1) eqn:Ele; [|lia].
  rewrite Z.gtb_ltb.
  destruct (Z.of_nat (length lines) - 1 <? Z.of_nat k + Z.of_nat P) eqn:Elast.
  - (* last page *)
    exists [], (skipn k lines).
    rewrite py_slice_from_nat by lia.
    assert (Hend : page_loop f lines (Z.of_nat k + (Z.of_nat P + 2 - 1)) (Z.of_nat (length lines) - 1)
                     (Z.of_nat P) (Z.of_nat P + 2) = []).
    { destruct f as [|f']; cbn [page_loop];
        destruct (Z.of_nat k + (Z.of_nat P + 2 - 1) <=? Z.of_nat (length lines) - 1) eqn:E2; try reflexivity; lia. }
    rewrite Hend, app_nil_r. cbn [app page_events concat].
    repeat split; try constructor; rewrite skipn_length; lia.
  - (* a full page, a prompt, and the rest *)
    assert (Hk' : (k + P < length lines)%nat) by lia.
    destruct (IH lines (k + P)%nat P HP Hk' ltac:(lia)) as (full & last & Hev & Hcat & Hfull & Hlast).
    exists (firstn P (skipn k lines) :: full), last.
    rewrite py_slice_nat by lia.
    replace (Z.of_nat k + Z.of_nat P) with (Z.of_nat (k + P)) by lia.
    rewrite Hev. cbn [app]. split; [destruct full; reflexivity|].
    repeat split; try lia.
    + cbn [concat]. rewrite <- app_assoc, Hcat.
      rewrite <- (firstn_skipn P (skipn k lines)) at 2.
      f_equal. symmetry. apply skipn_skipn'.
    + constructor; [|exact Hfull]. rewrite firstn_length, skipn_length. lia.
Qed.

Lemma print_widget_pages : forall lines H, 3 <= H ->
  let P := Z.to_nat (H - 2) in
  exists full last,
    print_widget lines H = page_events (full ++ [last]) /\
    concat full ++ last = lines /\
    Forall (fun p => length p = P) full /\
    (length last <= P)%nat /\
    (lines <> [] -> 1 <= length last)%nat /\
    ((length lines < P)%nat -> full = []).
Proof.
  intros lines H HH P. unfold print_widget.
  destruct (Z.of_nat (length lines) =? 0) eqn:E0.
  - exists [], []. destruct lines as [|l ls]; [|cbn [length] in E0; lia].
    cbn [app page_events concat map length]. repeat split; try constructor; try lia. congruence.
  - destruct (Z.of_nat (length lines) <? H - 2) eqn:Eshort.
    + exists [], lines. cbn [app page_events concat]. repeat split; try constructor; try lia.
    + destruct (page_loop_spec (S (length lines)) lines 0 P ltac:(lia) ltac:(lia) ltac:(lia))
        as (full & last & Hev & Hcat & Hfull & Hlast).
      exists full, last.
      replace (Z.of_nat P) with (H - 2) in Hev by lia.
      replace (H - 2 + 2) with H in Hev by lia.
      change (Z.of_nat 0) with 0 in Hev. rewrite Hev.
      cbn [skipn] in Hcat. repeat split; try assumption; try lia.
Qed.

Lemma paging_prints_all : forall lines H, 3 <= H -> prints_of (print_widget lines H) = lines.
Proof.
  intros lines H HH. destruct (print_widget_pages lines H HH) as (full & last & Hev & Hcat & _).
  rewrite Hev, page_events_snoc. autorewrite with observers. now rewrite prints_of_pages_with_prompt.
Qed.

Lemma paging_terminates : forall lines H, 3 <= H -> existsb is_out_of_fuel (print_widget lines H) = false.
Proof.
  intros lines H HH. destruct (print_widget_pages lines H HH) as (full & last & Hev & _).
  rewrite Hev, page_events_snoc. autorewrite with observers. now rewrite oof_pages_with_prompt.
Qed.

Lemma paging_terminates_In : forall lines H, 3 <= H -> ~ In POutOfFuel (print_widget lines H).
Proof.
  intros lines H HH Hin. pose proof (paging_terminates lines H HH) as Hf.
  apply not_true_iff_false in Hf. apply Hf, existsb_exists. exists POutOfFuel. split; [exact Hin|reflexivity].
Qed.

Lemma paging_short_no_prompt : forall lines H, 3 <= H ->
  (Z.of_nat (length lines) < H - 2) -> print_widget lines H = map PPrint lines.
Proof.
  intros lines H HH Hs. unfold print_widget.
  destruct (Z.of_nat (length lines) =? 0) eqn:E0.
  - destruct lines; [reflexivity | cbn [length] in E0; lia].
  - destruct (Z.of_nat (length lines) <? H - 2) eqn:E1; [reflexivity | lia].
Qed.

(* number of press-ENTER prompts: (n - 1) / P (truncated subtraction: 0 for n = 0) *)
Lemma paging_ask_count : forall lines H, 3 <= H ->
  count_asks (print_widget lines H) = ((length lines - 1) / Z.to_nat (H - 2))%nat.
Proof.
  intros lines H HH.
  destruct (print_widget_pages lines H HH) as (full & last & Hev & Hcat & Hfull & Hle & Hge & _).
  rewrite Hev, page_events_snoc. autorewrite with observers.
  rewrite count_asks_pages_with_prompt, Nat.add_0_r. apply (full_pages_count lines _ full last); auto. lia.
Qed.

(* the same count as "number of pages minus one", pages = ceil(n / P), for n >= 1 *)
Lemma paging_ask_count_ceil : forall lines H, 3 <= H -> lines <> [] ->
  S (count_asks (print_widget lines H))
  = ((length lines + Z.to_nat (H - 2) - 1) / Z.to_nat (H - 2))%nat.
Proof.
  intros lines H HH Hne. rewrite paging_ask_count by exact HH.
  set (P := Z.to_nat (H - 2)). assert (HP : (1 <= P)%nat) by lia.
  assert (Hn : (1 <= length lines)%nat) by (destruct lines; [congruence | cbn [length]; lia]).
  replace (length lines + P - 1)%nat with ((length lines - 1) + 1 * P)%nat by lia.
  rewrite Nat.div_add by lia. lia.
Qed.

Lemma in_spec_print_app ls evs typed :
  pr_prepend (map PPrint ls) (in_spec evs typed) = in_spec (map PPrint ls ++ evs) typed.
Proof.
  unfold in_spec. autorewrite with observers. cbn [Nat.add orb].
  destruct (count_asks evs <=? length typed)%nat; reflexivity.
Qed.

Lemma page_loop_in_spec : forall fuel lines pos last rsh sh typed,
  page_loop_in fuel lines pos last rsh sh typed = in_spec (page_loop fuel lines pos last rsh sh) typed.
Proof.
  induction fuel as [|f IH]; intros lines pos last rsh sh typed; cbn [page_loop page_loop_in].
  - destruct (pos <=? last); reflexivity.
  - destruct (pos <=? last); [|reflexivity].
    destruct (pos + rsh >? last).
    + rewrite IH. apply in_spec_print_app.
    + set (pg := py_slice lines pos (pos + rsh)).
      destruct typed as [|t typed'].
      * unfold in_spec. autorewrite with observers. reflexivity.
      * rewrite IH. set (evs := page_loop f lines (pos + rsh) last rsh sh).
        unfold in_spec. autorewrite with observers.
        cbn [count_asks existsb is_out_of_fuel orb length upto_ask skipn Nat.add].
        change (S (count_asks evs) <=? S (length typed'))%nat with (count_asks evs <=? length typed')%nat.
        destruct (count_asks evs <=? length typed')%nat; unfold pr_prepend; cbn [pr_events pr_left pr_status];
          rewrite <- app_assoc; reflexivity.
Qed.

Lemma paging_in_spec : forall lines H typed,
  print_widget_in lines H typed = in_spec (print_widget lines H) typed.
Proof.
  intros lines H typed. unfold print_widget_in, print_widget.
  destruct (Z.of_nat (length lines) =? 0); [reflexivity|].
  destruct (Z.of_nat (length lines) <? H - 2).
  - unfold in_spec. rewrite count_asks_map_print, oof_map_print. reflexivity.
  - apply page_loop_in_spec.
Qed.

Lemma paging_consumes_one_line_per_prompt : forall lines H typed, 3 <= H ->
  let asks := ((length lines - 1) / Z.to_nat (H - 2))%nat in
  (asks <= length typed)%nat ->
  print_widget_in lines H typed =
  {| pr_events := print_widget lines H; pr_left := skipn asks typed; pr_status := PgDone |}.
Proof.
  intros lines H typed HH asks Hlen. rewrite paging_in_spec. unfold in_spec.
  rewrite (paging_ask_count lines H HH), (paging_terminates lines H HH). fold asks.
  destruct (asks <=? length typed)%nat eqn:E; [reflexivity | lia].
Qed.

Lemma concat_firstn_full {A} (P : nat) : forall (full : list (list A)) (rest : list A) j,
  Forall (fun p => length p = P) full -> (j <= length full)%nat ->
  concat (firstn j full) = firstn (j * P) (concat full ++ rest).
Proof.
  induction full as [|p full IH]; intros rest j HF Hj.
  - cbn [length] in Hj. assert (j = 0)%nat by lia. subst j. reflexivity.
  - inversion HF as [|? ? Hp HF']; subst. destruct j as [|j]; [reflexivity|].
    cbn [firstn concat]. rewrite <- app_assoc.
    replace (S j * length p)%nat with (length p + j * length p)%nat by lia.
    rewrite firstn_app_2. f_equal. apply IH; [exact HF' | cbn [length] in Hj; lia].
Qed.

Lemma paging_blocks_without_typed_line : forall lines H typed, 3 <= H ->
  let P := Z.to_nat (H - 2) in
  (length typed < (length lines - 1) / P)%nat ->
  let r := print_widget_in lines H typed in
  pr_status r = PgBlocked /\ pr_left r = [] /\
  pr_events r = upto_ask (length typed) (print_widget lines H) /\
  prints_of (pr_events r) = firstn (S (length typed) * P) lines /\
  count_asks (pr_events r) = S (length typed) /\
  exists evs, pr_events r = evs ++ [PAskContinue].
Proof.
  intros lines H typed HH P Hlt r. unfold r. rewrite paging_in_spec. unfold in_spec.
  rewrite (paging_ask_count lines H HH). fold P.
  destruct ((length lines - 1) / P <=? length typed)%nat eqn:E; [lia|]. clear E.
  cbn [pr_status pr_left pr_events].
  destruct (print_widget_pages lines H HH) as (full & last & Hev & Hcat & Hfull & Hle & Hge & _).
  fold P in Hfull, Hle.
  assert (Hk : (length typed < length full)%nat).
  { rewrite (full_pages_count lines P full last); auto. lia. }
  rewrite Hev, page_events_snoc, (upto_ask_pages_with_prompt full _ _ Hk).
  repeat split.
  - rewrite prints_of_pages_with_prompt, <- Hcat. apply concat_firstn_full; [exact Hfull | lia].
  - rewrite count_asks_pages_with_prompt, firstn_length. lia.
  - assert (Hne : firstn (S (length typed)) full <> []).
    { destruct full; [cbn [length] in Hk; lia | discriminate]. }
    destruct (exists_last Hne) as (ps & p0 & ->).
    rewrite flat_map_app. cbn [flat_map]. rewrite app_nil_r. unfold page_with_prompt at 2.
    rewrite app_assoc. eexists. reflexivity.
Qed.

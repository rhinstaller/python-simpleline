(* C17Proofs.v — C17: console output is append-only and stays within the configured width.
   1. where the characters of a rendered widget tree come from (draw, write, wrapping, munge, containers);
   2. the characters of a prompt and of a whole draw; 3. the separator; 4. the width of every line of a draw;
   5. the width of a draw of a fitting tree (class: ScreenOut.v; its renders stay within the width: ContainersFinal.v). *)
From SL Require Import Tac proofs.ListFacts.
From SL Require Import PyInt Widget TextWrap KeyPattern Containers Prompt Paging ScreenOut
     proofs.WidgetProofs proofs.PyIntProofs proofs.TextWrapProofs proofs.TextWrapRender proofs.ContainersProofs
     proofs.ContainersLayout proofs.ContainersFinal proofs.PromptProofs proofs.PagingProofs.
Import ListNotations.
Local Open Scope nat_scope.

(* 1. characters *)
(* an output character is a blank or a character of the source that is not in textwrap._whitespace *)
Definition okc (src : list char) (c : char) : Prop := c = SP \/ (In c src /\ is_tw_space c = false).

Lemma okc_sp src : okc src SP.
Proof. now left. Qed.

Lemma okc_mono s1 s2 c : incl s1 s2 -> okc s1 c -> okc s2 c.
Proof. intros Hi [H|[H1 H2]]; [now left|right; split; [now apply Hi|exact H2]]. Qed.

Lemma okc_not_nl src c : okc src c -> c <> NL.
Proof. intros [->|[_ H]] E; [discriminate|]. subst c. discriminate. Qed.

Section Chars.
  Variable P : char -> Prop.
  Hypothesis P_sp : P SP.

  Definition okb (b : buffer) : Prop := Forall (Forall P) b.

  Lemma okb_repeat_nil n : okb (repeat [] n).
  Proof. unfold okb. induction n; cbn [repeat]; constructor; auto. Qed.

  Lemma okb_cells b : okb b <-> forall i j ch, cell b i j = Some ch -> P ch.
  Proof.
    unfold okb, cell. rewrite Forall_forall. split.
    - intros H i j ch E. destruct (nth_error b i) as [l|] eqn:El; [|discriminate].
      apply nth_error_In in El, E. specialize (H l El). rewrite Forall_forall in H. now apply H.
    - intros H l Hl. apply Forall_forall. intros ch Hch.
      destruct (In_nth_error _ _ Hl) as [i Hi]. destruct (In_nth_error _ _ Hch) as [j Hj].
      apply (H i j). unfold line. now rewrite Hi.
  Qed.

  Lemma chars_draw b row col block src : okb b -> okb src -> okb (fst (draw b row col block src)).
  Proof.
    rewrite !okb_cells. intros Hb Hs i j ch. rewrite draw_cells. unfold draw_cell_spec.
    destruct (in_rect row col src i j); [apply Hs|].
    destruct (cell b i j) as [v|] eqn:E; [intros [= <-]; exact (Hb i j v E)|].
    destruct (in_rows row src i && (j <? col)); [intros [= <-]; exact P_sp|discriminate].
  Qed.

  (* from the two halves of the cell-wise description of the typewriter: on the path the visible characters of
     the text, off the path what was there or a blank *)
  Lemma chars_typewriter text b x y col width block :
    okb b -> Forall (fun c => c = NL \/ P c) text -> okb (fst (typewriter text b x y col width block)).
  Proof.
    rewrite !okb_cells. intros Hb Ht i j ch.
    assert (Hdec : forall p q : nat * nat, {p = q} + {p <> q}) by (decide equality; apply Nat.eq_dec).
    destruct (in_dec Hdec (i, j) (path text x y col width block)) as [Hin|Hn].
    - apply In_nth_error in Hin. destruct Hin as [k Hk].
      destruct (nth_error (visible text) k) as [c|] eqn:Ev.
      + pose proof (typewriter_written _ b _ _ _ _ _ k (i, j) c Hk Ev) as Hw. cbn [fst snd] in Hw. rewrite Hw. intros [= <-].
        apply nth_error_In, filter_In in Ev. destruct Ev as [Hc Hnl]. rewrite Forall_forall in Ht.
        destruct (Ht c Hc) as [->|Hp]; [discriminate|exact Hp].
      + apply nth_error_None in Ev. rewrite <- (path_length text x y col width block) in Ev.
        assert (k < length (path text x y col width block)) by (apply nth_error_Some; congruence). lia.
    - rewrite typewriter_off_path by exact Hn. destruct (cell b i j) as [v|] eqn:E; [intros [= <-]; exact (Hb i j v E)|].
      destruct (existsb _ _); [intros [= <-]; exact P_sp|discriminate].
  Qed.

  Lemma chars_write b cur text row col width block :
    okb b -> Forall (fun c => c = NL \/ P c) text -> okb (fst (write b cur text row col width block)).
  Proof.
    intros Hb Ht. unfold write. destruct text as [|c r]; [exact Hb|]. now apply chars_typewriter.
  Qed.

  (* wrapping: lines come from the chunks (wrap_chunks_chars), '\n'.join adds line breaks *)
  Lemma chars_join_nl (Q : char -> Prop) ls : Q NL -> Forall (Forall Q) ls -> Forall Q (join_nl ls).
  Proof.
    intros Hn. induction ls as [|l r IH]; intros H; [constructor|].
    inversion H as [|? ? H1 H2]; subst. destruct r as [|l2 r]; [exact H1|].
    rewrite join_nl_cons2. apply Forall_app. split; [exact H1|]. constructor; [exact Hn|]. now apply IH.
  Qed.

  (* TextWidget.render: whatever the chunk oracle says, the output is made of the chunks' characters *)
  Lemma chars_render_text_chunks t w b :
    Forall (Forall (Forall P)) (t_chunks t) -> render_text t w = ROk b -> okb b.
  Proof.
    intros Hc H. destruct (render_text_cases t w) as [[E _]|[[E _]|[Ht Hw]]]; try (rewrite E in H).
    - injection H as <-. constructor.
    - discriminate.
    - rewrite render_text_eq in H by assumption. injection H as <-.
      apply chars_typewriter; [constructor|]. apply (chars_join_nl (fun c => c = NL \/ P c)); [now left|].
      eapply Forall_impl; [|exact (wrapped_chars P _ (Z.to_nat w) Hc)].
      intros l Hl. eapply Forall_impl; [|exact Hl]. intros c Hc'. now right.
  Qed.
End Chars.

(* _munge_whitespace: tabs and every other textwrap._whitespace character become blanks,
   everything else is copied *)
Lemma in_expandtabs s : forall col c, In c (expandtabs s col) -> c = SP \/ In c s.
Proof.
  induction s as [|a r IH]; intros col c H; cbn [expandtabs] in H; [destruct H|].
  destruct (a =? 9)%N.
  - apply in_app_or in H. destruct H as [H|H]; [left; now apply repeat_spec in H|].
    destruct (IH _ _ H) as [->|Hin]; [now left|right; now right].
  - destruct ((a =? 10) || (a =? 13))%N; destruct H as [<-|H]; try (right; now left);
      (destruct (IH _ _ H) as [->|Hin]; [now left|right; now right]).
Qed.

Lemma chars_munge s : Forall (okc s) (munge s).
Proof.
  unfold munge. apply Forall_forall. intros c Hc. apply in_map_iff in Hc. destruct Hc as (a & <- & Ha).
  destruct (is_tw_space a) eqn:E; [now left|].
  destruct (in_expandtabs _ _ _ Ha) as [->|Hin]; [now left|]. right. now split.
Qed.

Lemma in_split_nl s : forall cur l c, In l (split_nl s cur) -> In c l -> In c s \/ In c cur.
Proof.
  induction s as [|a r IH]; intros cur l c Hl Hc; cbn [split_nl] in Hl.
  - destruct Hl as [<-|[]]. right. now apply in_rev.
  - destruct (a =? NL)%N.
    + destruct Hl as [<-|Hl]; [right; now apply in_rev|].
      destruct (IH _ _ _ Hl Hc) as [H|[]]. left. now right.
    + destruct (IH _ _ _ Hl Hc) as [H|[<-|H]]; [left; now right|left; now left|now right].
Qed.

Lemma in_split_lines s l c : In l (split_lines s) -> In c l -> In c s.
Proof. intros Hl Hc. destruct (in_split_nl s [] l c Hl Hc) as [H|[]]. exact H. Qed.

(* TextWidget.render with the chunks of CPython's splitter: every character is a blank or a
   character of the text outside textwrap._whitespace *)
Lemma chars_render_text t w b src :
  chunks_ok t = true -> incl (t_text t) src -> render_text t w = ROk b -> okb (okc src) b.
Proof.
  intros Hok Hi H. apply (chars_render_text_chunks (okc src) (okc_sp src) t w b); [|exact H].
  apply chunks_ok_spec in Hok. apply Forall_forall. intros cs Hcs.
  destruct (Forall2_In_r _ _ _ cs Hok Hcs) as (line & Hin & [Hcat _]).
  apply List.Forall_concat.
  assert (G : Forall (okc src) (munge line)); [|rewrite <- Hcat in G; exact G].
  eapply Forall_impl; [|apply chars_munge]. intros c Hc. apply (okc_mono line); [|exact Hc].
  intros x Hx. apply Hi. now apply (in_split_lines _ line).
Qed.

(* containers: everything is drawn from the items' buffers *)
Section TreeChars.
  Variable P : char -> Prop.
  Hypothesis P_sp : P SP.
  Variable r : wtree -> Z -> rres buffer.

  Lemma chars_draw_items_block items :
    (forall it w b, In it items -> r it w = ROk b -> okb P b) ->
    forall w b0 row col res, okb P b0 -> draw_items_block r items w b0 row col = ROk res -> okb P (fst res).
  Proof.
    intros Hit w b0 row col res. apply (draw_items_block_inv r (okb P) (okb P)).
    - intros b row' ib. now apply chars_draw.
    - intros it ib Hin. now apply Hit.
  Qed.

  Lemma chars_render_columns cols :
    (forall it w b, In it (flat_map snd cols) -> r it w = ROk b -> okb P b) ->
    forall sp width b0 cp b, okb P b0 -> render_columns r cols sp width b0 cp = ROk b -> okb P b.
  Proof.
    induction cols as [|[cw items] cols IH]; intros Hc sp width b0 cp b Hb H; cbn [render_columns] in H.
    - injection H as <-. exact Hb.
    - destruct (nat_of_Z cp) as [cpn| |]; cbn [bind] in H; try discriminate. cbn [flat_map snd] in Hc.
      assert (Hi : forall it w b, In it items -> r it w = ROk b -> okb P b).
      { intros it w' b' Hin. apply Hc, in_or_app. now left. }
      assert (Hr : forall it w b, In it (flat_map snd cols) -> r it w = ROk b -> okb P b).
      { intros it w' b' Hin. apply Hc, in_or_app. now right. }
      destruct cw as [w0|]; cbv beta iota zeta in H;
        (destruct (draw_items_block r items _ b0 0 cpn) as [res| |] eqn:E; cbn [bind] in H; try discriminate;
         apply (IH Hr _ _ _ _ _ (chars_draw_items_block items Hi _ _ _ _ _ Hb E) H)).
  Qed.

  Definition ok_item (x : buffer * option (buffer * nat)) : Prop :=
    okb P (fst x) /\ match snd x with Some (lb, _) => okb P lb | None => True end.

  Lemma chars_render_all_items items :
    (forall it w b, In it items -> r it w = ROk b -> okb P b) ->
    forall id cw kp res,
    (forall kp' i lb, kp = Some kp' -> label_buffer kp' i = ROk lb -> okb P lb) ->
    render_all_items r items id cw kp = ROk res -> Forall ok_item res.
  Proof.
    intros Hit id cw kp res Hlab H. apply render_all_items_spec in H. destruct H as [_ Hres].
    apply Forall_forall. intros x Hx.
    destruct (items_rendered_in _ _ _ _ _ _ x Hres Hx) as (j & it & Hin & Hnth).
    unfold item_rendered in Hnth. unfold ok_item. destruct kp as [kp'|].
    - destruct Hnth as (_ & Hr & lb & Hlb & ->). split; [exact (Hit _ _ _ Hin Hr)|exact (Hlab kp' _ lb eq_refl Hlb)].
    - destruct Hnth as [Hr ->]. split; [exact (Hit _ _ _ Hin Hr)|exact I].
  Qed.

  Lemma chars_draw_list_col (rendered : list (buffer * option (buffer * nat))) lpr :
    Forall ok_item rendered ->
    forall col row_id b row_pos col_pos, okb P b -> okb P (draw_list_col col row_id rendered lpr b row_pos col_pos).
  Proof.
    intros Hr. induction col as [|item_id col IH]; intros row_id b row_pos col_pos Hb; cbn [draw_list_col]; [exact Hb|].
    assert (Hn : ok_item (nth item_id rendered ([], None))).
    { destruct (nth_in_or_default item_id rendered ([], None)) as [Hin| ->].
      - rewrite Forall_forall in Hr. now apply Hr.
      - split; cbn [fst snd]; [constructor|exact I]. }
    destruct (nth item_id rendered ([], None)) as [ib lab]. destruct Hn as [Hib Hlab]. cbn [fst snd] in Hib, Hlab.
    apply IH. destruct lab as [[lb lw]|].
    - apply chars_draw; [exact P_sp| |exact Hib]. apply chars_draw; [exact P_sp|exact Hb|exact Hlab].
    - apply chars_draw; [exact P_sp|exact Hb|exact Hib].
  Qed.

  Lemma chars_draw_list_cols (rendered : list (buffer * option (buffer * nat))) lpr cw sp :
    Forall ok_item rendered ->
    forall omap b0 col_pos b, okb P b0 -> draw_list_cols omap rendered lpr cw sp b0 col_pos = ROk b -> okb P b.
  Proof.
    intros Hr. induction omap as [|col omap IH]; intros b0 col_pos b Hb H; cbn [draw_list_cols] in H.
    - injection H as <-. exact Hb.
    - destruct (nat_of_Z col_pos) as [cp| |]; cbn [bind] in H; try discriminate.
      apply (IH _ _ _ (chars_draw_list_col rendered lpr Hr col 0 b0 0 cp Hb) H).
  Qed.
End TreeChars.

(* labels: prefix, decimal digits (and '-'), suffix *)
Lemma digit_in_list c : is_digit c = true -> In c [45; 48; 49; 50; 51; 52; 53; 54; 55; 56; 57]%N.
Proof.
  unfold is_digit. intros H.
  assert (E : (c = 48 \/ c = 49 \/ c = 50 \/ c = 51 \/ c = 52 \/ c = 53 \/ c = 54 \/ c = 55 \/ c = 56 \/ c = 57)%N) by lia.
  cbn [In]. intuition.
Qed.

Lemma dec_chars z c : In c (dec z) -> In c [45; 48; 49; 50; 51; 52; 53; 54; 55; 56; 57]%N.
Proof.
  assert (HN : forall n, In c (dec_N n) -> In c [45; 48; 49; 50; 51; 52; 53; 54; 55; 56; 57]%N).
  { intros n Hin. apply digit_in_list. pose proof (dec_N_digits n) as Hd. unfold all_digits in Hd.
    rewrite forallb_forall in Hd. now apply Hd. }
  destruct z as [|p|p]; cbn [dec]; intros H; [now apply (HN 0%N)|now apply (HN (Npos p))|].
  destruct H as [<-|H]; [now left|now apply (HN (Npos p))].
Qed.

Lemma label_chars kp i : incl (get_widget_label kp i) (pattern_chars kp).
Proof.
  intros c H. unfold get_widget_label, shown_number in H. unfold pattern_chars.
  apply in_app_or in H. destruct H as [H|H]; [apply in_or_app; now left|].
  apply in_app_or in H. apply in_or_app. right. apply in_or_app.
  destruct H as [H|H]; [right; now apply (dec_chars _ _ H)|now left].
Qed.

Lemma chars_label_buffer kp i lb src :
  incl (pattern_chars kp) src -> label_buffer kp i = ROk lb -> okb (okc src) lb.
Proof.
  intros Hi H. unfold label_buffer in H. cbv zeta in H.
  apply (chars_render_text _ _ _ src (simple_text_ok _)) in H; [exact H|].
  cbn [t_text simple_text]. intros c Hc. apply Hi. now apply (label_chars kp i).
Qed.

Lemma incl_flat_map_in {A B} (g : A -> list B) l x : In x l -> incl (g x) (flat_map g l).
Proof. intros Hin y Hy. apply in_flat_map. exists x. now split. Qed.

Lemma child_texts t c : In c (children t) ->
  incl (texts_of_tree c) (texts_of_tree t) /\ incl (chars_of_tree c) (chars_of_tree t).
Proof.
  destruct t as [tx|n|c0|cols sp|box data|kind columns items forced sp kp|title items];
    cbn [children texts_of_tree chars_of_tree]; intros H.
  - contradiction.
  - contradiction.
  - destruct H as [<-|[]]. split; apply incl_refl.
  - apply in_flat_map in H. destruct H as (col & Hcol & Hin).
    split; (eapply incl_tran; [|apply (incl_flat_map_in _ cols col Hcol)]); now apply incl_flat_map_in.
  - destruct H as [<-|H]; [split; [apply incl_cons; [now left|apply incl_nil_l]|apply incl_appl, incl_refl]|].
    apply in_map_iff in H. destruct H as (d & <- & Hd). split.
    + apply incl_cons; [now right|apply incl_nil_l].
    + apply incl_appr. now apply (incl_flat_map_in t_text).
  - split; [|apply incl_appr]; now apply incl_flat_map_in.
  - split; apply incl_appr; now apply incl_flat_map_in.
Qed.

Lemma chars_render : forall t src w b,
  tree_texts_ok t -> incl (chars_of_tree t) src -> render_tree t w = ROk b -> okb (okc src) b.
Proof.
  induction t as [t IH] using wtree_child_ind. intros src w b Hok Hi H.
  assert (IHc : forall c w' b', In c (children t) -> render_tree c w' = ROk b' -> okb (okc src) b').
  { intros c w' b' Hc. destruct (child_texts t c Hc) as [Ht Hch].
    apply (IH c Hc); [exact (incl_Forall Ht Hok)|exact (incl_tran Hch Hi)]. }
  clear IH. pose proof H as Hn. rewrite render_tree_eq in Hn. unfold tree_texts_ok in Hok.
  destruct t as [tx|n|c|cols sp|box data|kind columns items forced sp kp|title items];
    cbn [render_node] in Hn; cbn [children] in IHc; cbn [texts_of_tree] in Hok; cbn [chars_of_tree] in Hi.
  - (* TextWidget *)
    inversion Hok as [|? ? Hx _]; subst. now apply (chars_render_text tx w b src).
  - (* SeparatorWidget *)
    injection Hn as <-. apply okb_repeat_nil.
  - (* CenterWidget *)
    destruct (render_tree c w) as [cb| |] eqn:Ecb; cbn [bind] in Hn; try discriminate.
    destruct (nat_of_Z _) as [col| |]; cbn [bind] in Hn; try discriminate. injection Hn as <-.
    apply (chars_draw (okc src) (okc_sp src) [] 0 col false cb); [constructor|].
    exact (IHc c w cb (or_introl eq_refl) Ecb).
  - (* ColumnWidget *)
    apply (chars_render_columns (okc src) (okc_sp src) render_tree cols) in Hn; [exact Hn|exact IHc|constructor].
  - (* CheckboxWidget *)
    match type of Hn with bind ?e _ = _ => destruct e as [cb| |] eqn:Ecb; cbn [bind] in Hn; try discriminate end.
    injection Hn as <-. apply (chars_draw (okc src) (okc_sp src) [] 0 0 false cb); [constructor|].
    apply (chars_render_columns (okc src) (okc_sp src) render_tree) in Ecb; [exact Ecb| |constructor].
    cbn [flat_map snd app]. rewrite app_nil_r. exact IHc.
  - (* ListRowContainer / ListColumnContainer *)
    destruct (columns <=? 0)%Z; [discriminate|].
    match type of Hn with bind ?e _ = _ => destruct e as [rendered| |] eqn:Er; cbn [bind] in Hn; try discriminate end.
    apply (chars_render_all_items (okc src) render_tree items IHc) in Er.
    + apply (chars_draw_list_cols (okc src) (okc_sp src) rendered _ _ _ Er) in Hn; [exact Hn|constructor].
    + intros kp' i lb -> Hlb. apply (chars_label_buffer kp' i lb src); [|exact Hlb].
      exact (incl_tran (incl_appl _ (incl_refl _)) Hi).
  - (* WindowContainer: the title block, then the items' own lines *)
    apply render_window in H. destruct H as (hd & ibs & Hhd & HF & ->). apply Forall_app. split.
    + destruct (window_title_cases _ _ _ Hhd) as [->|(tt & tb & -> & _ & Etb & ->)]; [constructor|].
      apply Forall_app. split; [|repeat constructor].
      cbn [app] in Hok. inversion Hok as [|? ? Htt _]; subst.
      apply (chars_render_text tt w tb src Htt); [|exact Etb]. exact (incl_tran (incl_appl _ (incl_refl _)) Hi).
    + apply <- List.Forall_concat. apply Forall_forall. intros ib Hib.
      destruct (Forall2_In_r _ _ _ ib HF Hib) as (it & Hit & Hr). exact (IHc it w ib Hit Hr).
Qed.

Lemma charset_render t w b c :
  tree_texts_ok t -> render_tree t w = ROk b -> In c (concat b) ->
  c = SP \/ (In c (chars_of_tree t) /\ is_tw_space c = false).
Proof.
  intros Hok H Hc. apply (chars_render t (chars_of_tree t) w b Hok (incl_refl _)) in H.
  apply List.Forall_concat in H. rewrite Forall_forall in H. exact (H c Hc).
Qed.

(* no line of a rendered tree contains a line break, a tab, a carriage return, a vertical tab or a
   form feed, whatever the application's strings contain *)
Lemma render_no_layout_chars t w b c :
  tree_texts_ok t -> render_tree t w = ROk b -> In c (concat b) -> is_tw_space c = true -> c = SP.
Proof.
  intros Hok H Hc Hs. destruct (charset_render t w b c Hok H Hc) as [E|[_ E]]; [exact E|congruence].
Qed.

Lemma render_lines_no_nl t w b : tree_texts_ok t -> render_tree t w = ROk b -> Forall no_nl b.
Proof.
  intros Hok H. apply Forall_forall. intros l Hl. unfold no_nl. apply Forall_forall. intros c Hc E.
  assert (Hin : In c (concat b)) by (apply in_concat; exists l; now split).
  subst c. pose proof (render_no_layout_chars t w b NL Hok H Hin eq_refl). discriminate.
Qed.

(* 2. prompts and whole draws *)
Local Open Scope N_scope.

Lemma Forall_join (Q : char -> Prop) sep l : Forall Q sep -> Forall (Forall Q) l -> Forall Q (join sep l).
Proof.
  intros Hs. induction l as [|x r IH]; intros H; [constructor|]. inversion H as [|? ? Hx Hr]; subst.
  cbn [join]. destruct r as [|y r']; [exact Hx|].
  apply Forall_app. split; [exact Hx|]. apply Forall_app. split; [exact Hs|now apply IH].
Qed.

(* Prompt.__str__ adds only "[", "]", "'", " ", ",", ":" to the message, the keys and the descriptions:
   a set that holds those holds the text of the prompt *)
Lemma format_prompt_chars (Q : char -> Prop) m listing :
  Forall Q prompt_literals -> (forall msg, m = Some msg -> Forall Q msg) ->
  Forall (fun kd : str * str => Forall Q (fst kd) /\ Forall Q (snd kd)) listing ->
  Forall Q (format_prompt m listing).
Proof.
  intros Hl Hm Hk.
  assert (Hlit : forall x, In x prompt_literals -> Q x) by (now apply Forall_forall).
  assert (Hj : Forall Q (join [44; 32] (map (fun kd => opt_item (fst kd) (snd kd)) listing))).
  { apply Forall_join; [repeat constructor; apply Hlit; cbn; tauto|].
    apply Forall_map. eapply Forall_impl; [|exact Hk]. intros kd [H1 H2]. unfold opt_item, QUOTE.
    constructor; [apply Hlit; cbn; tauto|]. apply Forall_app. split; [exact H1|].
    apply Forall_app. split; [|exact H2]. repeat constructor; apply Hlit; cbn; tauto. }
  destruct m as [[|c0 m]|]; destruct listing as [|kd0 l]; cbn [format_prompt];
    repeat (apply Forall_app; split); try exact Hj; try (apply Hm; reflexivity);
    repeat constructor; apply Hlit; cbn; tauto.
Qed.

Lemma dict_get_some_in d k v : dict_get d k = Some v -> exists k', In (k', v) d.
Proof.
  induction d as [|[k0 v0] r IH]; cbn [dict_get]; [discriminate|].
  destruct (str_eq k k0).
  - intros E. injection E as <-. exists k0. now left.
  - intros E. destruct (IH E) as (k' & Hk). exists k'. now right.
Qed.

Lemma prompt_str_chars p c : In c (prompt_str p) -> In c prompt_literals \/ In c (prompt_app_chars p).
Proof.
  revert c. apply Forall_forall. rewrite prompt_str_format. unfold prompt_app_chars. apply format_prompt_chars.
  - apply Forall_forall. intros c Hc. now left.
  - intros msg Em. apply Forall_forall. intros c Hc. right. rewrite Em. apply in_or_app. now left.
  - apply Forall_map, Forall_forall. intros k Hk. cbn [fst snd].
    apply (proj1 (sort_keys_in _ _)) in Hk. unfold dict_keys in Hk. apply in_map_iff in Hk. destruct Hk as ([k0 v0] & E & Hin).
    cbn [fst] in E. subst k0. split; apply Forall_forall; intros c Hc; right; apply in_or_app; right.
    + apply in_flat_map. exists (k, v0). split; [exact Hin|]. cbn [fst snd]. apply in_or_app. now left.
    + destruct (dict_get (p_options p) k) as [d|] eqn:Ed; cbn [default_desc] in Hc; [|destruct Hc].
      destruct (dict_get_some_in _ _ _ Ed) as (k' & Hk'). apply in_flat_map. exists (k', d).
      split; [exact Hk'|]. cbn [fst snd]. apply in_or_app. now right.
Qed.

(* InputHandlerRequest.text_prompt: line breaks, blanks, and the non-blank characters of str(prompt) *)
Lemma chars_text_prompt t w s src :
  chunks_ok t = true -> incl (t_text t) src -> text_prompt t w = ROk s ->
  Forall (fun c => c = NL \/ okc src c) s.
Proof.
  intros Hok Hi H. unfold text_prompt in H. destruct (render_text t w) as [b| |] eqn:Eb; try discriminate.
  injection H as <-. apply (chars_render_text t w b src Hok Hi) in Eb.
  apply Forall_app. split; [|constructor; [right; now left|constructor]].
  apply chars_join_nl; [now left|]. eapply Forall_impl; [|exact Eb].
  intros l Hl. eapply Forall_impl; [|exact Hl]. intros c Hc. now right.
Qed.

Lemma chars_prompt_output p chunks w s c :
  chunks_ok {| t_text := prompt_str p; t_chunks := chunks |} = true ->
  prompt_output p chunks w = ROk s -> In c s ->
  c = NL \/ c = SP \/
  ((In c prompt_literals \/ In c (prompt_app_chars p)) /\ is_tw_space c = false).
Proof.
  intros Hok H Hc. unfold prompt_output in H.
  apply (chars_text_prompt _ w s (prompt_str p) Hok (incl_refl _)) in H.
  rewrite Forall_forall in H. destruct (H c Hc) as [E|[E|[Hin Hs]]]; [now left|right; now left|].
  right. right. split; [now apply prompt_str_chars|exact Hs].
Qed.

Lemma page_loop_prints_in lines : forall fuel pos last rsh sh l,
  In (PPrint l) (page_loop fuel lines pos last rsh sh) -> In l lines.
Proof.
  induction fuel as [|f IH]; intros pos last rsh sh l H; cbn [page_loop] in H;
    destruct (pos <=? last)%Z; try (destruct H as [H|[]]; discriminate); try (destruct H; fail).
  destruct (pos + rsh >? last)%Z.
  - apply in_app_or in H. destruct H as [H|H]; [|now apply IH in H].
    apply in_map_iff in H. destruct H as (x & E & Hx). injection E as ->. now apply In_skipn in Hx.
  - apply in_app_or in H. destruct H as [H|[H|H]]; [|discriminate|now apply IH in H].
    apply in_map_iff in H. destruct H as (x & E & Hx). injection E as ->. apply In_firstn in Hx. now apply In_skipn in Hx.
Qed.

Lemma print_widget_prints_in lines H l : In (PPrint l) (print_widget lines H) -> In l lines.
Proof.
  unfold print_widget. destruct (Z.of_nat (length lines) =? 0)%Z; [intros []|]. cbv zeta.
  destruct (Z.of_nat (length lines) <? H - 2)%Z.
  - intros Hin. apply in_map_iff in Hin. destruct Hin as (x & E & Hx). now injection E as ->.
  - apply page_loop_prints_in.
Qed.

Definition ev_lines_ok (Q : line -> Prop) (evs : list pevent) : Prop :=
  forall l, In (PPrint l) evs -> Q l.

Lemma chars_events_output (Q : char -> Prop) echo w :
  Q NL -> Forall Q echo ->
  (forall p, text_prompt continue_text w = ROk p -> Forall Q p) ->
  forall evs, ev_lines_ok (Forall Q) evs -> Forall Q (fst (events_output echo evs w)).
Proof.
  intros Hn He Hp. induction evs as [|e evs IH]; intros Hl; cbn [events_output]; [constructor|].
  assert (Hl' : ev_lines_ok (Forall Q) evs) by (intros l Hin; apply Hl; now right).
  specialize (IH Hl'). destruct e as [l| |].
  - destruct (events_output echo evs w) as [o s]. cbn [fst] in *. unfold py_print.
    apply Forall_app. split; [|exact IH]. apply Forall_app. split; [apply Hl; now left|constructor; [exact Hn|constructor]].
  - destruct (text_prompt continue_text w) as [p| |] eqn:Ep; try constructor.
    destruct (events_output echo evs w) as [o s]. cbn [fst] in *.
    apply Forall_app. split; [now apply Hp|]. apply Forall_app. now split.
  - constructor.
Qed.

(* show_all writes line ends, blanks, the echo, the visible characters of the press-ENTER prompt
   and those of the window's texts: any set [Q] that holds these holds the whole output *)
Lemma chars_show_all (Q : char -> Prop) echo win w H :
  tree_texts_ok win -> Q NL -> Q SP -> Forall Q echo ->
  (forall c, In c (prompt_str continue_prompt) -> Q c) ->
  (forall c, In c (chars_of_tree win) -> is_tw_space c = false -> Q c) ->
  Forall Q (fst (show_all_output echo win w H)).
Proof.
  intros Hok Hnl Hsp Hecho Hprompt Hwin. unfold show_all_output, show_all.
  destruct (render_tree win w) as [b| |] eqn:Eb; try constructor.
  apply chars_events_output; [exact Hnl|exact Hecho| |].
  - intros p Hp. apply (chars_text_prompt _ _ _ (prompt_str continue_prompt) (simple_text_ok _) (incl_refl _)) in Hp.
    eapply Forall_impl; [|exact Hp]. intros c [->|[->|[Hc _]]]; auto.
  - intros l Hl. apply print_widget_prints_in in Hl. apply Forall_forall. intros c Hc.
    assert (Hin : In c (concat b)) by (apply in_concat; exists l; now split).
    destruct (charset_render win w b c Hok Eb Hin) as [->|[Hc1 Hc2]]; auto.
Qed.

Definition draw_char_ok (echo : list char) (win : wtree) (c : char) : Prop :=
  In c own_chars \/ In c echo \/ (In c (chars_of_tree win) /\ is_tw_space c = false).

Lemma rule_chars w : Forall (fun c => c = EQS) (rule w).
Proof. unfold rule. apply Forall_forall. intros c H. now apply repeat_spec in H. Qed.

Lemma spacer_eq w : spacer w = rule w ++ NL :: rule w.
Proof. reflexivity. Qed.

Lemma charset_draw echo ns win w H c :
  tree_texts_ok win -> In c (fst (draw_output_echo echo ns win w H)) -> draw_char_ok echo win c.
Proof.
  intros Hok Hc.
  assert (Hall : Forall (draw_char_ok echo win) (fst (draw_output_echo echo ns win w H))); [|rewrite Forall_forall in Hall; now apply Hall].
  clear c Hc. unfold draw_output_echo.
  destruct (show_all_output echo win w H) as [o s] eqn:Eo. cbn [fst].
  assert (Hown : forall c, In c own_chars -> draw_char_ok echo win c) by (intros c Hc; now left).
  apply Forall_app. split.
  - destruct ns; [constructor|]. unfold py_print. rewrite spacer_eq.
    assert (Hr : Forall (draw_char_ok echo win) (rule w)).
    { eapply Forall_impl; [|apply rule_chars]. intros c ->. apply Hown. unfold own_chars. cbn [In]. tauto. }
    assert (Hnl : draw_char_ok echo win NL) by (apply Hown; now left).
    repeat (apply Forall_app; split); try exact Hr; repeat constructor; try exact Hnl. exact Hr.
  - replace o with (fst (show_all_output echo win w H)) by (rewrite Eo; reflexivity).
    apply chars_show_all; [exact Hok|apply Hown; now left|apply Hown; right; now left| | |].
    + apply Forall_forall. intros c Hc. right. now left.
    + intros c Hc. apply Hown. right. right. now right.
    + intros c Hc Hs. right. now right.
Qed.

Lemma own_chars_plain c : In c own_chars -> c = NL \/ (32 <= c /\ c < 127).
Proof.
  assert (H : forallb (fun c => (c =? NL) || ((32 <=? c) && (c <? 127))) own_chars = true) by reflexivity.
  rewrite forallb_forall in H. intros Hc. specialize (H c Hc). lia.
Qed.

Lemma own_chars_not_forbidden c : In c own_chars -> forbidden c = false.
Proof. intros H. apply own_chars_plain in H. unfold forbidden. unfold NL in H. lia. Qed.

Lemma charset_framework ns win w H :
  tree_texts_ok win ->
  (forall c, In c (chars_of_tree win) -> is_tw_space c = false -> forbidden c = false) ->
  Forall (fun c => forbidden c = false) (fst (draw_output ns win w H)).
Proof.
  intros Hok Happ. apply Forall_forall. intros c Hc. unfold draw_output in Hc.
  destruct (charset_draw [] ns win w H c Hok Hc) as [H1|[[]|[H1 H2]]]; [now apply own_chars_not_forbidden|now apply Happ].
Qed.

Lemma append_only ns win w H c :
  tree_texts_ok win -> In c (fst (draw_output ns win w H)) -> (c < 32 \/ c = 127) ->
  c = NL \/ (In c (chars_of_tree win) /\ is_tw_space c = false).
Proof.
  intros Hok Hc Hlow. unfold draw_output in Hc.
  destruct (charset_draw [] ns win w H c Hok Hc) as [H1|[[]|H1]]; [|now right].
  apply own_chars_plain in H1. left. lia.
Qed.

Lemma prompt_literals_plain c : In c prompt_literals -> 32 <= c /\ c < 127.
Proof. unfold prompt_literals. cbn [In]. intros H. lia. Qed.

Lemma charset_prompt p chunks w s :
  chunks_ok {| t_text := prompt_str p; t_chunks := chunks |} = true ->
  (forall c, In c (prompt_app_chars p) -> is_tw_space c = false -> forbidden c = false) ->
  prompt_output p chunks w = ROk s -> Forall (fun c => forbidden c = false) s.
Proof.
  intros Hok Happ H. apply Forall_forall. intros c Hc.
  destruct (chars_prompt_output p chunks w s c Hok H Hc) as [->|[->|[[Hl|Ha] Hs]]]; try reflexivity.
  - apply prompt_literals_plain in Hl. unfold forbidden. lia.
  - now apply Happ.
Qed.
Local Close Scope N_scope.

(* 3. the separator *)
Lemma rule_length w : length (rule w) = Z.to_nat w.
Proof. apply repeat_length. Qed.

Lemma rule_no_nl w : no_nl (rule w).
Proof. unfold no_nl. eapply Forall_impl; [|apply rule_chars]. intros c -> E. discriminate E. Qed.

Lemma split_lines_print l rest : split_lines (py_print l ++ rest) = split_lines l ++ split_lines rest.
Proof. unfold py_print. rewrite <- app_assoc. apply split_lines_app_nl. Qed.

Lemma split_lines_spacer w : split_lines (spacer w) = [rule w; rule w].
Proof.
  rewrite spacer_eq, split_lines_app_nl, !(split_nl_nonl _ (rule_no_nl w)). reflexivity.
Qed.

Lemma draw_starts_with_separator echo win w H :
  fst (draw_output_echo echo false win w H) = py_print (spacer w) ++ fst (draw_output_echo echo true win w H) /\
  snd (draw_output_echo echo false win w H) = snd (draw_output_echo echo true win w H).
Proof.
  unfold draw_output_echo. destruct (show_all_output echo win w H) as [o s]. cbn [fst snd app]. now split.
Qed.

Lemma draw_no_separator echo win w H : draw_output_echo echo true win w H = show_all_output echo win w H.
Proof. unfold draw_output_echo. destruct (show_all_output echo win w H) as [o s]. reflexivity. Qed.

Lemma draw_separator_lines echo win w H :
  split_lines (fst (draw_output_echo echo false win w H)) =
  rule w :: rule w :: split_lines (fst (draw_output_echo echo true win w H)).
Proof.
  rewrite (proj1 (draw_starts_with_separator echo win w H)), split_lines_print, split_lines_spacer. reflexivity.
Qed.

Lemma no_separator_no_rule win w H :
  tree_texts_ok win -> In EQS (fst (draw_output true win w H)) -> In EQS (chars_of_tree win).
Proof.
  intros Hok Hc. unfold draw_output in Hc. rewrite draw_no_separator in Hc.
  assert (Hall : Forall (fun c => In c (NL :: SP :: prompt_str continue_prompt) \/
                                  (In c (chars_of_tree win) /\ is_tw_space c = false))
                        (fst (show_all_output [] win w H))).
  { apply chars_show_all; [exact Hok|left; now left|left; right; now left|constructor| |].
    - intros c Hc'. left. right. now right.
    - intros c Hc' Hs. now right. }
  rewrite Forall_forall in Hall. destruct (Hall EQS Hc) as [Hin|[Hin _]]; [|exact Hin].
  exfalso. assert (E : existsb (fun c => (c =? EQS)%N) (NL :: SP :: prompt_str continue_prompt) = false) by reflexivity.
  assert (E' : existsb (fun c => (c =? EQS)%N) (NL :: SP :: prompt_str continue_prompt) = true).
  { apply existsb_exists. exists EQS. split; [exact Hin|reflexivity]. }
  congruence.
Qed.

(* 4. width *)
(* a line is within w when, its trailing blanks removed, it has at most w characters *)
Definition fits (w : nat) (l : line) : Prop := length (rstrip_sp l) <= w.

Lemma lstrip_sp_le l : length (lstrip_sp l) <= length l.
Proof. induction l as [|c r IH]; cbn [lstrip_sp]; [lia|]. destruct (c =? SP)%N; cbn [length]; lia. Qed.

Lemma rstrip_sp_le l : length (rstrip_sp l) <= length l.
Proof. unfold rstrip_sp. rewrite rev_length. pose proof (lstrip_sp_le (rev l)) as H. rewrite rev_length in H. exact H. Qed.

Lemma rstrip_sp_snoc l : rstrip_sp (l ++ [SP]) = rstrip_sp l.
Proof. unfold rstrip_sp. rewrite rev_app_distr. cbn [rev app lstrip_sp]. change (SP =? SP)%N with true. reflexivity. Qed.

Lemma short_fits w l : short w l -> fits w l.
Proof. unfold short, fits. intros H. exact (Nat.le_trans _ _ _ (rstrip_sp_le l) H). Qed.

Lemma fits_nil w : fits w [].
Proof. unfold fits. cbn. lia. Qed.

(* text + " ": what holds of every line of text, and of the last one with a blank added *)
Lemma split_nl_snoc_sp (A B : line -> Prop) x :
  (forall l, A l -> B l) -> (forall l, A l -> B (l ++ [SP])) ->
  forall cur, Forall A (split_nl x cur) -> Forall B (split_nl (x ++ [SP]) cur).
Proof.
  intros H1 H2. induction x as [|c x IH]; intros cur H; cbn [app split_nl] in *.
  - change (SP =? NL)%N with false. cbv iota. cbn [split_nl rev]. inversion H as [|? ? Hl _]; subst.
    constructor; [now apply H2|constructor].
  - destruct (c =? NL)%N; [|now apply IH].
    inversion H as [|? ? Hl Hr]; subst. constructor; [now apply H1|now apply IH].
Qed.

Lemma text_prompt_shape t w s :
  text_prompt t w = ROk s ->
  exists b, render_text t w = ROk b /\ s = join_nl b ++ [SP] /\
            Forall (fun l : line => (Z.of_nat (length l) <= w)%Z) b.
Proof.
  unfold text_prompt. intros H. destruct (render_text t w) as [b| |] eqn:Eb; try discriminate.
  injection H as <-. exists b. split; [reflexivity|]. split; [reflexivity|]. now apply render_width in Eb.
Qed.

Lemma text_prompt_width t w s :
  text_prompt t w = ROk s ->
  Forall (fits (Z.to_nat w)) (split_lines s) /\ Forall (short (S (Z.to_nat w))) (split_lines s).
Proof.
  intros H. destruct (text_prompt_shape t w s H) as (b & _ & -> & Hb).
  assert (Hs : Forall (short (Z.to_nat w)) (split_lines (join_nl b))).
  { apply split_join_short. eapply Forall_impl; [|exact Hb]. intros l Hl. apply (split_nl_short _ l []). cbn [length]. unfold line, char, str in *. lia. }
  split; apply (split_nl_snoc_sp (short (Z.to_nat w))); try exact Hs.
  - apply short_fits.
  - intros l Hl. unfold fits. rewrite rstrip_sp_snoc. now apply short_fits.
  - unfold short. intros l Hl. lia.
  - unfold short, line, str, char. intros l Hl. rewrite app_length. cbn [length]. lia.
Qed.

(* what the events write, on a terminal where the user answers the press-ENTER prompts with ENTER *)
Lemma width_events wn w : wn = Z.to_nat w ->
  forall evs, ev_lines_ok (fun l => length l <= wn) evs ->
  Forall (fits wn) (split_lines (fst (events_output [NL] evs w))).
Proof.
  intros Ew. induction evs as [|e evs IH]; intros Hl; cbn [events_output].
  - constructor; [apply fits_nil|constructor].
  - assert (Hl' : ev_lines_ok (fun l => length l <= wn) evs) by (intros l Hin; apply Hl; now right).
    specialize (IH Hl'). destruct e as [l| |].
    + destruct (events_output [NL] evs w) as [o s]. cbn [fst] in *. rewrite split_lines_print.
      apply Forall_app. split; [|exact IH].
      eapply Forall_impl; [intros a Ha; apply short_fits; exact Ha|].
      apply (split_nl_short _ l []). cbn [length]. apply Hl. now left.
    + destruct (text_prompt continue_text w) as [p| |] eqn:Ep; try (constructor; [apply fits_nil|constructor]).
      destruct (events_output [NL] evs w) as [o s]. cbn [fst app] in *. rewrite split_lines_app_nl.
      apply Forall_app. split; [|exact IH]. subst wn. apply (proj1 (text_prompt_width _ _ _ Ep)).
    + constructor; [apply fits_nil|constructor].
Qed.

(* one draw: separator, content, press-ENTER prompts.  Hypothesis: the window renders within w *)
Lemma width_draw_gen ns win w H :
  (0 <= w)%Z ->
  (forall b, render_tree win w = ROk b -> Forall (fun l : line => (Z.of_nat (length l) <= w)%Z) b) ->
  Forall (fits (Z.to_nat w)) (split_lines (fst (draw_terminal ns win w H))).
Proof.
  intros Hw Hwin.
  assert (Hcontent : Forall (fits (Z.to_nat w)) (split_lines (fst (draw_output_echo [NL] true win w H)))).
  { rewrite draw_no_separator. unfold show_all_output, show_all.
    destruct (render_tree win w) as [b| |] eqn:Eb; try (constructor; [apply fits_nil|constructor]).
    apply (width_events _ w eq_refl). intros l Hl. apply print_widget_prints_in in Hl.
    specialize (Hwin b eq_refl). rewrite Forall_forall in Hwin. specialize (Hwin l Hl). lia. }
  unfold draw_terminal. destruct ns; [exact Hcontent|]. rewrite draw_separator_lines.
  assert (Hr : fits (Z.to_nat w) (rule w)) by (apply short_fits; unfold short; rewrite rule_length; lia).
  constructor; [exact Hr|]. constructor; [exact Hr|exact Hcontent].
Qed.

(* content that fits on the screen (fewer than H - 2 lines): no press-ENTER prompt, and the stream is
   the separator and the lines, each followed by a line feed *)
Lemma events_output_prints echo ls w : events_output echo (map PPrint ls) w = (emit_lines ls, ROk tt).
Proof.
  induction ls as [|l ls IH]; cbn [map events_output]; [reflexivity|]. rewrite IH. reflexivity.
Qed.

Lemma draw_fits_screen echo ns win w H b :
  render_tree win w = ROk b -> (Z.of_nat (length b) < H - 2)%Z ->
  draw_output_echo echo ns win w H = ((if ns then [] else py_print (spacer w)) ++ emit_lines b, ROk tt).
Proof.
  intros Hb Hlen. unfold draw_output_echo, show_all_output, show_all. rewrite Hb.
  rewrite paging_short_no_prompt, events_output_prints by lia. reflexivity.
Qed.

Lemma split_lines_emit ls : Forall no_nl ls -> split_lines (emit_lines ls) = ls ++ [[]].
Proof.
  induction ls as [|l ls IH]; intros H; [reflexivity|]. inversion H as [|? ? H1 H2]; subst.
  cbn [emit_lines flat_map]. rewrite split_lines_print, (split_nl_nonl _ H1). cbn [app]. f_equal. now apply IH.
Qed.

(* the lines a reader of the stream sees are exactly the separator and the window's lines: every line feed
   is the end of a printed line *)
Lemma draw_stream_lines ns win w H b :
  tree_texts_ok win -> render_tree win w = ROk b -> (Z.of_nat (length b) < H - 2)%Z ->
  split_lines (fst (draw_output ns win w H)) = (if ns then [] else [rule w; rule w]) ++ b ++ [[]].
Proof.
  intros Hok Hb Hlen. unfold draw_output. rewrite (draw_fits_screen [] ns win w H b Hb Hlen). cbn [fst].
  pose proof (split_lines_emit b (render_lines_no_nl win w b Hok Hb)) as E.
  destruct ns; [exact E|]. rewrite split_lines_print, split_lines_spacer, E. reflexivity.
Qed.

Lemma width_draw_fits_screen_gen ns win w H b :
  Forall (fun l : line => (Z.of_nat (length l) <= w)%Z) b ->
  (0 <= w)%Z -> render_tree win w = ROk b -> (Z.of_nat (length b) < H - 2)%Z ->
  Forall (fun l => (Z.of_nat (length l) <= w)%Z) (split_lines (fst (draw_output ns win w H))).
Proof.
  intros Hp Hw Hb Hlen. unfold draw_output. rewrite (draw_fits_screen [] ns win w H b Hb Hlen). cbn [fst].
  assert (Hs : forall l, (Z.of_nat (length l) <= w)%Z -> Forall (fun l => (Z.of_nat (length l) <= w)%Z) (split_lines l)).
  { intros l Hl. pose proof (split_nl_short (Z.to_nat w) l [] ltac:(cbn [length]; lia)) as S.
    eapply Forall_impl; [|exact S]. unfold short. intros a Ha. lia. }
  assert (Hc : Forall (fun l => (Z.of_nat (length l) <= w)%Z) (split_lines (emit_lines b))).
  { pose proof Hp as Hall. clear Hb Hlen Hp.
    induction b as [|l b IH]; [constructor; [cbn; lia|constructor]|].
    inversion Hall as [|? ? H1 H2]; subst. cbn [emit_lines flat_map]. rewrite split_lines_print.
    apply Forall_app. split; [now apply Hs|now apply IH]. }
  destruct ns; [exact Hc|]. rewrite split_lines_print, split_lines_spacer. cbn [app].
  assert (Hr : (Z.of_nat (length (rule w)) <= w)%Z) by (rewrite rule_length; lia).
  constructor; [exact Hr|]. constructor; [exact Hr|exact Hc].
Qed.

Lemma width_prompt p chunks w s :
  (0 <= w)%Z -> prompt_output p chunks w = ROk s ->
  (exists b, s = join_nl b ++ [SP] /\ Forall (fun l : line => (Z.of_nat (length l) <= w)%Z) b) /\
  Forall (fun l => (Z.of_nat (length (rstrip_sp l)) <= w)%Z) (split_lines s) /\
  Forall (fun l => (Z.of_nat (length l) <= w + 1)%Z) (split_lines s).
Proof.
  unfold prompt_output. intros Hw0 H.
  assert (Hw : (1 <= w)%Z \/ s = [SP]).
  { unfold text_prompt, render_text in H. cbn [t_text] in H. destruct (prompt_str p); [right; now injection H as <-|].
    destruct (w <=? 0)%Z eqn:E; [discriminate|left; lia]. }
  split; [destruct (text_prompt_shape _ _ _ H) as (b & _ & E & Hb); now exists b|].
  destruct Hw as [Hw| ->].
  - destruct (text_prompt_width _ _ _ H) as [H1 H2]. split.
    + eapply Forall_impl; [|exact H1]. unfold fits. intros l Hl. lia.
    + eapply Forall_impl; [|exact H2]. unfold short. intros l Hl. lia.
  - split; (constructor; [cbn; lia|constructor]).
Qed.

(* 5. width of fitting trees (ContainersFinal.v) *)
Lemma width_draw_fitting ns win w H :
  fitting_tree win -> (0 <= w)%Z ->
  Forall (fun l => (Z.of_nat (length (rstrip_sp l)) <= w)%Z) (split_lines (fst (draw_terminal ns win w H))).
Proof.
  intros Hp Hw. eapply Forall_impl; [|apply (width_draw_gen ns win w H Hw)].
  - intros l Hl. unfold fits in Hl. lia.
  - intros b Hb. now apply (fitting_tree_within_width win w b).
Qed.

Lemma width_draw ns win w H :
  plain_tree win -> (0 <= w)%Z ->
  Forall (fun l => (Z.of_nat (length (rstrip_sp l)) <= w)%Z) (split_lines (fst (draw_terminal ns win w H))).
Proof. intros Hp. apply width_draw_fitting. exact (fit_fitting _ win Hp). Qed.


(* C09Passes.v — inductions on [Exec] derivations (any handler code, any call but run(), any state):
   [exit_cause_Exec] an ExitMainLoop that comes out of _mainloop, _process_signals_loop or _process_signal has been
                     recorded as a cause;
   [good_Exec]       from a state whose trace is accepted and linked to the loop's fields every event is
                     accepted, the link and the flag invariant are kept, run()'s bookkeeping is untouched.
   The last is stated on cores, as a relation that composes along a derivation.  (The counting argument is [C09Exec.count_Exec].) *)
From SL Require Import Tac.
From RecordUpdate Require Import RecordUpdate.
From SL Require Import LoopSem Monitors.
From SL Require Import proofs.ListFacts proofs.C09Exec proofs.C09Base.
Import ListNotations.

(* the calls that report an exit as a cause *)
Definition is3 {U} (c : call U) : bool :=
  match c with CMainloop | CProcLoop | CProcessSignal _ _ => true | _ => false end.

Lemma isnil_snoc {A} (l : list A) x : isnil (l ++ [x]) = false.
Proof. destruct l; reflexivity. Qed.

Definition klink (k : core) : Prop :=
  v_levels (V (c_trace k)) = c_levels k /\ v_fq (V (c_trace k)) = c_fq k /\ v_quit (V (c_trace k)) = c_quit k.
Definition kinv (k : core) : Prop := c_fq k = true -> c_run k = false.
(* [link] and [inv] say of a state what [klink] and [kinv] say of its core *)
Lemma link_core {U} (s : lstate U) : link s <-> klink (core_of s).
Proof. reflexivity. Qed.
Lemma inv_core {U} (s : lstate U) : inv s <-> kinv (core_of s).
Proof. reflexivity. Qed.
Definition okx (k : core) : Prop := klink k /\ kinv k /\ accT (c_trace k) = true.
Definition good (k : core) : Prop := okx k /\ v_exiting (V (c_trace k)) = false.

(* from a good [k] the events up to [k'] are accepted and leave run()'s bookkeeping alone; [k'] is good again
   unless an exit is in flight.  The outcome is a parameter because the view's exit-in-flight flag can be up only
   after a call that ends in ExitMainLoop: after any other the next call starts from a good core ([leads_seq]). *)
Definition leads (o : outcome) (k k' : core) : Prop :=
  good k ->
  okx k' /\ vfr (V (c_trace k)) (V (c_trace k')) /\ (o <> OThrow XExit -> v_exiting (V (c_trace k')) = false).

Lemma leads_refl o k : leads o k k.
Proof. intros (O & X). split; [exact O|]. split; [apply vfr_refl|intros _; exact X]. Qed.

Lemma leads_seq o1 {o k k1 k2} : o1 <> OThrow XExit -> leads o1 k k1 -> leads o k1 k2 -> leads o k k2.
Proof.
  intros N A B Gk. destruct (A Gk) as (O1 & F1 & X1). destruct (B (conj O1 (X1 N))) as (O2 & F2 & X2).
  split; [exact O2|]. split; [exact (vfr_trans _ _ _ F1 F2)|exact X2].
Qed.

Lemma leads_then {o k k1 k2} : leads ONormal k k1 -> leads o k1 k2 -> leads o k k2.
Proof. apply leads_seq. discriminate. Qed.

Lemma acc_push k e :
  good k -> run_event e = false -> (fq_sensitive e = true -> c_fq k = false) -> accT (e :: c_trace k) = true.
Proof.
  intros (((_ & L2 & _) & _ & A) & X) Rn F. rewrite accT_cons_view, A. apply chk_ok; [exact X|exact Rn|].
  rewrite L2. exact F.
Qed.

Lemma leads_push {o} e k : inert e = true -> fq_sensitive e && c_fq k = false -> leads o k (push e k).
Proof.
  intros I F Gk. pose proof Gk as ((L & N & A) & X).
  unfold okx, klink. cbn [push c_trace c_levels c_fq c_quit]. rewrite V_cons, (view_step_inert _ _ I).
  split; [|split; [apply vfr_refl|intros _; exact X]].
  split; [exact L|]. split; [exact N|].
  apply (acc_push k e Gk (inert_run_event _ I)). intros S. rewrite S in F. exact F.
Qed.

Lemma leads_dispatch {o} sid q d k : c_run k = true -> leads o k (push (EDispatch sid q d) k).
Proof.
  intros Rn Gk. apply leads_push; [reflexivity| |exact Gk]. destruct Gk as ((_ & N & _) & _).
  destruct (c_fq k) eqn:F; [|reflexivity]. rewrite (N F) in Rn. discriminate Rn.
Qed.

Lemma leads_rearm o k : leads o k (rearm k).
Proof.
  intros ((L & N & A) & X). split; [|split; [apply vfr_refl|intros _; exact X]].
  split; [exact L|]. split; [|exact A]. intros F. cbn [rearm c_fq c_run] in *. rewrite F. exact (N F).
Qed.

(* one event that is not inert: the fields move with the view *)
Lemma leads_event o e k k' :
  c_trace k' = e :: c_trace k -> run_event e = false -> run_only e = false ->
  (fq_sensitive e = true -> c_fq k = false) ->
  (klink k -> klink k') -> (kinv k -> kinv k') ->
  (o <> OThrow XExit -> klink k -> v_exiting (V (c_trace k)) = false -> v_exiting (V (c_trace k')) = false) ->
  leads o k k'.
Proof.
  intros T Rn Ro F L N X Gk. pose proof Gk as ((L0 & N0 & _) & X0).
  split; [|split].
  - split; [exact (L L0)|]. split; [exact (N N0)|]. rewrite T. exact (acc_push k e Gk Rn F).
  - rewrite T, V_cons. exact (vfr_step _ _ Ro).
  - intros NX. exact (X NX L0 X0).
Qed.

Lemma leads_new_level {o} q k : c_fq k = false -> leads o k (new_level q k).
Proof.
  intros F. apply (leads_event o (ENewLoopEnter q)); try reflexivity; auto.
  - intros (L1 & L2 & L3). unfold klink. cbn [new_level c_trace c_levels c_fq c_quit]. rewrite V_cons. cbn.
    rewrite L1. auto.
  - intros _ _ X. cbn [new_level c_trace]. rewrite V_cons. exact X.
Qed.

Lemma leads_quit_now {o} k : leads o k (quit_now k).
Proof.
  apply (leads_event o EForceQuit); try reflexivity; try discriminate.
  - intros (L1 & L2 & L3). unfold klink. cbn [quit_now c_trace c_levels c_fq c_quit]. rewrite V_cons. cbn. auto.
  - intros _ _. reflexivity.
  - intros _ _ X. cbn [quit_now c_trace]. rewrite V_cons. exact X.
Qed.

Lemma leads_set_quit {o} a k : leads o k (set_quit a k).
Proof.
  apply (leads_event o (ESetQuitCb a)); try reflexivity; try discriminate; auto.
  - intros (L1 & L2 & L3). unfold klink. cbn [set_quit c_trace c_levels c_fq c_quit]. rewrite V_cons. cbn. auto.
  - intros _ _ X. cbn [set_quit c_trace]. rewrite V_cons. exact X.
Qed.

(* close_loop: the outermost level goes only with an exit *)
Lemma leads_close {o} top rest r k :
  rev (c_levels k) = top :: rest -> r = c_run k \/ r = false -> (rest = [] -> o = OThrow XExit) ->
  leads o k (close_level top (rev rest) r k).
Proof.
  intros Rv Hr Hx. pose proof (removelast_rev _ _ _ Rv) as RL.
  apply (leads_event o (EClosePop top)); try reflexivity; try discriminate.
  - intros (L1 & L2 & L3). unfold klink. cbn [close_level c_trace c_levels c_fq c_quit]. rewrite V_cons. cbn.
    rewrite L1, RL. auto.
  - intros N F. cbn [close_level c_run]. destruct Hr as [-> | ->]; [exact (N F)|reflexivity].
  - intros NX (L1 & _ & _) X. cbn [close_level c_trace]. rewrite V_cons. cbn. rewrite X, L1, RL.
    destruct rest as [|a rest]; [destruct (NX (Hx eq_refl))|]. cbn [rev]. apply isnil_snoc.
Qed.

(* the end of a handler that lets an exception through; an exit is let through at any time *)
Lemma leads_throw_end e h i k k2 :
  e <> XError -> leads (OThrow e) k k2 -> leads (OThrow e) k (push (EHandlerEnd h i (Some e)) k2).
Proof.
  intros NE A. destruct e; [|destruct (NE eq_refl)|].
  2: { apply (leads_seq (OThrow XSysExit) (k1 := k2)); [discriminate|exact A|apply leads_push; reflexivity]. }
  intros Gk. destruct (A Gk) as (((L1 & L2 & L3) & N & Ac) & F & _).
  unfold okx, klink. cbn [push c_trace c_levels c_fq c_quit c_run]. rewrite V_cons.
  split; [|split].
  - split; [exact (conj L1 (conj L2 L3))|]. split; [exact N|]. rewrite accT_cons_view, Ac. apply chk_exit_end.
  - apply (vfr_trans _ _ _ F). apply vfr_step. reflexivity.
  - intros C. destruct (C eq_refl).
Qed.

Section P.
  Context {U : Type}.
  Variable code : nat -> signal -> nat -> prog U.
  Notation Exec := (Exec code).
  Notation K := core_of (only parsing).

  (* no premise of a constructor of [Exec] is a call of run() *)
  Ltac inner :=
    repeat match goal with IH : ?c <> CRun -> _ |- _ => specialize (IH ltac:(discriminate)) end.

  (* an exit leaves a dispatch only through the end of a handler, which records it *)
  Lemma exit_cause_Exec c s o s' :
    Exec c s o s' -> is3 c = true -> o = OThrow XExit -> v_cause (V (trace s')) = true.
  Proof.
    induction 1; cbn [is3]; intros I X; try discriminate; auto.
    - injection X as ->. rewrite trace_emit, V_cons. cbn. apply orb_true_r.
    - match goal with D : _ = OBlocked \/ _ = OFuel |- _ => destruct D; subst; discriminate end.
  Qed.

  Lemma leads_enq {o} (s : lstate U) sg : leads o (K s) (K (do_enqueue s sg)).
  Proof. rewrite core_do_enqueue. apply leads_push; [apply inert_enq_ev|apply enq_ev_fq]. Qed.

  Lemma leads_new_signal {o} {s : lstate U} {sp sg s1} : new_signal s sp = (sg, s1) -> leads o (K s) (K s1).
  Proof. intros H. apply new_signal_eq in H as [_ ->]. apply (leads_push (ESigNew _ _ _ _)); reflexivity. Qed.

  Lemma leads_do_get_ext {o} {s s1 : lstate U} : do_get s = inr s1 -> leads o (K s) (K s1).
  Proof.
    intros H. apply do_get_inr in H as (_ & sp & r & _ & ->). unfold ext_arrival. cbn [new_signal].
    refine (leads_then _ (leads_enq _ _)).
    rewrite !core_emit. eapply leads_then; [|apply leads_push; reflexivity].
    exact (leads_push (ESigNew _ _ _ _) (K s) eq_refl eq_refl).
  Qed.

  Lemma leads_disp {o sg} {s s1 : lstate U} : run_loop s = true -> K s1 = K s -> leads o (K s) (K (disp sg s s1)).
  Proof. intros Rn E. unfold disp. rewrite core_emit, E. apply leads_dispatch. exact Rn. Qed.

  Lemma leads_nl_enter {o} {s : lstate U} {sp sg s1} :
    new_signal s sp = (sg, s1) -> force_quit s1 = false -> leads o (K s) (K (nl_enter sg s1)).
  Proof.
    intros H F. rewrite nl_enter_eq. refine (leads_then (leads_new_signal H) _).
    refine (leads_then (leads_new_level (length (qstore s1)) (K s1) F) _). exact (leads_enq (nl_pre s1) sg).
  Qed.

  Lemma leads_ps_emit {o} e {sg idx} {s : lstate U} :
    inert e = true -> fq_sensitive e && force_quit (ps_mark sg idx s) = false ->
    leads o (K s) (K (emit e (ps_mark sg idx s))).
  Proof. intros I F. rewrite <- (core_ps_mark sg idx s) at 1. exact (leads_push e (K (ps_mark sg idx s)) I F). Qed.

  (* process_signals(): EProcEnter, the iteration, EProcReturn *)
  Lemma leads_around {o w t w' t'} {s s1 : lstate U} :
    leads ONormal (K (emit (EProcEnter w t) s)) (K s1) -> leads o (K s) (K (emit (EProcReturn w' t') s1)).
  Proof.
    intros A. refine (leads_then (leads_push (EProcEnter w t) (K s) eq_refl eq_refl) (leads_then A _)).
    exact (leads_push (EProcReturn w' t') (K s1) eq_refl eq_refl).
  Qed.

  Lemma good_Exec c s o s' : Exec c s o s' -> c <> CRun -> leads o (K s) (K s').
  Proof.
    induction 1; intros NR; inner.
    all: try (contradiction (NR eq_refl)).
    all: try exact (leads_refl _ _).
    all: try exact IHExec.
    all: try exact (leads_then IHExec1 IHExec2).
    - (* X_ml_done *) rewrite core_ml_exit. apply leads_rearm.
    - (* X_pl_ext *) exact (leads_then (leads_do_get_ext H0) IHExec).
    - (* X_pl_disp *)
      exact (leads_then (leads_disp H (core_do_get_some H0)) (leads_then IHExec1 IHExec2)).
    - (* X_pl_abort *) exact (leads_then (leads_disp H (core_do_get_some H0)) IHExec).
    - (* X_pw_ext *) exact (leads_then (leads_do_get_ext H0) IHExec).
    - (* X_pw_abort *) exact (leads_then (leads_disp H (core_do_get_some H0)) IHExec).
    - (* X_pw_released *) exact (leads_then (leads_disp H (core_do_get_some H0)) IHExec).
    - (* X_pw_again *)
      exact (leads_then (leads_disp H (core_do_get_some H0)) (leads_then IHExec1 IHExec2)).
    - (* X_pw_keyerror *)
      exact (leads_then (leads_disp H (core_do_get_some H0)) (leads_then IHExec (leads_refl _ _))).
    - (* X_pi_go *) apply andb_prop in H as [_ H].
      exact (leads_then (leads_disp H eq_refl) (leads_then IHExec1 IHExec2)).
    - (* X_pi_abort *) apply andb_prop in H as [_ H]. exact (leads_then (leads_disp H eq_refl) IHExec).
    - (* X_pi_requeue *) exact (leads_push (ERequeue _ _) (K s) eq_refl eq_refl).
    - (* X_ps_kill *) exact (leads_ps_emit EKill eq_refl eq_refl).
    - (* X_ps_nohandler *) exact (leads_ps_emit (EDispatchEnd _) eq_refl eq_refl).
    - (* X_ps_fq *) exact (leads_ps_emit (EDispatchEnd _) eq_refl eq_refl).
    - (* X_ps_end *) exact (leads_ps_emit (EDispatchEnd _) eq_refl eq_refl).
    - (* X_ps_ok *)
      refine (leads_then (leads_ps_emit (EHandler _ _ _) eq_refl H0) (leads_then IHExec1 _)).
      exact (leads_then (leads_push (EHandlerEnd _ _ None) (K s2) eq_refl eq_refl) IHExec2).
    - (* X_ps_error *)
      refine (leads_then (leads_ps_emit (EHandler _ _ _) eq_refl H0) _).
      refine (leads_seq (OThrow XError) _ IHExec1 _); [discriminate|].
      refine (leads_then (leads_push (EHandlerEnd _ _ (Some XError)) (K s2) eq_refl eq_refl) _).
      exact (leads_then (leads_new_signal H3) (leads_then (leads_enq s4 xs) IHExec2)).
    - (* X_ps_throw *) rewrite core_emit. apply leads_throw_end; [exact H3|].
      exact (leads_then (leads_ps_emit (EHandler _ _ _) eq_refl H0) IHExec).
    - (* X_ps_abort *) exact (leads_then (leads_ps_emit (EHandler _ _ _) eq_refl H0) IHExec).
    - (* X_enqueue *) exact (leads_then (leads_new_signal H) (leads_enq _ _)).
    - (* X_force_quit *) exact (leads_quit_now (K s)).
    - (* X_nl_fq *) exact (leads_new_signal H).
    - (* X_nl_ok *) refine (leads_then (leads_nl_enter H H0) (leads_then IHExec _)).
      exact (leads_push (ENewLoopReturn _) (K s4) eq_refl eq_refl).
    - (* X_nl_abort *) exact (leads_then (leads_nl_enter H H0) IHExec).
    - (* X_cl_abort *) exact (leads_then (leads_push (EProcEnter _ _) (K s) eq_refl eq_refl) IHExec).
    - (* X_cl_empty *) exact (leads_around IHExec).
    - (* X_cl_last *) refine (leads_then (leads_around IHExec) _).
      exact (leads_close top [] _ (push (EProcReturn None 0) (K s0)) H0 (or_introl eq_refl) (fun _ => eq_refl)).
    - (* X_cl_pop *) refine (leads_then (leads_around IHExec) _).
      refine (leads_close top (q :: rest) false (push (EProcReturn None 0) (K s0)) H0 (or_intror eq_refl) _).
      discriminate.
    - (* X_pn_ok *) exact (leads_around IHExec).
    - (* X_pn_abort *) exact (leads_then (leads_push (EProcEnter _ _) (K s) eq_refl eq_refl) IHExec).
    - (* X_pt_ok *) exact (leads_around IHExec).
    - (* X_pt_abort *) exact (leads_then (leads_push (EProcEnter _ _) (K s) eq_refl eq_refl) IHExec).
    - (* X_reg_source *) exact (leads_push (ERegSource _ _) (K s) eq_refl eq_refl).
    - (* X_reg_handler *) exact (leads_push (ERegHandler _ _ _) (K s) eq_refl eq_refl).
    - (* X_set_quit *) exact (leads_set_quit arg (K s)).
    - (* X_try_catch *) refine (leads_seq (OThrow XError) _ IHExec1 IHExec2). discriminate.
    - (* X_emit *) apply (leads_push (user_event e) (K s)); [apply inert_user|rewrite user_fq; reflexivity].
  Qed.
End P.

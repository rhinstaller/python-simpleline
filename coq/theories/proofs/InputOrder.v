(* InputOrder.v — "lines are delivered in the order typed", for sessions with a single event queue.
   In general the clause is FALSE (finding F18, corpus/screen/order_modal_overtakes.json: a ready signal routed to an
   outer event queue waits while a modal loop serves the next line first).  Here: as long as no nested event loop was
   ever opened (no ENewLoopEnter in the trace), the texts of the successful ready signals (= every delivery of a typed
   line: to a screen's input() and to blocking / handler-object requests), in trace order, are typed lines in typed
   order ([Subseq]: an order-preserving embedding; not a prefix: force_quit / a kill can lose a taken line).

   The invariant [Ord] is independent of InputLink.v's [Core] (no well-formedness of the session is needed); it
   re-uses InputLink.v's generic part (the semantic wp [wpS], its rules, and for the loop-level calls LoopHoare.v's
   [loop_rule] through [Spec_of_loop]; [spec_ord_all] lists its hypotheses: [G_ord_kill], [G_ord_step] with a case for each step of
   [LoopHoare.lstep], [G_ord_unwind], [G_ord_handler]):
     delivered so far ++ data of the pending successful ready signals (in queue order: LoopLink.v's [esort])
                      ++ data of the line in flight (pending InputReceivedSignal, in the queue or still in [ext])
     embeds, in order, into the first [cnt] typed lines, [cnt] = number of lines the reader threads have taken;
   plus what keeps it: the typed lines left = skipn cnt typed; at most one line in flight, none unless
   _processing_input; H_RECEIVED is registered for InputReceivedSignal only, the handlers of InputReadySignal are
   H_READY 0, 1, ...; only ready signals carry success = True.
   While a signal is being dispatched it is neither in the queue nor delivered: [Due] keeps its slot.
   Every step that takes no line can only make the embedded sequence shorter: [Ord_mono] is how [Ord] is re-established.
   What the loop keeps is [InvOrd]: a nested loop was opened, after which nothing is claimed, or [Ord].
   The screens' code is walked once, syntactically: [Safe p] (no primitive step of p touches what [Ord] looks at,
   except inside the two blocks start_input_thread and new_input_handler, constructors [S_sit] and [S_nih], which are
   proved by hand: [OT_start_input_thread], [OT_new_input_handler]); [Safe_OT]: a safe program keeps [InvOrd], by
   InputLink.v's rules [keeps_seq] ...  The two input handlers are not safe programs: they are what moves a line on
   ([H_received_ord]: the hand-off, [H_ready_ord]: the delivery), and [G_ord_handler] tells them from every other
   handler, which is ([Safe_screen_code]).  [session_keeps] is the step from there to whole sessions
   ([session_order], [lines_in_order]).
   After the section, three things that do not rest on [Ord]: [inputs_among_deliveries], a fact about the acceptor
   chk_C06 alone (the lines handed to input() are among the delivered ones, in the same order: [must_step], [must_run]);
   the session of finding F18 ([f18_spec] ... [f18_trace]); [Subseq_swap_refuted], by which props/C06.v shows that its
   deliveries are out of order. *)
From SL Require Import Tac.
From Coq Require Import Permutation.
From RecordUpdate Require Import RecordUpdate.
From SL Require proofs.C09Exec.
From SL Require Import PyInt LoopSem ScreenSem ScreenMon proofs.ListFacts proofs.ScreenFacts proofs.LoopLink proofs.InputLink proofs.C06Proofs.
Import ListNotations.

Inductive Subseq {A} : list A -> list A -> Prop :=
| sub_nil l : Subseq [] l
| sub_skip x a b : Subseq a b -> Subseq a (x :: b)
| sub_take x a b : Subseq a b -> Subseq (x :: a) (x :: b).

Lemma Subseq_refl {A} (l : list A) : Subseq l l.
Proof. induction l; [apply sub_nil|apply sub_take; assumption]. Qed.
Lemma Subseq_trans {A} (a b c : list A) : Subseq a b -> Subseq b c -> Subseq a c.
Proof.
  intros H1 H2. revert a H1. induction H2 as [l|x b c H IH|x b c H IH]; intros a H1.
  - inversion H1; subst. apply sub_nil.
  - apply sub_skip. apply IH, H1.
  - inversion H1; subst; [apply sub_nil|apply sub_skip; apply IH; assumption|apply sub_take; apply IH; assumption].
Qed.
Lemma Subseq_app {A} (a a' b b' : list A) : Subseq a a' -> Subseq b b' -> Subseq (a ++ b) (a' ++ b').
Proof.
  intros H1 H2. induction H1 as [l|x a a' H IH|x a a' H IH]; cbn.
  - induction l; cbn; [exact H2|apply sub_skip; assumption].
  - apply sub_skip; exact IH.
  - apply sub_take; exact IH.
Qed.
Lemma Subseq_app_r {A} (a b c : list A) : Subseq a b -> Subseq a (b ++ c).
Proof. intros H. rewrite <- (app_nil_r a). apply Subseq_app; [exact H|apply sub_nil]. Qed.
Lemma Subseq_app_l {A} (a b : list A) : Subseq a (a ++ b).
Proof. apply Subseq_app_r, Subseq_refl. Qed.
Lemma Subseq_app_l2 {A} (a b : list A) : Subseq b (a ++ b).
Proof. change b with ([] ++ b) at 1. apply Subseq_app; [apply sub_nil|apply Subseq_refl]. Qed.
Lemma Subseq_nil_inv {A} (a : list A) : Subseq a [] -> a = [].
Proof. intros H. inversion H. reflexivity. Qed.
Lemma Subseq_length {A} (a b : list A) : Subseq a b -> length a <= length b.
Proof. induction 1; cbn; lia. Qed.
Lemma Subseq_firstn {A} n (l : list A) : Subseq (firstn n l) l.
Proof. revert n. induction l as [|x l IH]; intros [|n]; cbn; try apply sub_nil. apply sub_take, IH. Qed.
Lemma Subseq_filter {A} (f : A -> bool) l : Subseq (filter f l) l.
Proof. induction l as [|x l IH]; cbn; [apply sub_nil|]. destruct (f x); [apply sub_take|apply sub_skip]; exact IH. Qed.
Lemma Subseq_map {A B} (f : A -> B) a b : Subseq a b -> Subseq (map f a) (map f b).
Proof. induction 1; cbn; [apply sub_nil|apply sub_skip; assumption|apply sub_take; assumption]. Qed.

Definition isrs (e : LoopSem.entry) : bool := sg_b (esig e).                               (* a successful ready signal *)
Definition isrc (e : LoopSem.entry) : bool := (sg_cls (esig e) =? CLS_RECEIVED)%nat.       (* a line in flight *)
Definition edata (e : LoopSem.entry) : str := sg_data (esig e).
Definition entok (e : LoopSem.entry) : Prop :=
  (isrs e = true -> sg_cls (esig e) = CLS_READY /\ eprio e = 0%Z) /\ (isrc e = true -> eprio e = 0%Z).

(* what a signal adds to the two sequences when it is queued *)
Definition sg_rs (sg : signal) : list str := if sg_b sg then [sg_data sg] else [].
Definition sg_rc (sg : signal) : list str := if (sg_cls sg =? CLS_RECEIVED)%nat then [sg_data sg] else [].

Lemma einsert_split x l : exists l1 l2, l = l1 ++ l2 /\ einsert x l = l1 ++ x :: l2.
Proof.
  induction l as [|y r IH]; cbn; [exists [], []; auto|].
  destruct (entry_lt x y); [exists [], (y :: r); auto|].
  destruct IH as (l1 & l2 & -> & E). exists (y :: l1), l2. rewrite E. auto.
Qed.
Lemma filter_einsert_other (F : LoopSem.entry -> bool) x l : F x = false -> filter F (einsert x l) = filter F l.
Proof.
  intros Fx. destruct (einsert_split x l) as (l1 & l2 & -> & ->). rewrite !filter_app. cbn. rewrite Fx. reflexivity.
Qed.
(* FIFO within a class of one priority: the new entry (the greatest arrival counter) comes after all of its class *)
Lemma filter_einsert_same (F : LoopSem.entry -> bool) x l :
  F x = true -> esorted l -> Forall (fun y => ecnt y < ecnt x) l -> Forall (fun y => F y = true -> eprio y = eprio x) l ->
  filter F (einsert x l) = filter F l ++ [x].
Proof.
  intros Fx. induction l as [|y r IH]; intros S C P; cbn [einsert]; [cbn; rewrite Fx; reflexivity|].
  destruct S as [Sy Sr]. inversion C as [|? ? Cy Cr]; subst. inversion P as [|? ? Py Pr]; subst.
  destruct (entry_lt x y) eqn:E.
  - (* x goes before y: nothing of the class from y on *)
    apply entry_lt_spec in E. assert (Lt : (eprio x < eprio y)%Z) by lia.
    assert (Z : filter F (y :: r) = []).
    { apply filter_none. rewrite Forall_forall in *. intros z Iz. destruct (F z) eqn:Fz; [exfalso|reflexivity].
      destruct Iz as [<-|Iz]; [specialize (Py Fz); lia|].
      specialize (Pr z Iz Fz). specialize (Sy z Iz). apply entry_lt_spec in Sy. lia. }
    cbn [filter]. rewrite Fx. cbn [filter] in Z. rewrite Z. reflexivity.
  - cbn [filter]. rewrite (IH Sr Cr Pr). destruct (F y); reflexivity.
Qed.

Definition qents (q : equeue) : list LoopSem.entry := esort (eq_entries q).

Lemma qents_put q sg : qwf q -> qents (q_put q sg) = einsert (sg_prio sg, eq_counter q, sg) (qents q).
Proof. intros Wq. apply esort_snoc, (qwf_nodup _ (q_put_qwf q sg Wq)). Qed.
Lemma put_class (F : LoopSem.entry -> bool) q sg : qwf q ->
  Forall (fun y => F y = true -> eprio y = 0%Z) ((sg_prio sg, eq_counter q, sg) :: eq_entries q) ->
  map edata (filter F (qents (q_put q sg))) =
  map edata (filter F (qents q)) ++ (if F (sg_prio sg, eq_counter q, sg) then [sg_data sg] else []).
Proof.
  intros Wq P. rewrite (qents_put q sg Wq). set (x := (sg_prio sg, eq_counter q, sg)) in *.
  inversion P as [|? ? Px Pq]; subst. destruct (F x) eqn:Fx.
  - rewrite filter_einsert_same, map_app; [reflexivity|exact Fx|apply esort_sorted, Wq| |]; (eapply Permutation_Forall; [apply esort_perm|]).
    + apply (qwf_bound _ Wq).
    + eapply Forall_impl; [|exact Pq]. intros y H Fy. rewrite (H Fy). symmetry. apply (Px eq_refl).
  - rewrite filter_einsert_other, app_nil_r; [reflexivity|exact Fx].
Qed.
Lemma qents_pop q m q' : qwf q -> q_pop q = Some (m, q') -> qents q = m :: qents q'.
Proof. intros Wq H. apply (q_pop_sorted _ _ _ Wq H). Qed.
Lemma qents_requeue q m q' : qwf q -> q_pop q = Some (m, q') -> qents (q_put_entry q' m) = qents q.
Proof.
  intros Wq H. destruct (q_pop_sorted _ _ _ Wq H) as (_ & P & _). unfold qents, q_put_entry. cbn [eq_entries set].
  symmetry. apply esort_unique; [apply Wq|]. etransitivity; [exact P|apply Permutation_cons_append].
Qed.
Lemma entries_add_source q o : eq_entries (q_add_source q o) = eq_entries q.
Proof. unfold q_add_source. destruct (existsb _ _); reflexivity. Qed.
Lemma qents_add_source q o : qents (q_add_source q o) = qents q.
Proof. unfold qents. rewrite entries_add_source. reflexivity. Qed.

(* what the trace tells (newest event first) *)
Definition is_deliv (e : event) : option str :=
  match e with
  | EUser tag a x => if (tag =? T_READY)%nat && (nth0 a 1 =? 1)%nat then Some x else None
  | _ => None
  end.
Definition dl1 (e : event) : list str := match is_deliv e with Some x => [x] | None => [] end.
Fixpoint dlv (t : list event) : list str := match t with [] => [] | e :: r => dlv r ++ dl1 e end.
Definition isnewrecv (e : event) : bool := match e with ESigNew _ cls _ _ => (cls =? CLS_RECEIVED)%nat | _ => false end.
Fixpoint nrecv (t : list event) : nat := match t with [] => 0 | e :: r => (if isnewrecv e then 1 else 0) + nrecv r end.
Definition isnest (e : event) : bool := match e with ENewLoopEnter _ => true | _ => false end.
Definition nested (t : list event) : bool := existsb isnest t.
Definition quiet (e : event) : bool := match is_deliv e with Some _ => false | None => negb (isnewrecv e) end.

Definition tsame (t t' : list event) : Prop :=
  dlv t' = dlv t /\ nrecv t' = nrecv t /\ (nested t = true -> nested t' = true).
Lemma tsame_refl t : tsame t t.
Proof. repeat split; auto. Qed.
Lemma tsame_trans a b c : tsame a b -> tsame b c -> tsame a c.
Proof. intros (A1 & A2 & A3) (B1 & B2 & B3). repeat split; try congruence. auto. Qed.
Lemma nested_cons e t : nested t = true -> nested (e :: t) = true.
Proof. intros H. unfold nested in *. cbn [existsb]. rewrite H. apply orb_true_r. Qed.
Lemma tsame_cons e t : quiet e = true -> tsame t (e :: t).
Proof.
  unfold quiet, tsame. intros Q. split; [|split].
  - cbn [dlv]. unfold dl1. destruct (is_deliv e); [discriminate|]. apply app_nil_r.
  - cbn [nrecv]. destruct (is_deliv e); [discriminate|]. apply negb_true_iff in Q. rewrite Q. reflexivity.
  - apply nested_cons.
Qed.

Definition ukeep (u u' : sstate) : Prop :=
  st_typed u' = st_typed u /\ st_processing u' = st_processing u /\ length (st_ih u') = length (st_ih u).
Lemma ukeep_refl u : ukeep u u.
Proof. repeat split. Qed.

Definition extok (sp : sigspec) : Prop := sp_cls sp = CLS_RECEIVED /\ sp_prio sp = 0%Z /\ sp_b sp = false.
(* what handler code may enqueue / pass to execute_new_loop without further ado *)
Definition okspec2 (sp : sigspec) : Prop := sp_b sp = false /\ sp_cls sp <> CLS_RECEIVED.

(* the head constant of an application *)
Ltac hd t := lazymatch t with ?f _ => hd f | _ => t end.

Section Ord.
  Variable specs : nat -> screen_spec.
  Variable typed : list (option str).
  Notation lst := (lstate sstate).
  Implicit Types s : lst.
  Implicit Types Q : outcome -> lst -> Prop.
  Definition lines : list str := map line_of typed.

  Definition q0 s : equeue := get_q s 0.
  Definition Qs s : list str := map edata (filter isrs (qents (q0 s))).
  Definition Flq s : list str := map edata (filter isrc (qents (q0 s))).
  Definition Fl s : list str := Flq s ++ map sp_data (ext s).
  Definition cnt s : nat := nrecv (trace s) + length (ext s).

  Record Tab s : Prop := {
    t_recv : forall c i d, nth_error (hlist (handlers s) c) i = Some (H_RECEIVED, d) -> c = CLS_RECEIVED /\ i = 0;
    t_ready : forall i hid d, nth_error (hlist (handlers s) CLS_READY) i = Some (hid, d) -> hid = H_READY i;
    t_len : length (hlist (handlers s) CLS_READY) = length (st_ih (ust s)) }.

  Record Ord s : Prop := {
    o_q : length (qstore s) = 1;
    o_wf : qwf (q0 s);
    o_ent : Forall entok (eq_entries (q0 s));
    o_ext : Forall extok (ext s);
    o_typed : st_typed (ust s) = skipn (cnt s) typed;
    o_fl1 : length (Fl s) <= 1;
    o_proc : st_processing (ust s) = false -> Fl s = [];
    o_tab : Tab s;
    o_sub : Subseq (dlv (trace s) ++ Qs s ++ Fl s) (firstn (cnt s) lines) }.

  Definition InvOrd s : Prop := nested (trace s) = true \/ Ord s.
  Definition AOrd s : Prop := nested (trace s) = true \/ Subseq (dlv (trace s)) lines.
  Definition NoRel (s s' : lst) : Prop := True.
  (* the signal being dispatched, from handler idx on: until its own handler has run, the bounds of [Ord]
     hold with the signal put back at the head of the queue *)
  Definition Due (sg : signal) (idx : nat) s : Prop :=
    (sg_b sg = true -> sg_cls sg = CLS_READY) /\
    ((if sg_b sg then idx <= sg_a sg else idx = 0) ->
       length (sg_rc sg ++ Fl s) <= 1 /\
       Subseq (dlv (trace s) ++ (sg_rs sg ++ Qs s) ++ sg_rc sg ++ Fl s) (firstn (cnt s) lines)).
  Definition SigOrd (sg : signal) (idx : nat) s : Prop := nested (trace s) = true \/ Due sg idx s.

  Lemma InvOrd_A s : InvOrd s -> AOrd s.
  Proof.
    intros [H|H]; [left; exact H|right]. eapply Subseq_trans; [apply Subseq_app_l|].
    eapply Subseq_trans; [apply (o_sub _ H)|apply Subseq_firstn].
  Qed.

  (* steps that change nothing Ord looks at *)
  Definition skeep s s' : Prop :=
    qstore s' = qstore s /\ ext s' = ext s /\ handlers s' = handlers s /\ ukeep (ust s) (ust s') /\ tsame (trace s) (trace s').
  Lemma skeep_refl s : skeep s s.
  Proof. split; [reflexivity|]. split; [reflexivity|]. split; [reflexivity|]. split; [apply ukeep_refl|apply tsame_refl]. Qed.
  Lemma skeep_trans a b c : skeep a b -> skeep b c -> skeep a c.
  Proof.
    intros (A1 & A2' & A3 & (A4 & A5 & A6) & A7) (B1 & B2 & B3 & (B4 & B5 & B6) & B7).
    split; [congruence|]. split; [congruence|]. split; [congruence|]. split; [|eapply tsame_trans; eauto].
    split; [congruence|]. split; congruence.
  Qed.

  Lemma q0_same s s' : qstore s' = qstore s -> q0 s' = q0 s.
  Proof. unfold q0, get_q. intros ->. reflexivity. Qed.
  Lemma cnt_same s s' : nrecv (trace s') = nrecv (trace s) -> ext s' = ext s -> cnt s' = cnt s.
  Proof. unfold cnt. intros -> ->. reflexivity. Qed.

  Lemma skeep_views s s' : skeep s s' ->
    q0 s' = q0 s /\ Qs s' = Qs s /\ Fl s' = Fl s /\ cnt s' = cnt s /\ dlv (trace s') = dlv (trace s).
  Proof.
    intros (K1 & K2 & _ & _ & K5 & K6 & _). pose proof (q0_same _ _ K1) as Q. unfold Qs, Fl, Flq. rewrite Q, K2.
    repeat split; [exact (cnt_same _ _ K6 K2)|exact K5].
  Qed.

  Lemma Tab_keep s s' : handlers s' = handlers s -> length (st_ih (ust s')) = length (st_ih (ust s)) -> Tab s -> Tab s'.
  Proof. intros H L [T1 T2 T3]. constructor; rewrite ?H, ?L; [exact T1|exact T2|exact T3]. Qed.

  Record Qok s : Prop := {
    k_q : length (qstore s) = 1;
    k_wf : qwf (q0 s);
    k_ent : Forall entok (eq_entries (q0 s)) }.
  Lemma Ord_Qok s : Ord s -> Qok s.
  Proof. intros O. constructor; apply O. Qed.
  Lemma Qok_same s s' : qstore s' = qstore s -> Qok s -> Qok s'.
  Proof. intros E [K1 K2 K3]. constructor; rewrite ?(q0_same _ _ E), ?E; assumption. Qed.

  (* as long as no line is taken, the sequence that [Ord] embeds into the lines taken can only lose elements *)
  Lemma Ord_mono s s' : Ord s -> Qok s' -> Forall extok (ext s') -> Tab s' ->
    st_typed (ust s') = st_typed (ust s) -> cnt s' = cnt s ->
    (st_processing (ust s') = false -> st_processing (ust s) = false) ->
    Subseq (Fl s') (Fl s) -> Subseq (dlv (trace s') ++ Qs s' ++ Fl s') (firstn (cnt s) lines) -> Ord s'.
  Proof.
    intros O [K1 K2 K3] X T Ty C P F S. constructor; try assumption.
    - rewrite Ty, C. apply (o_typed _ O).
    - apply Subseq_length in F. pose proof (o_fl1 _ O). lia.
    - intros H. apply Subseq_nil_inv. rewrite <- (o_proc _ O (P H)). exact F.
    - rewrite C. exact S.
  Qed.

  Lemma Ord_mono_u s s' : Ord s -> Qok s' -> Forall extok (ext s') -> handlers s' = handlers s -> ust s' = ust s ->
    cnt s' = cnt s -> Subseq (Fl s') (Fl s) -> Subseq (dlv (trace s') ++ Qs s' ++ Fl s') (firstn (cnt s) lines) -> Ord s'.
  Proof.
    intros O K X H U C F S. apply (Ord_mono s s' O K X); rewrite ?U; auto.
    eapply Tab_keep; [exact H|rewrite U; reflexivity|apply O].
  Qed.

  (* queue 0 holds the same entries (in the order they are taken out); a nested loop may have been opened *)
  Lemma Ord_same_q s s' : Qok s' -> qents (q0 s') = qents (q0 s) -> ext s' = ext s -> st_typed (ust s') = st_typed (ust s) ->
    (st_processing (ust s') = false -> st_processing (ust s) = false) -> tsame (trace s) (trace s') -> Tab s' -> Ord s -> Ord s'.
  Proof.
    intros K V0 K2 K4 K5 (T1 & T2 & T3) TB O.
    assert (V1 : Qs s' = Qs s) by (unfold Qs; rewrite V0; reflexivity).
    assert (V2 : Fl s' = Fl s) by (unfold Fl, Flq; rewrite V0, K2; reflexivity).
    apply (Ord_mono s); auto.
    - rewrite K2. apply O.
    - exact (cnt_same _ _ T2 K2).
    - rewrite V2. apply Subseq_refl.
    - rewrite T1, V1, V2. apply O.
  Qed.
  Lemma Ord_change s s' : qstore s' = qstore s -> ext s' = ext s -> st_typed (ust s') = st_typed (ust s) ->
    (st_processing (ust s') = false -> st_processing (ust s) = false) -> tsame (trace s) (trace s') -> Tab s' -> Ord s -> Ord s'.
  Proof.
    intros K1 K2 K4 K5 T TB O. apply (Ord_same_q s); auto.
    - apply (Qok_same s _ K1), Ord_Qok, O.
    - rewrite (q0_same _ _ K1). reflexivity.
  Qed.
  Lemma Ord_keep s s' : skeep s s' -> Ord s -> Ord s'.
  Proof.
    intros (K1 & K2 & K3 & (K4 & K5 & K6) & K7) O. apply (Ord_change s); auto; [congruence|]. eapply Tab_keep; eauto. apply (o_tab _ O).
  Qed.
  Lemma InvOrd_keep s s' : skeep s s' -> InvOrd s -> InvOrd s'.
  Proof.
    intros K [H|H]; [left; apply K, H|right; eapply Ord_keep; eauto].
  Qed.
  Lemma AOrd_tsame s s' : tsame (trace s) (trace s') -> AOrd s -> AOrd s'.
  Proof. intros (T1 & _ & T3) [H|H]; [left; auto|right; rewrite T1; exact H]. Qed.
  Lemma Due_keep sg i s s' : skeep s s' -> Due sg i s -> Due sg i s'.
  Proof. intros K H. destruct (skeep_views _ _ K) as (V0 & V1 & V2 & V3 & V4). unfold Due. rewrite V1, V2, V3, V4. exact H. Qed.
  Lemma Due_mono sg i s s' : cnt s' = cnt s -> dlv (trace s') = dlv (trace s) -> Subseq (Qs s') (Qs s) -> Subseq (Fl s') (Fl s) ->
    Due sg i s -> Due sg i s'.
  Proof.
    intros C D Q F [H1 H2]. split; [exact H1|]. intros L. destruct (H2 L) as [L1 S1]. rewrite C, D.
    assert (X : Subseq (sg_rc sg ++ Fl s') (sg_rc sg ++ Fl s)) by (apply Subseq_app; [apply Subseq_refl|exact F]).
    split; [apply Subseq_length in X; lia|]. eapply Subseq_trans; [|exact S1].
    apply Subseq_app; [apply Subseq_refl|]. apply Subseq_app; [|exact X]. apply Subseq_app; [apply Subseq_refl|exact Q].
  Qed.
  Lemma SigOrd_keep sg i s s' : skeep s s' -> SigOrd sg i s -> SigOrd sg i s'.
  Proof. intros K [H|H]; [left; apply K, H|right; eapply Due_keep; eauto]. Qed.
  Lemma Due_S sg idx s : Due sg idx s -> Due sg (S idx) s.
  Proof. intros [H1 H2]. split; [exact H1|]. intros L. apply H2. destruct (sg_b sg); [lia|discriminate L]. Qed.
  (* the signal's own handler (if it has one) is behind: nothing is due *)
  Lemma Due_done sg idx s : (sg_b sg = true -> sg_cls sg = CLS_READY /\ sg_a sg <= idx) -> Due sg (S idx) s.
  Proof.
    intros H. split; [intros B; apply (H B)|]. destruct (sg_b sg); [|discriminate].
    intros L'. destruct (H eq_refl) as [_ L]. lia.
  Qed.

  Lemma skeep_emit e s : quiet e = true -> skeep s (emit e s).
  Proof.
    intros Q. split; [reflexivity|]. split; [reflexivity|]. split; [reflexivity|]. split; [apply ukeep_refl|apply tsame_cons, Q].
  Qed.
  Lemma InvOrd_emit e s : quiet e = true -> InvOrd s -> InvOrd (emit e s).
  Proof. intros Qe. apply InvOrd_keep, skeep_emit, Qe. Qed.

  Notation WOrd := (wpS (screen_code specs) AOrd AOrd).
  Notation SPOrd := (Spec (screen_code specs) AOrd AOrd InvOrd NoRel SigOrd okspec2).

  Notation OT := (keeps (screen_code specs) AOrd AOrd InvOrd NoRel SigOrd okspec2).

  Lemma OT_ret : OT PRet.
  Proof. apply keeps_ret; exact InvOrd_A. Qed.
  Lemma OT_throw e : OT (PThrow e).
  Proof. apply keeps_throw; exact InvOrd_A. Qed.
  Lemma OT_seq p q : OT p -> OT q -> OT (p ;; q).
  Proof. apply keeps_seq. Qed.
  Lemma skeep_ust s u' : ukeep (ust s) u' -> skeep s (s <| ust := u' |>).
  Proof.
    intros K. split; [reflexivity|]. split; [reflexivity|]. split; [reflexivity|]. split; [exact K|apply tsame_refl].
  Qed.
  Lemma OT_st g : (forall u, ukeep u (fst (g u)) /\ OT (snd (g u))) -> OT (PSt g).
  Proof.
    intros H. apply keeps_st; [exact InvOrd_A|]. intros s HI. destruct (H (ust s)) as [K Hp].
    split; [eapply InvOrd_keep; [apply skeep_ust, K|exact HI]|exact Hp].
  Qed.
  Lemma OT_rd (f : sstate -> sprog) : (forall u, OT (f u)) -> OT (rd f).
  Proof. intros H. apply OT_st. intros u. split; [apply ukeep_refl|apply H]. Qed.
  Lemma OT_wr (g : sstate -> sstate) : (forall u, ukeep u (g u)) -> OT (wr g).
  Proof. intros H. apply OT_st. intros u. split; [apply H|apply OT_ret]. Qed.
  Lemma OT_emit e : quiet (user_event e) = true -> OT (PEmit e).
  Proof. intros Qe. apply keeps_emit; [exact InvOrd_A|]. intros s. apply InvOrd_emit, Qe. Qed.
  (* once a nested loop was opened nothing is claimed *)
  Lemma nested_grow s s' : C09Exec.trace_grows s s' -> nested (trace s) = true -> nested (trace s') = true.
  Proof. intros [tr E] H. unfold nested in *. rewrite E, existsb_app, H. apply orb_true_r. Qed.
  Lemma WOrd_nested n p Q s : nested (trace s) = true -> (forall o s', nested (trace s') = true -> Q o s') -> WOrd n p Q s.
  Proof.
    intros H HQ. apply wpS_hoare, (hoare_Exec _ n _ s _ (fun _ s' => nested (trace s') = true)).
    - intros o s' X. exact (nested_grow _ _ (C09Exec.Exec_trace_grows _ _ _ _ _ X) H).
    - intros f o s' _ _ H'. destruct o as [|[| |]| |]; cbn; try (left; exact H'); apply HQ, H'.
  Qed.

  Lemma OT_of_Ord p : (forall n Q s, SPOrd n -> Ord s -> (forall o s', InvOrd s' -> Q o s') -> WOrd n p Q s) -> OT p.
  Proof.
    intros H n Q s HS [N|O] HQ; [|apply H; assumption].
    apply WOrd_nested; [exact N|]. intros o s' N'. apply HQ. left. exact N'.
  Qed.

  Lemma q1_get s : length (qstore s) = 1 -> qstore s = [q0 s].
  Proof. unfold q0, get_q. destruct (qstore s) as [|q [|? ?]]; cbn; intros H; try discriminate H. reflexivity. Qed.
  Lemma q1_set s k v : length (qstore s) = 1 -> qstore (set_q s k v) = if (k =? 0)%nat then [v] else qstore s.
  Proof.
    intros L. unfold set_q. cbn [qstore set]. rewrite (q1_get s L). destruct k as [|k]; cbn; [reflexivity|].
    destruct k; reflexivity.
  Qed.
  Lemma q0_of s q : qstore s = [q] -> q0 s = q.
  Proof. unfold q0, get_q. intros ->. reflexivity. Qed.

  Lemma Qok_set s k v s' : Qok s -> qstore s' = qstore (set_q s k v) ->
    (k = 0 -> qwf v /\ Forall entok (eq_entries v)) -> Qok s' /\ q0 s' = if (k =? 0)%nat then v else q0 s.
  Proof.
    intros K E H. rewrite (q1_set s k v (k_q _ K)) in E. destruct k as [|k]; cbn [Nat.eqb] in *.
    - destruct (H eq_refl) as [W F]. rewrite (q0_of _ _ E). split; [constructor; rewrite ?(q0_of _ _ E), ?E; auto|reflexivity].
    - split; [apply (Qok_same s _ E K)|apply q0_same, E].
  Qed.

  Lemma put_lists q sg : qwf q -> Forall entok (eq_entries q) -> entok (sg_prio sg, eq_counter q, sg) ->
    qwf (q_put q sg) /\ Forall entok (eq_entries (q_put q sg)) /\
    map edata (filter isrs (qents (q_put q sg))) = map edata (filter isrs (qents q)) ++ sg_rs sg /\
    map edata (filter isrc (qents (q_put q sg))) = map edata (filter isrc (qents q)) ++ sg_rc sg.
  Proof.
    intros Wq Fe Ne. pose proof (Forall_cons _ Ne Fe) as Fx. split; [apply q_put_qwf, Wq|]. split.
    { unfold q_put. cbn [eq_entries set]. apply Forall_app. split; [exact Fe|constructor; [exact Ne|constructor]]. }
    split; apply put_class; try exact Wq; (eapply Forall_impl; [|exact Fx]); intros y [E1 E2] Fy; [apply E1, Fy|apply E2, Fy].
  Qed.

  (* enqueue_signal(signal) of any signal whose entry is fine: it is put into queue 0, dropped, or routed to a
     queue that does not exist *)
  Lemma enq_sig s sg : Qok s ->
    (sg_b sg = true -> sg_cls sg = CLS_READY /\ sg_prio sg = 0%Z) -> (sg_cls sg = CLS_RECEIVED -> sg_prio sg = 0%Z) ->
    let s2 := do_enqueue s sg in
    ext s2 = ext s /\ handlers s2 = handlers s /\ ust s2 = ust s /\ tsame (trace s) (trace s2) /\ Qok s2 /\
    Subseq (Qs s2) (Qs s ++ sg_rs sg) /\ Subseq (Flq s2) (Flq s ++ sg_rc sg).
  Proof.
    intros K H1 H2. unfold do_enqueue. destruct (force_quit s).
    { repeat (split; [reflexivity|]). split; [apply tsame_cons; reflexivity|].
      split; [apply (Qok_same s); [reflexivity|exact K]|]. split; [apply (Subseq_app_l (Qs s))|apply (Subseq_app_l (Flq s))]. }
    remember (match route s (rev (levels s)) (sg_src sg) with Some q => q | None => active s end) as t eqn:Ht. clear Ht.
    repeat (split; [reflexivity|]). split; [apply tsame_cons; reflexivity|].
    set (s2 := emit _ _). destruct t as [|t].
    - destruct (put_lists (q0 s) sg (k_wf _ K) (k_ent _ K)) as (P1 & P2 & P3 & P4).
      { split; [exact H1|]. intros B. apply H2, Nat.eqb_eq, B. }
      destruct (Qok_set s 0 (q_put (q0 s) sg) s2 K eq_refl (fun _ => conj P1 P2)) as [K2 Q2].
      split; [exact K2|]. cbn [Nat.eqb] in Q2. unfold Qs, Flq. rewrite Q2, P3, P4. split; apply Subseq_refl.
    - destruct (Qok_set s (S t) (q_put (get_q s (S t)) sg) s2 K eq_refl) as [K2 Q2]; [discriminate|].
      split; [exact K2|]. cbn [Nat.eqb] in Q2. unfold Qs, Flq. rewrite Q2. split; apply Subseq_app_l.
  Qed.

  (* enqueue_signal(Signal(...)) of a signal other than InputReceivedSignal; a successful ready signal carries
     the line that was in flight, and is queued last *)
  Lemma enq_ord s sp : Ord s -> sp_cls sp <> CLS_RECEIVED ->
    (sp_b sp = true -> (sp_cls sp = CLS_READY /\ sp_prio sp = 0%Z) /\
                       Fl s = [] /\ Subseq (dlv (trace s) ++ Qs s ++ [sp_data sp]) (firstn (cnt s) lines)) ->
    let s2 := do_enqueue (snd (new_signal s sp)) (fst (new_signal s sp)) in
    Ord s2 /\ cnt s2 = cnt s /\ dlv (trace s2) = dlv (trace s) /\
    Subseq (Qs s2) (Qs s ++ if sp_b sp then [sp_data sp] else []) /\ Subseq (Fl s2) (Fl s).
  Proof.
    intros O C HB. unfold new_signal. cbn [fst snd]. set (sg := mk_signal (next_sig s) sp). set (s1 := emit _ _).
    assert (R : (sp_cls sp =? CLS_RECEIVED)%nat = false) by apply Nat.eqb_neq, C.
    assert (T1 : tsame (trace s) (trace s1)).
    { apply tsame_cons. unfold quiet. cbn. rewrite R. reflexivity. }
    destruct (enq_sig s1 sg (Qok_same s s1 eq_refl (Ord_Qok _ O))) as (E4 & E5 & E6 & T2 & K & SQ & SF).
    { intros B. apply (HB B). } { intros X. contradiction. }
    set (s2 := do_enqueue s1 sg) in *. destruct (tsame_trans _ _ _ T1 T2) as (D & N & _).
    unfold sg_rs, sg_rc in SQ, SF. cbn [sg_b sg_cls sg_data sg mk_signal] in SQ, SF. rewrite R, app_nil_r in SF.
    assert (V2 : Subseq (Fl s2) (Fl s)) by (unfold Fl; rewrite E4; apply Subseq_app; [exact SF|apply Subseq_refl]).
    assert (V3 : cnt s2 = cnt s) by exact (cnt_same _ _ N E4).
    split; [|auto]. apply (Ord_mono_u s s2 O K); auto.
    - rewrite E4. apply O.
    - rewrite D. eapply Subseq_trans; [apply Subseq_app; [apply Subseq_refl|apply Subseq_app; [exact SQ|exact V2]]|].
      destruct (sp_b sp).
      + destruct (HB eq_refl) as (_ & F & S0). rewrite F, app_nil_r. exact S0.
      + rewrite app_nil_r. apply O.
  Qed.

  (* a signal handler code may create freely: nothing is added *)
  Lemma enq_ok s sp : okspec2 sp -> Ord s ->
    let s2 := do_enqueue (snd (new_signal s sp)) (fst (new_signal s sp)) in
    Ord s2 /\ cnt s2 = cnt s /\ dlv (trace s2) = dlv (trace s) /\ Subseq (Qs s2) (Qs s) /\ Subseq (Fl s2) (Fl s).
  Proof.
    intros [B C] O. cbv zeta. destruct (enq_ord s sp O C) as (O2 & V3 & V4 & V1 & V2); [congruence|].
    rewrite B, app_nil_r in V1. auto.
  Qed.

  Lemma nested_enq s sp : nested (trace s) = true ->
    nested (trace (do_enqueue (snd (new_signal s sp)) (fst (new_signal s sp)))) = true.
  Proof.
    intros H. eapply nested_grow; [|exact H]. apply C09Exec.tg_do_enqueue.
    unfold new_signal. cbn [snd]. apply C09Exec.tg_emit. eapply C09Exec.tg_same; [|apply C09Exec.tg_refl]. reflexivity.
  Qed.

  Lemma InvOrd_enq_ok s sp : okspec2 sp -> InvOrd s -> InvOrd (do_enqueue (snd (new_signal s sp)) (fst (new_signal s sp))).
  Proof. intros K [H|H]; [left; apply nested_enq, H|right; apply (enq_ok s sp K H)]. Qed.

  Lemma OT_enq sp : okspec2 sp -> OT (PApi (AEnqueue sp)).
  Proof. intros K. apply keeps_api; [exact InvOrd_A|]. intros s. apply InvOrd_enq_ok, K. Qed.
  Lemma OT_api_keep a e (fn : lst -> lst) : (forall s, api_exact a s = Some (emit e (fn s))) -> quiet e = true ->
    (forall s, skeep s (fn s)) -> OT (PApi a).
  Proof.
    intros E Qe K. apply keeps_api; [exact InvOrd_A|]. intros s. rewrite E. intros HI.
    apply InvOrd_emit; [exact Qe|]. apply (InvOrd_keep s); [apply K|exact HI].
  Qed.
  Lemma OT_reg_source o : OT (PApi (ARegSource o)).
  Proof.
    apply keeps_api; [exact InvOrd_A|]. intros s HI. cbn [api_exact].
    destruct HI as [H|O]; [left; apply nested_cons, H|right].
    set (s1 := emit _ _).
    destruct (Qok_set s (active s) (q_add_source (get_q s (active s)) o) s1 (Ord_Qok _ O) eq_refl) as [K1 Q1].
    { intros E. rewrite E. split; [apply q_add_source_qwf, (o_wf _ O)|]. rewrite entries_add_source. apply (o_ent _ O). }
    apply (Ord_same_q s); auto.
    - rewrite Q1. destruct (active s =? 0)%nat eqn:Ea; [|reflexivity]. apply Nat.eqb_eq in Ea. rewrite Ea. apply qents_add_source.
    - apply tsame_cons. reflexivity.
    - eapply Tab_keep; [| |apply (o_tab _ O)]; reflexivity.
  Qed.

  (* register_signal_handler: one more entry for class cls; an InputHandler registers itself for InputReadySignal *)
  Lemma Tab_add s s' cls hid data : Tab s -> handlers s' = add_handler (handlers s) cls hid data -> hid <> H_RECEIVED ->
    (if (cls =? CLS_READY)%nat
     then hid = H_READY (length (st_ih (ust s))) /\ length (st_ih (ust s')) = S (length (st_ih (ust s)))
     else length (st_ih (ust s')) = length (st_ih (ust s))) -> Tab s'.
  Proof.
    intros [T1 T2 T3] H N C. constructor; rewrite H; intros *; rewrite ?hlist_add, ?(Nat.eqb_sym CLS_READY).
    - destruct (c =? cls)%nat eqn:E; [|apply T1]. apply Nat.eqb_eq in E. subst c. intros X.
      destruct (nth_error_snoc _ _ _ _ X) as [X'|[_ X']]; [eapply T1, X'|]. inversion X'. congruence.
    - destruct (cls =? CLS_READY)%nat eqn:E; [|apply T2]. apply Nat.eqb_eq in E. subst cls. intros X.
      destruct (nth_error_snoc _ _ _ _ X) as [X'|[Ei X']]; [eapply T2, X'|]. inversion X'. rewrite Ei, T3. apply C.
    - destruct (cls =? CLS_READY)%nat eqn:E; [|rewrite T3; symmetry; exact C]. apply Nat.eqb_eq in E. subst cls.
      rewrite app_length, T3. cbn [length]. destruct C as [_ ->]. lia.
  Qed.
  Lemma OT_reg_handler cls hid data : hid <> H_RECEIVED -> cls <> CLS_READY -> OT (PApi (ARegHandler cls hid data)).
  Proof.
    intros N1 N2. apply keeps_api; [exact InvOrd_A|]. intros s HI. cbn [api_exact].
    destruct HI as [H|O]; [left; apply nested_cons, H|right].
    apply (Ord_change s); auto; [apply tsame_cons; reflexivity|].
    eapply (Tab_add s); [apply (o_tab _ O)|reflexivity|exact N1|]. rewrite (proj2 (Nat.eqb_neq _ _) N2). reflexivity.
  Qed.

  (* InputHandler(): one more handler of InputReadySignal *)
  Lemma OT_new_input_handler src owner cb k : (forall m, OT (k m)) -> OT (new_input_handler src owner cb k).
  Proof.
    intros Hk. apply OT_of_Ord. intros n Q s HS O HQ.
    assert (AS : AOrd s) by (apply InvOrd_A; right; exact O).
    unfold new_input_handler. apply wpS_rd; [exact AS|]. cbv zeta.
    (* between the two steps the table has one handler less than there are InputHandlers *)
    apply wpS_seq, wpS_wr; [exact AS|exact AS|].
    apply wpS_seq. eapply wpS_api_exact; [reflexivity|exact AS|].
    apply Hk; [exact HS| |exact HQ]. right.
    apply (Ord_change s); auto.
    - apply tsame_cons. reflexivity.
    - eapply (Tab_add s); [apply (o_tab _ O)|reflexivity|discriminate|]. split; [reflexivity|]. cbn. rewrite app_length. cbn. lia.
  Qed.

  (* start_input_thread: a reader takes the next typed line *)
  Lemma firstn_lines c l r : skipn c typed = l :: r -> firstn (S c) lines = firstn c lines ++ [line_of l] /\ skipn (S c) typed = r.
  Proof.
    intros E. destruct (firstn_S_skipn _ _ _ _ E) as [A B]. split; [|exact B].
    unfold lines. rewrite !firstn_map, A, map_app. reflexivity.
  Qed.

  Lemma Ord_take s s' l r : Ord s -> Fl s = [] -> st_typed (ust s) = l :: r -> st_processing (ust s) = true ->
    Qok s' -> Forall extok (ext s') -> handlers s' = handlers s -> ust s' = ust s <| st_typed := r |> ->
    dlv (trace s') = dlv (trace s) -> cnt s' = S (cnt s) -> Subseq (Qs s') (Qs s) -> Subseq (Fl s') [line_of l] -> Ord s'.
  Proof.
    intros O F T P [H1 H2 H3] H4 H5 U H8 H9 H10 H12.
    rewrite (o_typed _ O) in T. destruct (firstn_lines _ _ _ T) as [FL SK].
    constructor; auto.
    - rewrite U, H9, SK. reflexivity.
    - apply Subseq_length in H12. exact H12.
    - rewrite U. cbn. rewrite P. discriminate.
    - eapply Tab_keep; [exact H5|rewrite U; reflexivity|apply O].
    - rewrite H8, H9, FL, app_assoc. apply Subseq_app; [|exact H12].
      pose proof (o_sub _ O) as S0. rewrite F, app_nil_r in S0. eapply Subseq_trans; [|exact S0].
      apply Subseq_app; [apply Subseq_refl|exact H10].
  Qed.

  Lemma OT_sit_tail req : OT (rd (fun u => if st_processing u then ev T_PROMPT [req; 1]
                                           else wr (fun u => u <| st_processing := true |>) ;; start_thread req)).
  Proof.
    apply OT_of_Ord. intros n Q s HS O HQ.
    assert (AS : AOrd s) by (apply InvOrd_A; right; exact O).
    apply wpS_rd; [exact AS|]. destruct (st_processing (ust s)) eqn:P.
    { apply (OT_emit (EUser T_PROMPT [req; 1] [])); [reflexivity|exact HS|right; exact O|exact HQ]. }
    apply wpS_seq, wpS_wr; [exact AS|exact AS|].
    set (s2 := emit (EUser T_PROMPT [req; 0] []) (s <| ust := ust s <| st_processing := true |> |>)).
    assert (O2 : Ord s2).
    { apply (Ord_change s); auto.
      - apply tsame_cons. reflexivity.
      - eapply Tab_keep; [| |apply (o_tab _ O)]; reflexivity. }
    assert (A2' : AOrd s2) by (apply InvOrd_A; right; exact O2).
    assert (F2 : Fl s2 = []) by apply (o_proc _ O P).
    unfold start_thread. apply wpS_seq, wpS_emit; [exact AS|]. cbn [user_event]. fold s2.
    apply wpS_rd; [exact A2'|]. destruct (st_typed (ust s2)) as [|l r] eqn:TY.
    { apply wpS_ret; [exact A2'|]. apply HQ. right. exact O2. }
    (* the reader takes line l: until its signal exists the line is counted nowhere *)
    apply wpS_seq, wpS_wr; [exact A2'|exact A2'|].
    destruct (app_eq_nil _ _ F2) as [FQ1 FQ2]. apply map_eq_nil in FQ2.
    change (match l with Some x => x | None => [] end) with (line_of l).
    destruct (st_typeahead (ust s2)); (eapply wpS_api_exact; [reflexivity|exact A2'|]); apply HQ; right.
    - (* the user has typed ahead: the reader's InputReceivedSignal is queued now *)
      unfold new_signal. cbn [fst snd]. set (sg := mk_signal _ _). set (s1 := emit _ _).
      destruct (enq_sig s1 sg (Qok_same s2 s1 eq_refl (Ord_Qok _ O2))) as (E4 & E5 & E6 & (T1 & T2 & _) & K & SQ & SF).
      { intros X. discriminate X. } { intros _. reflexivity. }
      unfold sg_rs, sg_rc in SQ, SF. cbn [sg_b sg_cls sg_data sg mk_signal received_spec sp_b sp_cls sp_data Nat.eqb CLS_RECEIVED] in SQ, SF.
      rewrite app_nil_r in SQ. change (Flq s1) with (Flq s2) in SF. rewrite FQ1 in SF.
      apply (Ord_take s2 _ l r O2 F2 TY eq_refl K); [rewrite E4; apply O2|exact E5|exact E6| | |exact SQ|].
      + rewrite T1. exact (app_nil_r (dlv (trace s2))).
      + unfold cnt. rewrite T2, E4. reflexivity.
      + unfold Fl. rewrite E4. change (ext s1) with (ext s2). rewrite FQ2, app_nil_r. exact SF.
    - (* the line arrives later: the thread will submit the signal *)
      apply (Ord_take s2 _ l r O2 F2 TY eq_refl); [| |reflexivity|reflexivity|reflexivity| |apply Subseq_refl|].
      + apply (Qok_same s2); [reflexivity|apply Ord_Qok, O2].
      + cbn [ext set]. apply Forall_app. split; [apply (o_ext _ O2)|]. constructor; [|constructor]. repeat split.
      + unfold cnt. cbn [ext trace set]. rewrite app_length. cbn [length]. lia.
      + unfold Fl. cbn [ext set]. change (Flq _) with (Flq s2). rewrite FQ1, FQ2. apply Subseq_refl.
  Qed.

  Lemma OT_start_input_thread req check : OT (start_input_thread req check).
  Proof.
    unfold start_input_thread. apply OT_seq; [apply OT_wr; intros u; repeat split|]. apply OT_rd. intros u.
    apply OT_seq; [|apply OT_sit_tail].
    destruct (negb (length (st_istack u) =? 1)%nat && check); [|apply OT_ret].
    apply OT_seq; [apply (OT_emit (EUser T_REFUSED (rev (st_istack u)) [])); reflexivity|].
    apply OT_seq; [apply OT_wr; intros u'; repeat split|apply OT_throw].
  Qed.

  Definition api_ok (a : api) : Prop :=
    match a with
    | AEnqueue sp | ANewLoop sp => okspec2 sp
    | ARegHandler cls hid _ => hid <> H_RECEIVED /\ cls <> CLS_READY
    | AExtAdd _ => False
    | _ => True
    end.
  Inductive Safe : sprog -> Prop :=
  | S_ret : Safe PRet
  | S_throw e : Safe (PThrow e)
  | S_seq p q : Safe p -> Safe q -> Safe (PSeq p q)
  | S_try p h : Safe p -> Safe h -> Safe (PTry p h)
  | S_st g : (forall u, ukeep u (fst (g u))) -> (forall u, Safe (snd (g u))) -> Safe (PSt g)
  | S_while c b : Safe b -> Safe (PWhile c b)
  | S_emit e : quiet (user_event e) = true -> Safe (PEmit e)
  | S_api a : api_ok a -> Safe (PApi a)
  | S_sit req check : Safe (start_input_thread req check)
  | S_nih src owner cb k : (forall m, Safe (k m)) -> Safe (new_input_handler src owner cb k).

  Theorem Safe_OT p : Safe p -> OT p.
  Proof.
    induction 1 as [|e|p q _ IHp _ IHq|p h _ IHp _ IHh|g H _ IH|c b _ IHb|e He|a Ha|req check|src owner cb k _ IH].
    - apply OT_ret.
    - apply OT_throw.
    - apply OT_seq; assumption.
    - apply keeps_try; assumption.
    - apply OT_st. intros u. split; [apply H|apply IH].
    - apply keeps_while; [exact InvOrd_A|exact IHb].
    - apply OT_emit, He.
    - destruct a; cbn [api_ok] in Ha; try contradiction.
      + apply OT_enq, Ha.
      + eapply OT_api_keep; [intros s; reflexivity|reflexivity|exact skeep_refl].
      + apply keeps_rec; exact Ha.
      + apply keeps_rec; exact I.
      + apply keeps_rec; exact I.
      + apply OT_reg_source.
      + apply OT_reg_handler; apply Ha.
      + eapply OT_api_keep; [intros s; reflexivity|reflexivity|exact skeep_refl].
    - apply OT_start_input_thread.
    - apply OT_new_input_handler, IH.
  Qed.

  Lemma S_rd (f : sstate -> sprog) : (forall u, Safe (f u)) -> Safe (rd f).
  Proof. intros H. apply S_st; intros u; [apply ukeep_refl|apply H]. Qed.
  Lemma S_wr (g : sstate -> sstate) : (forall u, ukeep u (g u)) -> Safe (wr g).
  Proof. intros H. apply S_st; intros u; [apply H|apply S_ret]. Qed.
  Lemma S_ev tag a t : quiet (EUser tag a t) = true -> Safe (evt tag a t).
  Proof. intros H. apply S_emit, H. Qed.

  Ltac uk := intros; first [ repeat split; reflexivity
                           | unfold ukeep, upd_ih, upd_scr; cbn [st_typed st_processing st_ih set]; rewrite ?length_upd_nth;
                             repeat split; reflexivity ].
  (* the application's own signals and callbacks: classes 0 and 5, 6, ..., handler ids 3, 4, ... *)
  Lemma CLS_CUSTOM_user c : CLS_CUSTOM c = CLS_EXCEPTION \/ 5 <= CLS_CUSTOM c.
  Proof. unfold CLS_CUSTOM. destruct (c =? 99)%nat; [left; reflexivity|right; lia]. Qed.
  Lemma api_ok_connect c k self : api_ok (ARegHandler (CLS_CUSTOM c) (H_CUSTOM k) self).
  Proof.
    split; [unfold H_CUSTOM, H_RECEIVED; lia|]. unfold CLS_READY. destruct (CLS_CUSTOM_user c) as [->|]; [discriminate|lia].
  Qed.
  Lemma api_ok_emit c p src : api_ok (AEnqueue {| sp_cls := CLS_CUSTOM c; sp_prio := p; sp_src := src; sp_a := 0; sp_b := false; sp_data := [] |}).
  Proof.
    split; [reflexivity|]. cbn [sp_cls]. unfold CLS_RECEIVED. destruct (CLS_CUSTOM_user c) as [->|]; [discriminate|lia].
  Qed.
  Hint Resolve api_ok_connect api_ok_emit : safe.
  Ltac safe_step :=
    lazymatch goal with
    | |- Safe (start_input_thread _ _) => apply S_sit
    | |- Safe (new_input_handler _ _ _ _) => apply S_nih; intros ?
    | |- Safe PRet => apply S_ret
    | |- Safe (PThrow _) => apply S_throw
    | |- Safe (PSeq _ _) => apply S_seq
    | |- Safe (PTry _ _) => apply S_try
    | |- Safe (PWhile _ _) => apply S_while
    | |- Safe (rd _) => apply S_rd; intros ?; cbv zeta
    | |- Safe (wr _) => apply S_wr; uk
    | |- Safe (ev _ _) => apply S_ev; reflexivity
    | |- Safe (evt _ _ _) => apply S_ev; reflexivity
    | |- Safe (PApi _) => apply S_api; first [exact I | split; [reflexivity|discriminate] | solve [auto with safe nocore]]
    | |- Safe (if ?c then _ else _) => destruct c
    | |- Safe (match ?x with _ => _ end) => destruct x
    | |- Safe ?p => first [ assumption | solve [auto with safe nocore] | let h := hd p in unfold h ]
    end.
  Ltac safe := repeat safe_step.

  Lemma Safe_sched_redraw : Safe sched_redraw.
  Proof. safe. Qed.
  Lemma Safe_exc : Safe raise_exception_signal.
  Proof. safe. Qed.
  Hint Resolve Safe_sched_redraw Safe_exc : safe.
  Lemma Safe_emit_failed_all l : Safe (emit_failed_all l).
  Proof. induction l as [|r l IH]; cbn [emit_failed_all]; safe. Qed.
  Lemma Safe_handler_get_input k skip : Safe (handler_get_input k skip).
  Proof. safe. Qed.
  Hint Resolve Safe_emit_failed_all Safe_handler_get_input : safe.
  Lemma Safe_get_input_blocking scr : Safe (get_input_blocking specs scr).
  Proof. safe. Qed.
  Lemma Safe_handler_ask self h skip : Safe (handler_ask self h skip).
  Proof. safe. Qed.
  Lemma Safe_handler_wait h : Safe (handler_wait h).
  Proof. safe. Qed.
  Hint Resolve Safe_get_input_blocking Safe_handler_ask Safe_handler_wait : safe.

  (* every command is admitted *)
  Lemma Safe_cmds cn : Safe cn -> (forall c self cnt, Safe (do_scmd specs cn self cnt c)) /\
    (forall l self cnt, Safe (do_scmds specs cn self cnt l)).
  Proof.
    intros Hcn. destruct (do_scmd_closed specs Safe (fun _ => true) cn S_ret S_seq) as [C L].
    - intros k t e _. split; apply forallb_forall; reflexivity.
    - intros c Hc _ self cnt. destruct c; try contradiction; cbn [do_scmd]; safe.
    - split; [intros c; apply C; reflexivity|intros l; apply L, forallb_forall; reflexivity].
  Qed.
  Definition Safe_do_scmd cn (H : Safe cn) := proj1 (Safe_cmds cn H).
  Definition Safe_do_scmds cn (H : Safe cn) := proj2 (Safe_cmds cn H).
  Lemma Safe_call_closed d : Safe (call_closed specs d).
  Proof. unfold call_closed. safe. apply Safe_do_scmds. safe. Qed.
  Hint Resolve Safe_call_closed : safe.
  Lemma Safe_close_screen cf : Safe (close_screen specs cf).
  Proof. unfold close_screen, ev_stack. safe. Qed.
  Hint Resolve Safe_close_screen : safe.
  Lemma Safe_run_cmds self cnt l : Safe (run_cmds specs self cnt l).
  Proof. unfold run_cmds. apply Safe_do_scmds. apply Safe_close_screen. Qed.
  Hint Resolve Safe_run_cmds : safe.
  Lemma Safe_call_setup d : Safe (call_setup specs d).
  Proof. unfold call_setup. safe. Qed.
  Lemma Safe_call_refresh d : Safe (call_refresh specs d).
  Proof. unfold call_refresh. safe. Qed.
  Lemma Safe_ask_pages scr k : Safe (ask_pages specs scr k).
  Proof. induction k as [|k IH]; cbn [ask_pages]; safe. Qed.
  Hint Resolve Safe_call_setup Safe_call_refresh Safe_ask_pages : safe.
  Lemma Safe_call_show_all d : Safe (call_show_all specs d).
  Proof. unfold call_show_all. safe. Qed.
  Lemma Safe_call_input scr key : Safe (call_input specs scr key).
  Proof. unfold call_input. safe. Qed.
  Lemma Safe_get_input scr args : Safe (get_input specs scr args).
  Proof. unfold get_input. safe. Qed.
  Hint Resolve Safe_call_show_all Safe_call_input Safe_get_input : safe.
  Lemma Safe_process_input_result act b : Safe (process_input_result specs act b).
  Proof. unfold process_input_result, with_top, push_screen_modal. safe; apply Safe_do_scmd; safe. Qed.
  Hint Resolve Safe_process_input_result : safe.
  Lemma Safe_process_input scr line : Safe (process_input specs scr line).
  Proof. unfold process_input. safe. Qed.
  Lemma Safe_draw_screen d : Safe (draw_screen specs d).
  Proof. unfold draw_screen. safe. Qed.
  Hint Resolve Safe_process_input Safe_draw_screen : safe.
  Lemma Safe_process_screen : Safe (process_screen specs).
  Proof. unfold process_screen, with_top. safe. Qed.
  Lemma Safe_custom_handler k sg scr : Safe (custom_handler specs k sg scr).
  Proof. unfold custom_handler. safe. Qed.

  Definition HPostOrd s (sg : signal) (idx hid : nat) (o : outcome) (s2 : lst) : Prop :=
    let s3 := emit (EHandlerEnd hid (sg_id sg) (how_of o)) s2 in InvOrd s3 /\ NoRel s s3 /\ SigOrd sg (S idx) s3.

  Lemma HPostOrd_done s sg idx hid o s2 : (sg_b sg = true -> sg_cls sg = CLS_READY /\ sg_a sg <= idx) -> InvOrd s2 ->
    HPostOrd s sg idx hid o s2.
  Proof.
    intros H HI2. split; [apply InvOrd_emit; [reflexivity|exact HI2]|]. split; [exact I|right; apply Due_done, H].
  Qed.

  Lemma Safe_ready_fail k sg : sg_b sg = false -> Safe (input_ready_handler specs k sg).
  Proof. intros B. unfold input_ready_handler. rewrite B. cbn [negb b2n]. safe. Qed.
  Lemma Safe_screen_code hid sg data : hid <> H_RECEIVED -> sg_b sg = false -> Safe (screen_code specs hid sg data).
  Proof.
    intros N B. unfold screen_code. destruct (hid =? H_RENDER)%nat; [apply Safe_process_screen|].
    destruct (hid =? H_CLOSE)%nat; [apply Safe_close_screen|].
    destruct (hid =? H_RECEIVED)%nat eqn:E; [apply Nat.eqb_eq in E; contradiction|].
    destruct (10 <=? hid)%nat; [apply Safe_ready_fail, B|].
    destruct (3 <=? hid)%nat; [apply Safe_custom_handler|apply S_ret].
  Qed.

  (* [Ord_keep] with the hypotheses in the other order; proofs use [Ord_keep] *)
  Lemma Ord_set_sub s s' : Ord s -> skeep s s' -> Ord s'.
  Proof. intros O K. eapply Ord_keep; eauto. Qed.

  Lemma W_failed_all n l Q s : Ord s -> Fl s = [] -> (forall s', Ord s' -> Fl s' = [] -> Q ONormal s') ->
    WOrd n (emit_failed_all l) Q s.
  Proof.
    revert s. induction l as [|r l IH]; intros s O F HQ; cbn [emit_failed_all].
    all: assert (AS : AOrd s) by (apply InvOrd_A; right; exact O).
    - apply wpS_ret; [exact AS|apply HQ; assumption].
    - apply wpS_seq. unfold emit_ready. apply wpS_rd; [exact AS|].
      eapply wpS_api_exact; [reflexivity|exact AS|].
      destruct (enq_ok s (ready_spec (ih_src (ih_of (ust s) r)) r [] false)) as (O2 & _ & _ & _ & F2); [split; [reflexivity|discriminate]|exact O|].
      apply IH; [exact O2|apply Subseq_nil_inv; rewrite <- F; exact F2|exact HQ].
  Qed.

  (* the hand-off: the line goes to the most recent requester as a successful ready signal *)
  Lemma H_received_ord n z s sg : SPOrd n -> Ord s -> Due sg 0 s -> sg_cls sg = CLS_RECEIVED -> sg_b sg = false ->
    WOrd n (input_received_handler sg) (HPostOrd z sg 0 H_RECEIVED) s.
  Proof.
    intros HS O [_ DU] CL B. rewrite B in DU. destruct (DU eq_refl) as [L0 S0].
    unfold sg_rs, sg_rc in L0, S0. rewrite CL in L0. rewrite B, CL in S0. cbn [Nat.eqb CLS_RECEIVED app length] in L0, S0.
    assert (F0 : Fl s = []) by (destruct (Fl s); [reflexivity|cbn in L0; lia]). rewrite F0 in S0.
    assert (AS : AOrd s) by (apply InvOrd_A; right; exact O).
    assert (FIN : forall o s2, InvOrd s2 -> HPostOrd z sg 0 H_RECEIVED o s2) by (intros o s2; apply HPostOrd_done; congruence).
    unfold input_received_handler. apply wpS_rd; [exact AS|].
    destruct (st_istack (ust s)) as [|top rest].
    { apply wpS_throw; [exact AS|]. apply FIN. right. exact O. }
    apply wpS_seq, wpS_wr; [exact AS|exact AS|].
    set (s1 := s <| ust := ust s <| st_istack := rest |> |>).
    assert (O1 : Ord s1) by (apply (Ord_keep s); [apply skeep_ust; repeat split|exact O]).
    apply wpS_seq. unfold emit_ready. apply wpS_rd; [exact AS|].
    eapply wpS_api_exact; [reflexivity|exact AS|].
    destruct (enq_ord s1 (ready_spec (ih_src (ih_of (ust s1) top)) top (sg_data sg) true) O1) as (O2 & _ & _ & _ & F2).
    { discriminate. } { intros _. repeat split; assumption. }
    apply wpS_seq. apply W_failed_all; [exact O2|apply Subseq_nil_inv; rewrite <- F0; exact F2|]. intros s3 O3 F3.
    assert (A3 : AOrd s3) by (apply InvOrd_A; right; exact O3).
    apply wpS_wr; [exact A3|exact A3|]. apply FIN. right.
    (* _processing_input is reset: no line is in flight *)
    set (s4 := s3 <| ust := _ |>). assert (F4 : Fl s4 = []) by exact F3.
    destruct O3 as [a1 a2 a3 a4 a5 a6 a7 a8 a9]. constructor; auto.
    eapply Tab_keep; [| |exact a8]; reflexivity.
  Qed.

  Lemma Ord_deliver s i d : Ord s -> Subseq (dlv (trace s) ++ [d] ++ Qs s ++ Fl s) (firstn (cnt s) lines) ->
    Ord (emit (EUser T_READY [i; 1] d) s).
  Proof.
    intros O S0. apply (Ord_mono_u s _ O); auto.
    - apply (Qok_same s); [reflexivity|apply Ord_Qok, O].
    - apply (o_ext _ O).
    - apply Subseq_refl.
    - change (dlv (trace (emit (EUser T_READY [i; 1] d) s))) with (dlv (trace s) ++ [d]). rewrite <- app_assoc. exact S0.
  Qed.

  (* InputHandler idx gets a successful ready signal: the delivery *)
  Lemma H_ready_ord n z s sg idx : SPOrd n -> Ord s -> Due sg idx s -> sg_b sg = true ->
    WOrd n (input_ready_handler specs idx sg) (HPostOrd z sg idx (H_READY idx)) s.
  Proof.
    intros HS O DU B. pose proof (proj1 DU B) as CL.
    assert (AS : AOrd s) by (apply InvOrd_A; right; exact O).
    unfold input_ready_handler. rewrite B. destruct (sg_a sg =? idx)%nat eqn:EA; cbn [negb b2n].
    - apply Nat.eqb_eq in EA. destruct DU as [_ DU]. rewrite B in DU. destruct DU as [_ S0]; [lia|].
      unfold sg_rs, sg_rc in S0. rewrite B, CL in S0. cbn [Nat.eqb CLS_READY CLS_RECEIVED app] in S0.
      apply wpS_seq, wpS_wr; [exact AS|exact AS|].
      set (s1 := s <| ust := _ |>).
      assert (O2 : Ord (emit (EUser T_READY [idx; 1] (sg_data sg)) s1)).
      { apply Ord_deliver; [apply (Ord_keep s); [apply skeep_ust; uk|exact O]|exact S0]. }
      apply wpS_seq. unfold evt. apply wpS_emit; [exact AS|]. cbn [user_event].
      apply Safe_OT; [safe|exact HS|right; exact O2|]. intros o s2. apply HPostOrd_done. intros _. split; [exact CL|lia].
    - (* another handler's signal: nothing happens *)
      apply wpS_ret; [exact AS|]. split; [apply InvOrd_emit; [reflexivity|right; exact O]|]. split; [exact I|]. right.
      apply (Due_keep _ _ s); [apply skeep_emit; reflexivity|apply Due_S, DU].
  Qed.

  Lemma unseen_skeep s s' : unseen s s' -> skeep s s'.
  Proof.
    intros (T & U & E & Qe & H). split; [exact Qe|]. split; [exact E|]. split; [exact H|].
    split; [rewrite U; apply ukeep_refl|rewrite T; apply tsame_refl].
  Qed.
  Lemma G_ord_kill s : InvOrd s -> AOrd (emit EKill s).
  Proof. intros HI. eapply AOrd_tsame; [apply tsame_cons; reflexivity|apply InvOrd_A, HI]. Qed.
  Lemma G_ord_unwind s h sid : AOrd s -> AOrd (emit (EHandlerEnd h sid (Some XSysExit)) s).
  Proof. intros HA. eapply AOrd_tsame; [apply tsame_cons; reflexivity|exact HA]. Qed.

  Lemma pop_lists q m q' : qwf q -> q_pop q = Some (m, q') ->
    map edata (filter isrs (qents q)) = (if isrs m then [edata m] else []) ++ map edata (filter isrs (qents q')) /\
    map edata (filter isrc (qents q)) = (if isrc m then [edata m] else []) ++ map edata (filter isrc (qents q')).
  Proof.
    intros Wq P. rewrite (qents_pop _ _ _ Wq P). cbn [filter]. destruct (isrs m), (isrc m); split; reflexivity.
  Qed.

  Lemma active0 s p c sg q' : length (qstore s) = 1 -> q_pop (get_q s (active s)) = Some ((p, c, sg), q') -> active s = 0.
  Proof.
    intros L P. destruct (active s) as [|k]; [reflexivity|]. rewrite get_q_out in P by lia. discriminate P.
  Qed.

  Lemma G_ord_step s s' (W : Prop) : lstep SigOrd okspec2 s s' W -> InvOrd s -> InvOrd s' /\ NoRel s s' /\ W.
  Proof.
    intros ST HI. destruct ST as [s s' K|s e NE|s p c sg q' P|s p c sg q' P|s sp r X _|s|s sp [B C]|s sp _ _].
    - (* fields not looked at *)
      split; [eapply InvOrd_keep; [apply unseen_skeep, K|exact HI]|split; [exact I|]].
      intros sg i. apply SigOrd_keep, unseen_skeep, K.
    - split; [|split; exact I]. destruct e; try discriminate NE; (apply InvOrd_emit; [reflexivity|exact HI]).
    - (* a signal is taken from the queue *)
      unfold C09Exec.disp. destruct HI as [H|O].
      { split; [left; apply nested_cons, H|]. split; [exact I|left; apply nested_cons, H]. }
      pose proof (active0 _ _ _ _ _ (o_q _ O) P) as A0. rewrite A0 in *. change (get_q s 0) with (q0 s) in P.
      pose proof (o_wf _ O) as Wq.
      destruct (pop_lists _ _ _ Wq P) as [L1 L2].
      destruct (q_pop_sorted _ _ _ Wq P) as (_ & PM & _ & _).
      assert (FE : Forall entok ((p, c, sg) :: eq_entries q')) by (eapply Permutation_Forall; [exact PM|apply (o_ent _ O)]).
      inversion FE as [|? ? [Em1 _] FE']; subst.
      set (s1 := emit _ _).
      destruct (Qok_set s 0 q' s1 (Ord_Qok _ O) eq_refl) as [K1 Q1]; [intros _; split; [eapply q_pop_qwf; eauto|exact FE']|].
      cbn [Nat.eqb] in Q1.
      (* the entry taken out was the first of its kind *)
      assert (V1 : Qs s = sg_rs sg ++ Qs s1) by (unfold Qs; rewrite Q1; exact L1).
      assert (V2 : Fl s = sg_rc sg ++ Fl s1) by (unfold Fl, Flq; rewrite Q1, app_assoc; f_equal; exact L2).
      assert (D1 : dlv (trace s1) = dlv (trace s)) by (apply tsame_cons; reflexivity).
      pose proof (o_sub _ O) as S0. rewrite V1, V2 in S0.
      split; [right|split; [exact I|right]].
      + apply (Ord_mono_u s s1 O K1); auto; [apply O|rewrite V2; apply Subseq_app_l2|].
        rewrite D1. eapply Subseq_trans; [|exact S0].
        apply Subseq_app; [apply Subseq_refl|]. apply Subseq_app; apply Subseq_app_l2.
      + split; [intros B; apply (Em1 B)|intros _]. rewrite D1, <- V2. split; [apply O|rewrite V2; exact S0].
    - (* ... and put back *)
      split; [|split; exact I]. destruct HI as [H|O]; [left; apply nested_cons, H|right].
      pose proof (active0 _ _ _ _ _ (o_q _ O) P) as A0. rewrite A0 in *. change (get_q s 0) with (q0 s) in P.
      pose proof (o_wf _ O) as Wq.
      destruct (q_pop_sorted _ _ _ Wq P) as (_ & PM & _ & _).
      set (s1 := emit _ _).
      destruct (Qok_set s 0 (q_put_entry q' (p, c, sg)) s1 (Ord_Qok _ O) eq_refl) as [K1 Q1].
      { intros _. split; [eapply q_put_entry_qwf; eauto|]. unfold q_put_entry. cbn [eq_entries set].
        eapply Permutation_Forall; [|apply (o_ent _ O)]. etransitivity; [exact PM|apply Permutation_cons_append]. }
      apply (Ord_same_q s); auto.
      + rewrite Q1. apply (qents_requeue _ _ _ Wq P).
      + apply tsame_cons. reflexivity.
      + eapply Tab_keep; [| |apply (o_tab _ O)]; reflexivity.
    - (* another thread's signal arrives *)
      split; [|split; exact I]. unfold C09Exec.ext_arrival, new_signal. cbv beta iota.
      set (sg := mk_signal (next_sig (s <| ext := r |>)) sp). set (s1 := emit _ _).
      destruct HI as [H|O].
      { left. eapply nested_grow; [apply C09Exec.tg_do_enqueue, C09Exec.tg_refl|]. apply nested_cons, nested_cons, H. }
      right. pose proof (o_ext _ O) as EX. rewrite X in EX. inversion EX as [|? ? (C1 & C2 & C3) EX']; subst.
      destruct (enq_sig s1 sg) as (E4 & E5 & E6 & (T1 & T2 & _) & K & SQ & SF).
      { apply (Qok_same s); [reflexivity|apply Ord_Qok, O]. }
      { intros B. cbn [sg_b sg mk_signal] in B. congruence. } { intros _. exact C2. }
      set (s2 := do_enqueue s1 sg) in *.
      unfold sg_rs, sg_rc in SQ, SF. cbn [sg_b sg_cls sg_data sg mk_signal] in SQ, SF.
      rewrite C3, app_nil_r in SQ. rewrite C1 in SF. cbn [Nat.eqb CLS_RECEIVED] in SF.
      assert (N1 : nrecv (trace s2) = S (nrecv (trace s))).
      { rewrite T2. unfold s1. cbn [trace emit set nrecv isnewrecv]. rewrite C1. reflexivity. }
      assert (D1 : dlv (trace s2) = dlv (trace s)).
      { rewrite T1. unfold s1. cbn [trace emit set dlv]. unfold dl1. cbn [is_deliv]. rewrite !app_nil_r. reflexivity. }
      (* the line in flight moves from [ext] into the queue (or is lost) *)
      assert (F : Subseq (Fl s2) (Fl s)).
      { unfold Fl. rewrite E4, X. change (map sp_data (sp :: r)) with ([sp_data sp] ++ map sp_data r).
        rewrite app_assoc. apply Subseq_app; [exact SF|apply Subseq_refl]. }
      apply (Ord_mono_u s s2 O K); auto.
      + rewrite E4. exact EX'.
      + unfold cnt. rewrite N1, E4, X. change (ext s1) with r. cbn [length]. lia.
      + rewrite D1. eapply Subseq_trans; [|apply (o_sub _ O)].
        apply Subseq_app; [apply Subseq_refl|]. apply Subseq_app; [exact SQ|exact F].
    - (* a handler raised: the exception signal is enqueued *)
      unfold exc_enqueue. assert (K : okspec2 exception_spec) by (split; [reflexivity|discriminate]).
      split; [apply InvOrd_enq_ok; assumption|]. split; [exact I|]. intros sg i SP.
      destruct HI as [H|O]; [left; apply nested_enq, H|].
      destruct SP as [H|SP]; [left; apply nested_enq, H|right].
      destruct (enq_ok s exception_spec K O) as (_ & V1 & V2 & V3 & V4). apply (Due_mono sg i s); assumption.
    - (* execute_new_loop: the signal is created ... *)
      split; [|split; exact I]. unfold new_signal. cbn [snd].
      eapply InvOrd_keep; [|exact HI].
      apply (skeep_trans s (s <| next_sig := S (next_sig s) |>)); [exact (skeep_refl s)|]. apply skeep_emit.
      unfold quiet. cbn [is_deliv isnewrecv]. apply negb_true_iff, Nat.eqb_neq, C.
    - (* ... and a nested loop begins: from here on the first alternative of [InvOrd] *)
      split; [|split; exact I]. left.
      eapply nested_grow; [apply C09Exec.tg_do_enqueue, C09Exec.tg_refl|]. reflexivity.
  Qed.

  Lemma G_ord_handler n : SPOrd n -> forall s sg idx hs0 hid data,
    InvOrd s -> SigOrd sg idx s -> force_quit s = false ->
    handlers_of s (sg_cls sg) = Some hs0 -> nth_error hs0 idx = Some (hid, data) ->
    WOrd n (screen_code specs hid sg data)
      (fun o s2 => let s3 := emit (EHandlerEnd hid (sg_id sg) (how_of o)) s2 in InvOrd s3 /\ NoRel s s3 /\ SigOrd sg (S idx) s3)
      (emit (EHandler hid (sg_id sg) data) s).
  Proof.
    intros HS s sg idx hs0 hid data HI SP _ HF NE.
    destruct (nested (trace s)) eqn:N.
    { apply WOrd_nested; [apply nested_cons, N|]. intros o s' H'. cbv beta zeta.
      split; [left; apply nested_cons, H'|]. split; [exact I|left; apply nested_cons, H']. }
    destruct HI as [H|O]; [congruence|]. destruct SP as [H|DU]; [congruence|].
    assert (HL : hlist (handlers s) (sg_cls sg) = hs0) by (unfold hlist; unfold handlers_of in HF; rewrite HF; reflexivity).
    rewrite <- HL in NE. pose proof (o_tab _ O) as [T1 T2 T3].
    assert (K0 : skeep s (emit (EHandler hid (sg_id sg) data) s)) by (apply skeep_emit; reflexivity).
    pose proof (Ord_keep _ _ K0 O) as O0. pose proof (Due_keep _ _ _ _ K0 DU) as DU0.
    destruct (sg_b sg) eqn:B.
    - (* a successful ready signal: its handlers are H_READY 0, 1, ... *)
      pose proof (proj1 DU B) as CL. rewrite CL in NE. rewrite (T2 _ _ _ NE) in *.
      rewrite screen_code_ready. apply H_ready_ord; assumption.
    - destruct (Nat.eq_dec hid H_RECEIVED) as [->|NR].
      + destruct (T1 _ _ _ NE) as [CL ->].
        unfold screen_code. cbn [H_RECEIVED H_RENDER H_CLOSE Nat.eqb]. apply H_received_ord; assumption.
      + apply Safe_OT; [apply Safe_screen_code; assumption|exact HS|right; exact O0|].
        intros o s2. apply (HPostOrd_done s). congruence.
  Qed.

  Theorem spec_ord_all : forall n, SPOrd n.
  Proof.
    apply Spec_of_loop, loop_rule.
    - (* Inv_F *) apply InvOrd_A.
    - (* R_refl *) intros s. exact I.
    - (* R_trans *) intros a b c _ _. exact I.
    - (* X_R *) intros a b c _ H. exact H.
    - apply G_ord_kill.
    - apply G_ord_step.
    - apply handler_wpS; [apply G_ord_unwind|apply G_ord_handler].
  Qed.

  Theorem session_order fuel acts s : InvOrd s -> AOrd (snd (app_session specs fuel acts s)).
  Proof.
    intros HI. apply (session_keeps specs AOrd AOrd InvOrd NoRel SigOrd okspec2 (fun _ => True) fuel InvOrd_A).
    - auto.
    - exact spec_ord_all.
    - intros s0. apply InvOrd_emit. reflexivity.
    - intros l _. apply Safe_OT, Safe_run_cmds.
    - exact HI.
    - apply Forall_forall. auto.
  Qed.
End Ord.

(* the same functions on the trace in chronological order *)
Definition ready_texts (t : list event) : list str := flat_map dl1 t.
Definition no_nested_loop (t : list event) : bool := negb (existsb isnest t).
Lemma dlv_rev t : dlv t = ready_texts (rev t).
Proof.
  unfold ready_texts. induction t as [|e r IH]; cbn [dlv rev]; [reflexivity|].
  rewrite flat_map_app, <- IH. cbn. rewrite app_nil_r. reflexivity.
Qed.
Lemma nested_rev t : nested (rev t) = nested t.
Proof.
  unfold nested. induction t as [|e r IH]; cbn [rev existsb]; [reflexivity|].
  rewrite existsb_app, IH. cbn. rewrite orb_false_r. apply orb_comm.
Qed.

Lemma InvOrd_init specs specl typed quit run_empty o s1 :
  exec (screen_code specs) 20 (CProg app_initialize) (init_state (sstate0 specl typed quit run_empty)) = (o, s1) ->
  InvOrd typed s1.
Proof.
  intros E. cbn in E. inversion E; subst o s1. clear E. right. constructor.
  - reflexivity.
  - apply qwf_empty.
  - constructor.
  - constructor.
  - reflexivity.
  - cbn. lia.
  - reflexivity.
  - constructor.
    + intros c i d X. destruct c as [|[|[|[|c]]]]; cbn in X; destruct i as [|[|i]]; cbn in X; try discriminate X.
      split; reflexivity.
    + intros i hid d X. destruct i; discriminate X.
    + reflexivity.
  - cbn. apply sub_nil.
Qed.

Theorem lines_in_order specs specl typed quit run_empty fuel acts :
  let t := rev (trace (snd (app_run_all specs specl typed quit run_empty fuel acts))) in
  no_nested_loop t = true -> Subseq (ready_texts t) (map line_of typed).
Proof.
  cbv zeta. intros NN. unfold app_run_all in *.
  destruct (exec (screen_code specs) 20 (CProg app_initialize) (init_state (sstate0 specl typed quit run_empty))) as [o s1] eqn:E.
  pose proof (session_order specs typed fuel acts s1 (InvOrd_init _ _ _ _ _ _ _ E)) as H.
  set (sf := snd (app_session specs fuel acts s1)) in *.
  unfold no_nested_loop in NN. apply negb_true_iff in NN. change (existsb isnest (rev (trace sf))) with (nested (rev (trace sf))) in NN.
  rewrite nested_rev in NN. destruct H as [H|H]; [congruence|]. rewrite <- dlv_rev. exact H.
Qed.

Definition inp1 (e : event) : list str :=
  match e with EUser tag a x => if (tag =? T_INPUT)%nat then [x] else [] | _ => [] end.
Definition input_texts (t : list event) : list str := flat_map inp1 t.

(* the line the monitor insists on seeing handed to input() next *)
Definition mustl (m : mw) : list str := match m_must m with Some (_, _, x) => [x] | None => [] end.

Lemma muser_must_other m tag a x : (tag =? T_READY)%nat = false -> (tag =? T_INPUT)%nat = false ->
  m_must (muser m tag a x) = m_must m.
Proof. intros E1 E2. unfold muser, mstep, must_after. cbn [m_must]. rewrite E1, E2. reflexivity. Qed.
Lemma mstep_must m e : (forall tag a x, e <> EUser tag a x) -> m_must (mstep m e) = m_must m \/ m_must (mstep m e) = None.
Proof. intros N. destruct e; cbn; auto. exfalso. eapply N. reflexivity. Qed.

(* one event: input() gets the line the monitor was waiting for; a delivery is all it can come to wait for *)
Lemma must_user m tag a x : mchk06 true m (EUser tag a x) = true ->
  Subseq (inp1 (EUser tag a x) ++ mustl (muser m tag a x)) (mustl m ++ dl1 (EUser tag a x)).
Proof.
  intros C. unfold mchk06 in C. unfold dl1, mustl. cbn [inp1 is_deliv].
  destruct (tag =? T_INPUT)%nat eqn:EI.
  - apply Nat.eqb_eq in EI. subst tag. cbn [T_INPUT T_READY Nat.eqb andb] in *.
    destruct (m_must m) as [[[scr ar] y]|]; [|rewrite andb_false_r in C; discriminate C].
    apply andb_true_iff in C. destruct C as [C _]. apply andb_true_iff in C. destruct C as [_ C]. apply streq_eq in C. subst y.
    apply Subseq_refl.
  - destruct (tag =? T_READY)%nat eqn:ER; cbn [andb app].
    + apply Nat.eqb_eq in ER. subst tag.
      destruct (m_must m) as [[[scr ar] y]|] eqn:MN; [cbn in C; discriminate C|].
      rewrite muser_ready_must, MN. destruct (fires m a) as [[scr ar]|] eqn:F; [unfold fires in F|]; destruct (nth0 a 1 =? 1)%nat; try discriminate F; cbn.
      all: first [apply Subseq_refl|apply sub_nil].
    + rewrite (muser_must_other m tag a x ER EI), app_nil_r. apply Subseq_refl.
Qed.
Lemma must_step m e : mchk06 true m e = true -> Subseq (inp1 e ++ mustl (mstep m e)) (mustl m ++ dl1 e).
Proof.
  intros C. destruct e; try apply (must_user _ _ _ _ C).
  all: cbn [inp1 dl1 is_deliv app]; rewrite app_nil_r; unfold mustl.
  all: match goal with |- context [mstep _ ?e0] => destruct (mstep_must m e0) as [-> | ->] end.
  all: first [intros ? ? ?; discriminate|apply Subseq_refl|apply sub_nil].
Qed.

Lemma must_run t : forall w i I R, Subseq (I ++ mustl (absw w)) R -> srun_mon chk_C06 w t i = None ->
  Subseq (I ++ input_texts t) (R ++ ready_texts t).
Proof.
  induction t as [|e r IH]; intros w i I R J H; cbn [input_texts ready_texts flat_map].
  - rewrite !app_nil_r. eapply Subseq_trans; [apply Subseq_app_l|exact J].
  - cbn [srun_mon] in H. destruct (chk_C06 w e) eqn:C; [|discriminate H]. rewrite chk06_abs in C.
    rewrite !app_assoc. refine (IH _ _ _ _ _ H). rewrite abs_step, <- app_assoc.
    eapply Subseq_trans; [apply Subseq_app; [apply Subseq_refl|apply must_step, C]|].
    rewrite app_assoc. apply Subseq_app; [exact J|apply Subseq_refl].
Qed.

Theorem inputs_among_deliveries typed t : sok chk_C06 typed t = true -> Subseq (input_texts t) (ready_texts t).
Proof.
  unfold sok. intros H. destruct (srun_mon chk_C06 (sworld0 typed) t 0) eqn:E; [discriminate H|].
  apply (must_run t (sworld0 typed) 0 [] []); [|exact E]. exact (sub_nil []).
Qed.

(* finding F18: with a nested loop the order can be lost
   (corpus/screen/order_modal_overtakes.json, the two lines here "1" and "2"): the user types ahead; screen 0's first
   refresh() calls self.redraw(), its second one redraws again and stops asking for input, its third one pushes screen 1
   modally.  Line "1" is handed off to screen 0 (ready signal routed to the outer queue) before the third refresh() opens
   the modal loop, in which screen 1 asks, reads "2" and gets it; "1" reaches screen 0's input() after the modal screen closed. *)
Definition f18_spec (refresh : list scmd) : screen_spec :=
  {| sc_setup := []; sc_refresh := refresh; sc_show := []; sc_closed := []; sc_input := [];
     sc_input_default := ([], Some RClose); sc_prompt_none := false; sc_input_required := true;
     sc_no_separator := false; sc_skip_check := false; sc_pages := 0; sc_answer0 := AnsNoAttr; sc_custom := []; sc_setup_cmds := [] |}.
Definition f18_specl : list screen_spec :=
  [f18_spec [SIfCount 1 [SRedrawSig] [SIfCount 2 [SRedrawSig; SSetInputRequired false] [SPushModal 1 0]]]; f18_spec []].
Definition f18_typed : list (option str) := [Some [49%N]; Some [50%N]].
Definition f18_acts : list saction := [SACmds [SSetTypeAhead true; SSchedule 0 0]; SARun].
Definition f18_trace : list event :=
  rev (trace (snd (app_run_all (fun n => nth n f18_specl default_spec) f18_specl f18_typed None false 3000 f18_acts))).

Lemma Subseq_swap_refuted {A} (a b : A) : a <> b -> ~ Subseq [b; a] [a; b].
Proof.
  intros N H. inversion H as [|x p q H1|x p q H1]; subst.
  - inversion H1 as [|y p' q' H2|y p' q' H2]; subst; [inversion H2|inversion H2].
  - apply N. reflexivity.
Qed.

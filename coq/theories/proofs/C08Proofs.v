(* C08Proofs.v -- screen lifecycle: set up once, refreshed before every draw, closed once.
   Every well-formed session is accepted by [chk_C08] (from proofs/ScreenLink.v); what acceptance means
   event by event; the link at the end of a session ([ready_link]) and the open frames through every loop-level call
   ([frames_balanced]); [count_tag], which counts the lifecycle events of the examples of props/C08.v; non-vacuity of the
   monitor; the session of proofs/C04Proofs.v whose setup() pushes a screen and then reports failure. *)
From SL Require Import Tac.
From RecordUpdate Require Import RecordUpdate.
From SL Require Import PyInt LoopSem ScreenSem ScreenMon proofs.ScreenFacts proofs.ScreenLink proofs.C04Proofs.
Import ListNotations.

Theorem C08_lifecycle_proof specs specl typed quit run_empty fuel acts :
  failing_setup_plain specs ->
  (forall n, specs n = nth n specl default_spec) -> wf_session specl quit acts = true ->
  sok chk_C08 typed (rev (trace (snd (app_run_all specs specl typed quit run_empty fuel acts)))) = true.
Proof.
  intros Hpl Hs Hw. apply acc_sok.
  eapply acc_weaken; [|apply (app_accepted true); [exact Hpl | intros _; split; [exact Hs | exact Hw]]].
  intros w e H. unfold chkb in H. apply andb_true_iff in H. exact (proj2 H).
Qed.

Theorem C04_C08_proof specs specl typed quit run_empty fuel acts :
  failing_setup_plain specs ->
  (forall n, specs n = nth n specl default_spec) -> wf_session specl quit acts = true ->
  sok (chkb true) typed (rev (trace (snd (app_run_all specs specl typed quit run_empty fuel acts)))) = true.
Proof. intros Hpl Hs Hw. apply acc_sok. apply (app_accepted true); [exact Hpl|]. intros _. split; assumption. Qed.

Definition frame_state (w : sworld) (st : nat) : Prop := exists f r, sw_pframes w = f :: r /\ pf_state f = st.
Definition top_args (w : sworld) (args : nat) : Prop := exists e, top_entry w = Some e /\ en_args e = args.

Lemma frame_state_read w st :
  match sw_pframes w with f :: _ => (pf_state f =? st)%nat | [] => false end = true -> frame_state w st.
Proof. unfold frame_state. destruct (sw_pframes w) as [|f r]; [discriminate|]. intros H. apply Nat.eqb_eq in H. eauto. Qed.

Lemma top_args_read w args :
  match top_entry w with Some t => (en_args t =? args)%nat | None => false end = true -> top_args w args.
Proof. unfold top_args. destruct (top_entry w) as [e|]; [|discriminate]. intros H. apply Nat.eqb_eq in H. eauto. Qed.

(* closed() fires only for the entry just popped by close_screen ... *)
Lemma chk08_closed w a tx : chk_C08 w (EUser T_CLOSED a tx) = true -> sw_closed_pending w = Some (nth0 a 0).
Proof.
  unfold chk_C08. intros H. apply andb_true_iff in H as [_ H]. cbn [Nat.eqb T_CLOSED T_SETUP T_REFRESH T_SHOW] in H.
  destruct (sw_closed_pending w) as [j|]; [|discriminate]. apply Nat.eqb_eq in H. congruence.
Qed.

(* ... and it fires at once: while it is pending no other screen-layer event is accepted *)
Lemma chk08_pending w tag a tx i :
  chk_C08 w (EUser tag a tx) = true -> sw_closed_pending w = Some i -> tag = T_CLOSED /\ nth0 a 0 = i.
Proof.
  unfold chk_C08. intros H Hp. apply andb_true_iff in H as [H _]. rewrite Hp in H.
  apply andb_true_iff in H as [H1 H2]. apply Nat.eqb_eq in H1, H2. auto.
Qed.

(* only the pop announced by close_screen arms closed(): not the pop of a replace, not the discard *)
Lemma closed_pending_armed w e i :
  sw_closed_pending (sworld_step w e) = Some i -> sw_closed_pending w = Some i \/
  exists a t r, e = EUser T_STACK a t /\ sw_expect w = XPop true :: r /\ nth0 a 1 = i.
Proof.
  rewrite cpend_step. unfold cpend_after, is_pop. cbn [core c_cpend c_expect]. destruct e; auto; try discriminate.
  destruct (Nat.eqb_spec tag T_STACK) as [->|_]; [|destruct (tag =? T_CLOSED)%nat; [discriminate | auto]].
  destruct (_ || _); [auto|]. destruct (sw_expect w) as [|[[]| |] r]; auto.
  intros [= <-]. right. exists args, text, r. auto.
Qed.

(* a draw happens only right after the refresh of the same entry in the same _process_screen *)
Lemma chk08_show w a tx : chk_C08 w (EUser T_SHOW a tx) = true ->
  exists f r, sw_pframes w = f :: r /\ pf_state f = 1 /\ pf_id f = nth0 a 0.
Proof.
  unfold chk_C08. intros H. apply andb_true_iff in H as [_ H]. cbn [Nat.eqb T_SETUP T_REFRESH T_SHOW] in H.
  destruct (sw_pframes w) as [|f r]; [discriminate|].
  apply andb_true_iff in H as [H1 H2]. apply Nat.eqb_eq in H1, H2. eauto.
Qed.

(* frame state 1 with id i means: the last event that changed the frame of the innermost open _process_screen
   was T_REFRESH of entry i *)
Lemma pframe_refreshed w e f r :
  sw_pframes (sworld_step w e) = f :: r -> pf_state f = 1 ->
  (exists a t, e = EUser T_REFRESH a t /\ pf_id f = nth0 a 0) \/
  (sw_pframes w = f :: r) \/ (exists h sid how g, e = EHandlerEnd h sid how /\ sw_pframes w = g :: f :: r).
Proof.
  rewrite pframes_step. unfold pframes_after. cbn [core c_pframes].
  destruct e; auto; try discriminate.
  - destruct (hid =? H_RENDER)%nat; auto. intros [= <- _]. discriminate.
  - destruct (hid =? H_RENDER)%nat; auto. destruct (sw_pframes w) as [|g l]; cbn [tl]; [discriminate|].
    intros -> _. right. right. eauto 6.
  - destruct (Nat.eqb_spec tag T_REFRESH) as [->|_].
    { destruct (sw_pframes w); [discriminate|]. intros [= <- _] _. left. eauto. }
    destruct (tag =? T_SHOW)%nat; [|destruct (tag =? T_SETUP_BEGIN)%nat; auto];
      (destruct (sw_pframes w); [discriminate|]); intros [= <- _]; discriminate.
Qed.

(* setup() only for a screen that is not ready yet, refresh() only for a ready one; both with the arguments
   of the top entry, at the start of a _process_screen *)
(* (T_SETUP is logged when setup() RETURNS; a setup() that runs commands of its own logs T_SETUP_BEGIN on entry, and the
   conditions are checked there: [chk08_setup_begin]; its return is recognised by [in_setup_of]) *)
Lemma chk08_setup w a tx : chk_C08 w (EUser T_SETUP a tx) = true ->
  (mem (nth0 a 1) (sw_ready w) = false /\ top_args w (nth0 a 2) \/ in_setup_of w (nth0 a 0) = true) /\ frame_state w 0.
Proof.
  unfold chk_C08. intros H. apply andb_true_iff in H as [_ H]. cbn [Nat.eqb T_SETUP] in H.
  apply andb_true_iff in H as [H12 H3]. split; [|exact (frame_state_read _ _ H3)].
  apply orb_true_iff in H12 as [H12|H12]; [left | right; exact H12].
  apply andb_true_iff in H12 as [H1 H2]. split; [apply negb_true_iff; exact H1 | exact (top_args_read _ _ H2)].
Qed.

(* a setup() that runs commands is ENTERED only for a screen not yet ready, with the top entry's arguments, as the first
   thing of a _process_screen frame, and not while a failed entry waits for its discard *)
Lemma chk08_setup_begin w a tx : chk_C08 w (EUser T_SETUP_BEGIN a tx) = true ->
  mem (nth0 a 1) (sw_ready w) = false /\ top_args w (nth0 a 2) /\
  (exists f r, sw_pframes w = f :: r /\ pf_state f = 0 /\ pf_id f = 0) /\ sw_failed w = None.
Proof.
  unfold chk_C08. intros H. apply andb_true_iff in H as [_ H].
  cbn [Nat.eqb T_SETUP T_SETUP_BEGIN] in H. rewrite !andb_true_iff in H. destruct H as [[[H1 H2] H3] H4].
  split; [apply negb_true_iff; exact H1|]. split; [exact (top_args_read _ _ H2)|]. split.
  - destruct (sw_pframes w) as [|f r]; [discriminate|].
    apply andb_true_iff in H3 as [H3 H3']. apply Nat.eqb_eq in H3, H3'. eauto.
  - destruct (sw_failed w); [discriminate | reflexivity].
Qed.

(* "inside the setup() of entry i" is a state of the innermost frame that only T_SETUP_BEGIN of entry i creates; the
   frame's T_REFRESH / T_SHOW end it; nested frames leave it alone *)
Lemma in_setup_armed w e i :
  in_setup_of (sworld_step w e) i = true ->
  (exists a t, e = EUser T_SETUP_BEGIN a t /\ nth0 a 0 = i) \/ in_setup_of w i = true \/
  (exists h sid how g r, e = EHandlerEnd h sid how /\ sw_pframes w = g :: r /\ sw_pframes (sworld_step w e) = r).
Proof.
  unfold in_setup_of. rewrite pframes_step. unfold pframes_after. cbn [core c_pframes].
  destruct e; auto; try discriminate.
  - destruct (hid =? H_RENDER)%nat; auto. discriminate.
  - destruct (hid =? H_RENDER)%nat; auto. destruct (sw_pframes w) as [|g l]; cbn [tl]; [discriminate|].
    intros H. right. right. eauto 8.
  - destruct (tag =? T_REFRESH)%nat; [destruct (sw_pframes w); discriminate|].
    destruct (tag =? T_SHOW)%nat; [destruct (sw_pframes w); discriminate|].
    destruct (Nat.eqb_spec tag T_SETUP_BEGIN) as [->|_]; [|auto].
    destruct (sw_pframes w); [discriminate|]. cbn [pf_state pf_id Nat.eqb andb]. intros H. apply Nat.eqb_eq in H. left. eauto.
Qed.

Lemma chk08_refresh w a tx : chk_C08 w (EUser T_REFRESH a tx) = true ->
  mem (nth0 a 1) (sw_ready w) = true /\ (top_args w (nth0 a 2) \/ in_setup_of w (nth0 a 0) = true) /\ frame_state w 0.
Proof.
  unfold chk_C08. intros H. apply andb_true_iff in H as [_ H].
  cbn [Nat.eqb T_SETUP T_SETUP_BEGIN T_REFRESH] in H. rewrite !andb_true_iff in H. destruct H as [[H1 H2] H3].
  split; [exact H1|]. split; [|exact (frame_state_read _ _ H3)].
  apply orb_true_iff in H2 as [H2|H2]; [left; exact (top_args_read _ _ H2) | right; exact H2].
Qed.

Lemma ready_grows w e x : mem x (sw_ready w) = true -> mem x (sw_ready (sworld_step w e)) = true.
Proof.
  rewrite ready_step. unfold ready_after. cbn [core c_ready].
  destruct e; auto. destruct (_ && _); auto. intros H. unfold mem in *. cbn [existsb]. rewrite H. apply orb_true_r.
Qed.

(* while an entry whose setup failed waits, only its discard is accepted (any other stack / operation / prompt event is
   rejected) *)
Lemma chk08_failed w i tag a tx : sw_failed w = Some i -> chk_C08 w (EUser tag a tx) = true ->
  tag <> T_SETUP -> tag <> T_REFRESH -> tag <> T_SHOW -> tag <> T_CLOSED ->
  tag = T_STACK /\ nth0 a 0 = K_POP /\ nth0 a 1 = i.
Proof.
  unfold chk_C08. intros Hf H N1 N2 N3 N4. apply andb_true_iff in H as [_ H]. rewrite Hf in H.
  apply Nat.eqb_neq in N1, N2, N3, N4. rewrite N1, N2, N3, N4 in H.
  destruct (tag =? T_SETUP_BEGIN)%nat; [rewrite andb_false_r in H; discriminate|].
  destruct ((tag =? T_STACK)%nat && (nth0 a 0 =? K_POP)%nat) eqn:E; [|discriminate].
  apply andb_true_iff in E as [E1 E2]. apply Nat.eqb_eq in E1, E2, H. auto.
Qed.

(* after a failed setup the entry is discarded at once *)
Lemma accepted_failed_discard typed t1 i scr args tx0 tag a tx t2 :
  sok chk_C08 typed (t1 ++ EUser T_SETUP [i; scr; args; 0] tx0 :: EUser tag a tx :: t2) = true ->
  tag <> T_SETUP -> tag <> T_REFRESH -> tag <> T_SHOW -> tag <> T_CLOSED ->
  tag = T_STACK /\ nth0 a 0 = K_POP /\ nth0 a 1 = i.
Proof.
  intros H. change (t1 ++ ?e :: ?l) with (t1 ++ [e] ++ l) in H. rewrite app_assoc in H.
  apply sok_event in H. rewrite fold_left_app in H.
  refine (chk08_failed _ i tag a tx _ H).
  exact (failed_step _ (EUser T_SETUP [i; scr; args; 0] tx0)).
Qed.

Lemma ready_link specs specl typed quit run_empty fuel acts :
  failing_setup_plain specs ->
  (forall n, specs n = nth n specl default_spec) -> wf_session specl quit acts = true ->
  Forall finished (fst (app_run_all specs specl typed quit run_empty fuel acts)) ->
  slink typed (snd (app_run_all specs specl typed quit run_empty fuel acts)).
Proof. intros Hpl _ _. apply stack_link, Hpl. Qed.

Lemma frames_balanced typed specs nscr Ps pf f c s o s' :
  failing_setup_plain specs ->
  (forall x, spec_wf nscr (specs x) = true) ->
  is_prog c = false -> Inv typed true nscr Ps pf s ->
  exec (screen_code specs) f c s = (o, s') ->
  match o with
  | OFuel | OBlocked => acc_tr (chkb true) typed (trace s')
  | _ => Inv typed true nscr Ps pf s' /\ sw_pframes (SW typed s') = pf
  end.
Proof.
  intros Hpl Hw Hc HI E.
  pose proof (exec_inv typed true specs Hpl nscr (fun _ => Hw) Ps pf f c s o s' Hc HI E) as P.
  destruct o as [|x| |]; try exact P; (split; [exact P | eapply Inv_pframes; exact P]).
Qed.

Definition count_tag (tag : nat) (t : list event) : nat :=
  length (filter (fun e => match e with EUser g _ _ => (g =? tag)%nat | _ => false end) t).

(* a draw without a refresh *)
Definition bad_show_without_refresh : list event :=
  [ETop; EUser T_OP [O_SCHEDULE; 0; 0] []; EUser T_STACK [K_ADD_FIRST; 0; 0; 0; 0] [];
   EHandler H_RENDER 0 0; EUser T_SETUP [0; 0; 0; 1] []; EUser T_SHOW [0; 0] []].
Definition good_setup_refresh_show : list event :=
  [ETop; EUser T_OP [O_SCHEDULE; 0; 0] []; EUser T_STACK [K_ADD_FIRST; 0; 0; 0; 0] [];
   EHandler H_RENDER 0 0; EUser T_SETUP [0; 0; 0; 1] []; EUser T_REFRESH [0; 0; 0] []; EUser T_SHOW [0; 0] []].
(* closed() for the entry popped by a replace *)
Definition bad_closed_after_replace : list event :=
  [ETop; EUser T_OP [O_PUSH; 0; 0] []; EUser T_STACK [K_APPEND; 0; 0; 0; 0] [];
   EUser T_OP [O_REPLACE; 1; 0] []; EUser T_STACK [K_POP; 0; 0; 0; 0] []; EUser T_CLOSED [0; 0] []].
(* closed() for the entry popped by close_screen is fine, a second one is not *)
Definition good_closed_after_close : list event :=
  [ETop; EUser T_OP [O_PUSH; 0; 0] []; EUser T_STACK [K_APPEND; 0; 0; 0; 0] [];
   EUser T_OP [O_CLOSE; 0; 0] []; EUser T_STACK [K_POP; 0; 0; 0; 0] []; EUser T_CLOSED [0; 0] []].
Definition bad_closed_twice : list event := good_closed_after_close ++ [EUser T_CLOSED [0; 0] []].
(* close_screen not followed by closed() *)
Definition bad_close_without_closed : list event :=
  [ETop; EUser T_OP [O_PUSH; 0; 0] []; EUser T_STACK [K_APPEND; 0; 0; 0; 0] [];
   EUser T_OP [O_CLOSE; 0; 0] []; EUser T_STACK [K_POP; 0; 0; 0; 0] []; EUser T_MARK [0; 1] []].
(* setup() twice *)
Definition bad_setup_twice : list event :=
  good_setup_refresh_show ++ [EHandlerEnd H_RENDER 0 None; EHandler H_RENDER 1 0; EUser T_SETUP [0; 0; 0; 1] []].
(* a refresh of a screen whose setup failed *)
Definition bad_refresh_after_failed_setup : list event :=
  [ETop; EUser T_OP [O_SCHEDULE; 0; 0] []; EUser T_STACK [K_ADD_FIRST; 0; 0; 0; 0] [];
   EHandler H_RENDER 0 0; EUser T_SETUP [0; 0; 0; 0] []; EUser T_REFRESH [0; 0; 0] []].

(* a setup() that pushes a screen and then reports failure:
   the session of proofs/C04Proofs.v ([fs_specl]): screen 0's setup() pushes screen 1 and reports failure.  The
   scheduler's discard pops the pushed screen, not the failed entry: "an entry whose setup failed is discarded at once"
   is violated (finding: a failing setup() must not have changed the stack) *)
Example C08_failed_setup_after_push_refuted :
  sok chk_C08 fs_typed (rev (trace (snd (app_run_all (fs_specs [false]) (fs_specl [false]) fs_typed None false fs_fuel fs_acts)))) = false.
Proof. exact (proj1 (proj2 fs_failing_run)). Qed.

(* what is popped: the first discard concerns entry 1 (the pushed screen 1), after T_SETUP [0; 0; 0; 0] of entry 0 *)
Example C08_failed_setup_after_push_trace :
  filter (fun e => match e with EUser g _ _ => (g =? T_SETUP)%nat || (g =? T_SETUP_BEGIN)%nat || (g =? T_STACK)%nat | _ => false end)
         (firstn 22 (rev (trace (snd (app_run_all (fs_specs [false]) (fs_specl [false]) fs_typed None false fs_fuel fs_acts))))) =
  [EUser T_STACK [K_ADD_FIRST; 0; 0; 0; 0] []; EUser T_SETUP_BEGIN [0; 0; 0] []; EUser T_STACK [K_APPEND; 1; 1; 0; 0] [];
   EUser T_SETUP [0; 0; 0; 0] []; EUser T_STACK [K_POP; 1; 1; 0; 0] []].
Proof. exact (proj2 (proj2 fs_failing_run)). Qed.

(* the same session with a setup() that succeeds is accepted (and is well formed) *)
Example C08_setup_push_accepted :
  wf_session (fs_specl []) None fs_acts = true /\
  sok chk_C08 fs_typed (rev (trace (snd (app_run_all (fs_specs []) (fs_specl []) fs_typed None false fs_fuel fs_acts)))) = true /\
  fst (app_run_all (fs_specs []) (fs_specl []) fs_typed None false fs_fuel fs_acts) = [ONormal; ONormal].
Proof. vm_compute. repeat split. Qed.

(* this session satisfies the hypothesis of the theorems: the setup() that pushes never reports failure *)
Lemma fs_failing_setup_plain : failing_setup_plain (fs_specs []).
Proof. intros s H. destruct s as [|[|[|s]]]; cbn in H; destruct H. Qed.
(* ... the failing variant does not *)
Lemma fs_not_failing_setup_plain : ~ failing_setup_plain (fs_specs [false]).
Proof. intros H. specialize (H 0 (or_introl eq_refl)). discriminate H. Qed.

(* C05Proofs.v — "a modal screen blocks its caller and shields everything beneath it": the acceptors, and what the
   session proof in C05Input.v needs of them.  In this order:
   - the acceptors [chk_C05_shield_gen] (= chk_C05_gen of ScreenMon.v without its T_INPUT clause, which is [chk_C05_input]);
   - setup() with commands of its own: the hypothesis [setup_cmds_ok] and the relaxed acceptor [relax_setup];
   - the trace hypothesis [no_f13] of the strict form (a modal push returns only after its frame was closed);
   - [vsame] (the part of the world the invariant reads is unchanged) and the classes of user events by tag
     ([inert_tag], [top_tag], [plain_tag], [inert2]): which events leave that part alone, which the shield acceptor ignores;
   - what each T_OP / T_STACK / T_MODAL_RETURN event does to the world rebuilt from the trace ([us_op] ... [us_modal_return]);
   - lists of frames: a call leaves the frames it found in place, none re-opened ([Relw]); the open frames are the modal
     entries of the stack ([ofc], [mei]);
   - [chk_C05_below]: every stack primitive leaves what is beneath an open modal frame in place;
   - the stack machine [wev]: what each T_OP / T_STACK event does to a configuration [wcfg] (pending replace, stack, next
     id, what the world still expects) and to the frames; the world's layer of the invariant: [WB] links the world to a
     configuration, [WJ] the open frames to its modal entries; [wev_ok]: every event of the machine keeps both;
     [wev_below]: it is accepted by [chk_C05_below], because what is beneath a frame is what is beneath its current entry
     in the stack of the configuration ([below_vstack]);
   - Section Screen: the acceptors on the trace of a state ([At], [Keep]); nothing refers to it: C05Input.v works with
     definitions of its own under the same names;
   - [step_not_stack]: the events other than the stack primitives move neither the stack nor a frame's current entry;
     [sok_C05_gen_split]: the acceptors of ScreenMon.v are the proved part and the input clause;
   - [caller_resumes_eq]: the caller of push_screen_modal goes on where it stopped (for props/C05.v);
   - [C05Ex]: the example sessions evaluated in props/C05.v.
   That the acceptors accept the trace of every session is proved in C05Input.v. *)
From SL Require Import Tac.
From RecordUpdate Require Import RecordUpdate.
From SL Require Import PyInt LoopSem ScreenSem ScreenMon proofs.ExecEqs proofs.ListFacts proofs.ScreenFacts.
Import ListNotations.

(* the acceptor that is proved: chk_C05_gen without the T_INPUT clause *)
Definition chk_C05_shield_gen (strict : bool) (w : sworld) (e : event) : bool :=
  match e with
  | EUser tag a _ =>
    if (tag =? T_SETUP)%nat || (tag =? T_REFRESH)%nat || (tag =? T_SHOW)%nat || (tag =? T_SETUP_BEGIN)%nat
    then negb (shielded w (nth0 a 0))
    else if (tag =? T_MODAL_RETURN)%nat then
      match find (fun f => (mf_orig f =? nth0 a 0)%nat) (sw_modal w) with
      | Some f => mf_closed f || negb strict
      | None => false
      end
    else true
  | _ => true
  end.
Definition chk_C05_shield := chk_C05_shield_gen true.
Definition chk_C05_shield_partial := chk_C05_shield_gen false.

Definition chk_C05_input (w : sworld) (e : event) : bool :=
  match e with EUser tag a _ => if (tag =? T_INPUT)%nat then scr_visible w (nth0 a 0) else true | _ => true end.

Lemma chk_C05_gen_split strict w e : chk_C05_gen strict w e = chk_C05_shield_gen strict w e && chk_C05_input w e.
Proof.
  destruct e; try reflexivity. cbn [chk_C05_gen chk_C05_shield_gen chk_C05_input].
  destruct ((tag =? T_SETUP)%nat || (tag =? T_REFRESH)%nat || (tag =? T_SHOW)%nat || (tag =? T_SETUP_BEGIN)%nat) eqn:E1.
  - destruct (tag =? T_INPUT)%nat eqn:E2; [|rewrite andb_true_r; reflexivity].
    apply Nat.eqb_eq in E2; subst tag. discriminate E1.
  - destruct (tag =? T_INPUT)%nat eqn:E2; [|rewrite andb_true_r; reflexivity].
    apply Nat.eqb_eq in E2; subst tag. reflexivity.
Qed.

(* ---- setup() with commands of its own (sc_setup_cmds) ----
   [setup_cmds_ok]: a setup() that runs commands never reports failure (a failing one makes the scheduler discard
   whatever entry is then on top and, for a modal entry, stop its loop: the strict form is false then:
   [C05_failing_setup_with_commands_refuted] of props/C05.v).
   [relax_setup specs chk]: the acceptor [chk] without its clauses for the RETURN of such a setup() (T_SETUP) and for
   the refresh() of a screen with such a setup(): the entry need not be the top of the stack any more, and that it
   is not beneath an open modal frame is not proved here.  The entry of such a setup() (T_SETUP_BEGIN) is checked. *)
Definition has_cmds (sp : screen_spec) : bool := match sc_setup_cmds sp with [] => false | _ => true end.
Definition setup_cmds_ok (specs : nat -> screen_spec) : Prop :=
  forall s n, has_cmds (specs s) = true -> nth_last (sc_setup (specs s)) n = true.
Lemma plain_setup_cmds_ok specs : plain_setup specs -> setup_cmds_ok specs.
Proof. intros H s n E. unfold has_cmds in E. rewrite (H s) in E. discriminate E. Qed.
Definition setup_cmds_okb (l : list screen_spec) : bool :=
  forallb (fun sp => negb (has_cmds sp) || forallb (fun b : bool => b) (sc_setup sp)) l.
Lemma setup_cmds_okb_ok l : setup_cmds_okb l = true -> setup_cmds_ok (fun n => nth n l default_spec).
Proof.
  intros H s n HC. cbv beta in *. destruct (nth_in_or_default s l default_spec) as [Hin|E].
  - unfold setup_cmds_okb in H. rewrite forallb_forall in H. specialize (H _ Hin). rewrite HC in H. cbn [negb orb] in H.
    apply forallb_id_nth_last, H.
  - rewrite E in HC. discriminate HC.
Qed.
Definition relax_setup (specs : nat -> screen_spec) (chk : sworld -> event -> bool) (w : sworld) (e : event) : bool :=
  match e with
  | EUser tag a _ => if ((tag =? T_SETUP)%nat || (tag =? T_REFRESH)%nat) && has_cmds (specs (nth0 a 1)) then true else chk w e
  | _ => chk w e
  end.
Lemma relax_setup_of specs chk w e : chk w e = true -> relax_setup specs chk w e = true.
Proof. intros H. destruct e; cbn [relax_setup]; auto. destruct (_ && _); auto. Qed.
Lemma relax_setup_plain specs chk : plain_setup specs -> forall w e, relax_setup specs chk w e = chk w e.
Proof. intros H w e. destruct e; cbn [relax_setup]; auto. unfold has_cmds. rewrite (H _). rewrite andb_false_r. reflexivity. Qed.

(* ---- the hypothesis of the strict form, decided on the trace: no force_quit, and no nested loop is entered while
   [run_loop = false], that is after the loops have been told to stop (finding F13).
   [h_rl]: the flag [run_loop] as the trace shows it: false after a close_loop (EClosePop) or a force_quit, true again when a
   nested loop has returned or App.run() is entered.  [h_ok]: the hypothesis has held so far; it fails, for good, at a
   force_quit and at an ENewLoopEnter with [h_rl = false] ---- *)
Record hst := { h_ok : bool; h_rl : bool }.
Definition hyp_step (h : hst) (e : event) : hst :=
  match e with
  | EForceQuit => {| h_ok := false; h_rl := false |}
  | ENewLoopEnter _ => {| h_ok := h_ok h && h_rl h; h_rl := h_rl h |}
  | EClosePop _ => {| h_ok := h_ok h; h_rl := false |}
  | ENewLoopReturn _ | ERunEnter => {| h_ok := h_ok h; h_rl := true |}
  | _ => h
  end.
Definition hyp_of (t : list event) : hst := fold_left hyp_step t {| h_ok := true; h_rl := true |}.
Definition no_f13 (t : list event) : bool := h_ok (hyp_of t).

Lemma hyp_step_mono h e : h_ok (hyp_step h e) = true -> h_ok h = true.
Proof. destruct e; cbn; auto; try discriminate. intros H; apply andb_true_iff in H; tauto. Qed.

(* [bal o]: a call that ends with [o] has left no modal frame of its own behind: it returned, or raised an error (no error
   leaves a nested loop).  ExitMainLoop, SystemExit, a blocked read and the end of the fuel unwind through open frames *)
Definition bal (o : outcome) : bool := match o with ONormal | OThrow XError => true | _ => false end.

Definition is_user (e : event) : bool := match e with EUser _ _ _ => true | _ => false end.

(* [vsame w w']: the part of the world that the invariant reads is the same.  Of what an operation still expects
   ([sw_expect]) it reads only that nothing is expected between two operations, so [w'] may also have dropped it: the end of
   a handler and ETop do *)
Definition vsame (w w' : sworld) : Prop :=
  sw_stack w' = sw_stack w /\ sw_modal w' = sw_modal w /\ sw_replaced w' = sw_replaced w /\
  (sw_expect w' = sw_expect w \/ sw_expect w' = []).
Lemma vsame_refl w : vsame w w. Proof. repeat split; auto. Qed.
Lemma vsame_trans w1 w2 w3 : vsame w1 w2 -> vsame w2 w3 -> vsame w1 w3.
Proof.
  intros (A1 & A2 & A3 & A4) (B1 & B2 & B3 & B4). repeat split; try congruence.
  destruct B4 as [B4|B4]; [|right; exact B4]. destruct A4 as [A4|A4]; [left|right]; congruence.
Qed.

Lemma step_loop_vsame w e : is_user e = false -> vsame w (sworld_step w e).
Proof.
  intros N. destruct e; try discriminate N; cbn [sworld_step]; unfold vsame;
  repeat match goal with
         | |- context [if ?b then _ else _] => destruct b
         | |- context [match ?x with _ => _ end] => destruct x
         end; cbn; auto.
Qed.

(* ---- classes of user events, by tag ----
   [inert_tag]: the world keeps its stack, frames and pending replace ([step_inert_vsame]): every tag but T_OP, T_STACK,
   T_MODAL_RETURN *)
Definition inert_tag (tag : nat) : bool :=
  negb ((tag =? T_OP)%nat || (tag =? T_STACK)%nat || (tag =? T_MODAL_RETURN)%nat).

Lemma vsame_if w (b : bool) x y : vsame w x -> vsame w y -> vsame w (if b then x else y).
Proof. destruct b; auto. Qed.
Lemma vsame_if_false w (b : bool) x y : b = false -> vsame w y -> vsame w (if b then x else y).
Proof. intros ->. auto. Qed.
(* the branches are taken apart before anything is computed, so that each case is about one small record; rewriting
   with the three hypotheses instead would abstract the whole body of [user_step] three times *)
Lemma step_inert_vsame w tag a text : inert_tag tag = true -> vsame w (user_step w tag a text).
Proof.
  unfold inert_tag. intros N. apply negb_true_iff in N. apply orb_false_iff in N. destruct N as [N N3].
  apply orb_false_iff in N. destruct N as [N1 N2].
  unfold user_step. cbv zeta. apply (vsame_if_false _ _ _ _ N1), (vsame_if_false _ _ _ _ N2).
  repeat first [apply (vsame_if_false _ _ _ _ N3)|apply vsame_if].
  all: try (destruct (alookup _ _) as [[? ?]|]).
  all: split; [reflexivity|split; [reflexivity|split; [reflexivity|left; reflexivity]]].
Qed.

Lemma inert_not_stack tag : inert_tag tag = true -> (tag =? T_STACK)%nat = false.
Proof. unfold inert_tag. destruct (tag =? T_OP)%nat, (tag =? T_STACK)%nat; cbn; congruence. Qed.

(* [top_tag]: the callbacks of an entry (setup() entered and returned, refresh(), show_all()): the shield acceptor asks that
   the entry be not beneath an open frame *)
Definition top_tag (tag : nat) : bool :=
  (tag =? T_SETUP)%nat || (tag =? T_REFRESH)%nat || (tag =? T_SHOW)%nat || (tag =? T_SETUP_BEGIN)%nat.
Lemma top_tag_cases tag : top_tag tag = true -> tag = T_SETUP \/ tag = T_REFRESH \/ tag = T_SHOW \/ tag = T_SETUP_BEGIN.
Proof. unfold top_tag. rewrite !orb_true_iff, !Nat.eqb_eq. tauto. Qed.
(* [plain_tag]: the shield acceptor does not look at the event *)
Definition plain_tag (tag : nat) : bool := negb (top_tag tag || (tag =? T_MODAL_RETURN)%nat).
Lemma chk_plain b w tag a t : plain_tag tag = true -> chk_C05_shield_gen b w (EUser tag a t) = true.
Proof.
  unfold plain_tag, top_tag. intros H. apply negb_true_iff in H. apply orb_false_iff in H. destruct H as [H1 H2].
  cbn [chk_C05_shield_gen]. rewrite H1, H2. reflexivity.
Qed.
(* [inert2]: both: the world keeps its stack and frames and the shield acceptor does not look *)
Definition inert2 (tag : nat) : bool := inert_tag tag && negb (top_tag tag).
Lemma inert2_plain tag : inert2 tag = true -> plain_tag tag = true.
Proof.
  unfold inert2, inert_tag, plain_tag. destruct (top_tag tag), (tag =? T_MODAL_RETURN)%nat; rewrite ?orb_true_r, ?andb_false_r; auto.
Qed.

Lemma pos_of_app_notin id l1 l2 : forall i, ~ In id (map en_id l1) -> pos_of id (l1 ++ l2) i = pos_of id l2 (i + length l1).
Proof.
  induction l1 as [|e r IH]; intros i N; cbn [app pos_of length]; [rewrite Nat.add_0_r; reflexivity|].
  cbn [map] in N. destruct (en_id e =? id)%nat eqn:E; [apply Nat.eqb_eq in E; exfalso; apply N; left; exact E|].
  rewrite IH by (intros H; apply N; right; exact H). f_equal. lia.
Qed.
Lemma pos_of_lt_in id l1 l2 : forall i p, pos_of id (l1 ++ l2) i = Some p -> p < i + length l1 -> In id (map en_id l1).
Proof.
  induction l1 as [|e r IH]; intros i p H Hp; cbn [app pos_of length map] in *.
  - exfalso. revert i p H Hp. induction l2 as [|e r IH]; intros i p H Hp; cbn [pos_of] in H; [discriminate|].
    destruct (en_id e =? id)%nat; [injection H as <-; lia|]. apply (IH (S i) p H). lia.
  - destruct (en_id e =? id)%nat eqn:E; [left; apply Nat.eqb_eq, E|]. right. apply (IH (S i) p H). lia.
Qed.
Lemma shielded_above w id l1 e l2 : sw_stack w = l1 ++ e :: l2 -> en_id e = id -> ~ In id (map en_id l1) -> shielded w id = true ->
  exists f, In f (sw_modal w) /\ mf_closed f = false /\ In (mf_cur f) (map en_id l1).
Proof.
  intros E I N H. unfold shielded in H. apply existsb_exists in H. destruct H as (f & Hf & H).
  apply andb_true_iff in H. destruct H as [C H]. apply negb_true_iff in C. exists f. split; [exact Hf|split; [exact C|]].
  rewrite E, (pos_of_app_notin id l1 _ 0 N) in H. cbn [pos_of] in H. rewrite I, Nat.eqb_refl in H.
  destruct (pos_of (mf_cur f) (l1 ++ e :: l2) 0) as [pf|] eqn:Pf; [|discriminate H].
  apply Nat.ltb_lt in H. exact (pos_of_lt_in _ _ _ _ _ Pf H).
Qed.
Lemma shielded_top w e r id : sw_stack w = e :: r -> en_id e = id -> shielded w id = false.
Proof.
  intros E I. apply not_true_iff_false. intros H.
  destruct (shielded_above w id [] e r E I (fun x => x) H) as (f & _ & _ & []).
Qed.
Lemma chk_shield_top b w tag a t e r : top_tag tag = true -> sw_stack w = e :: r -> en_id e = nth0 a 0 ->
  chk_C05_shield_gen b w (EUser tag a t) = true.
Proof. intros HT E I. unfold top_tag in HT. cbn [chk_C05_shield_gen]. rewrite HT, (shielded_top w e r _ E I). reflexivity. Qed.

Definition e_of (d : sdata) : entry := {| en_id := sd_id d; en_scr := sd_scr d; en_args := sd_args d; en_modal := sd_modal d |}.
Lemma e_of_modal d : en_modal (e_of d) = sd_modal d. Proof. reflexivity. Qed.
Lemma e_of_id d : en_id (e_of d) = sd_id d. Proof. reflexivity. Qed.

Lemma us_op w k scr ar text : let w' := user_step w T_OP [k; scr; ar] text in
  sw_stack w' = sw_stack w /\ sw_modal w' = sw_modal w /\ sw_replaced w' = sw_replaced w /\
  sw_expect w' = op_exp k scr ar match sw_stack w with [] => false | _ => true end.
Proof. cbn. repeat split. Qed.

Definition close_cur (id : nat) (l : list mframe) : list mframe :=
  map (fun f => if (mf_cur f =? id)%nat then f <| mf_closed := true |> else f) l.
Definition rename_cur (old new : nat) (l : list mframe) : list mframe :=
  map (fun f => if (mf_cur f =? old)%nat then f <| mf_cur := new |> else f) l.

Lemma us_append w d text : let w' := user_step w T_STACK (sargs K_APPEND d) text in
  sw_stack w' = e_of d :: sw_stack w /\ sw_expect w' = tl (sw_expect w) /\ sw_replaced w' = None /\
  sw_modal w' = match sw_replaced w with
                | Some old => rename_cur old (sd_id d) (sw_modal w)
                | None => if sd_modal d then {| mf_orig := sd_id d; mf_cur := sd_id d; mf_closed := false |} :: sw_modal w
                          else sw_modal w
                end.
Proof.
  unfold sargs. cbn. rewrite b2n_eqb. fold (e_of d).
  destruct (sw_replaced w) eqn:R; cbn; [repeat split|].
  destruct d as [i sc ar m]; cbn. destruct m; cbn; rewrite ?R; repeat split.
Qed.

Lemma us_addfirst w d text : let w' := user_step w T_STACK (sargs K_ADD_FIRST d) text in
  sw_stack w' = sw_stack w ++ [e_of d] /\ sw_expect w' = tl (sw_expect w) /\ sw_replaced w' = sw_replaced w /\
  sw_modal w' = sw_modal w.
Proof. unfold sargs. cbn. rewrite b2n_eqb. fold (e_of d). repeat split. Qed.

Lemma us_pop w d text : let w' := user_step w T_STACK (sargs K_POP d) text in
  sw_stack w' = tl (sw_stack w) /\
  match sw_expect w with
  | XPop true :: r => sw_expect w' = r /\ sw_replaced w' = sw_replaced w /\ sw_modal w' = close_cur (sd_id d) (sw_modal w)
  | XPop false :: r => sw_expect w' = r /\ sw_replaced w' = Some (sd_id d) /\ sw_modal w' = sw_modal w
  | _ => sw_expect w' = sw_expect w /\ sw_replaced w' = sw_replaced w /\ sw_modal w' = close_cur (sd_id d) (sw_modal w)
  end.
Proof.
  unfold sargs. cbn. destruct (sw_expect w) as [|[[|]| |] r] eqn:E; cbn; rewrite ?E; repeat split.
Qed.

Lemma us_modal_return w id scr text : let w' := user_step w T_MODAL_RETURN [id; scr] text in
  sw_stack w' = sw_stack w /\ sw_expect w' = sw_expect w /\ sw_replaced w' = sw_replaced w /\
  sw_modal w' = remove_first (fun f => (mf_orig f =? id)%nat) (sw_modal w).
Proof. cbn. repeat split. Qed.

Definition openf (f : mframe) : bool := negb (mf_closed f).
Definition ofc (l : list mframe) : list nat := map mf_cur (filter openf l).
Definition mei (st : list entry) : list nat := map en_id (filter en_modal st).
Definition head_closed (l : list mframe) : Prop := match l with [] => True | f :: _ => mf_closed f = true end.
Definition frame_le (f f' : mframe) : Prop := mf_orig f = mf_orig f' /\ (mf_closed f = true -> mf_closed f' = true).

Lemma frame_le_refl f : frame_le f f. Proof. split; auto. Qed.
Lemma frames_le_refl l : Forall2 frame_le l l.
Proof. induction l; constructor; auto using frame_le_refl. Qed.
Lemma frames_le_trans l1 : forall l2 l3, Forall2 frame_le l1 l2 -> Forall2 frame_le l2 l3 -> Forall2 frame_le l1 l3.
Proof.
  induction l1 as [|a r IH]; intros l2 l3 H12 H23.
  - inversion H12; subst. inversion H23; subst. constructor.
  - inversion H12 as [|a' b l l' Hab Hr]; subst. inversion H23 as [|b' c m m' Hbc Hr']; subst. constructor.
    + destruct Hab as [E1 C1], Hbc as [E2 C2]. split; [congruence|auto].
    + eapply IH; eauto.
Qed.
Lemma frames_le_map (g : mframe -> mframe) l : (forall f, frame_le f (g f)) -> Forall2 frame_le l (map g l).
Proof. intros H. induction l; cbn; constructor; auto. Qed.
Lemma frames_le_close id l : Forall2 frame_le l (close_cur id l).
Proof. apply frames_le_map. intros f. destruct (mf_cur f =? id)%nat; [split; cbn; auto|apply frame_le_refl]. Qed.
Lemma frames_le_rename o n l : Forall2 frame_le l (rename_cur o n l).
Proof. apply frames_le_map. intros f. destruct (mf_cur f =? o)%nat; [split; cbn; auto|apply frame_le_refl]. Qed.

(* [Relw b w w']: the frames of [w] are still there in [w'], in the same order, none re-opened, behind the frames opened
   since; [b = true]: none was opened since (what a call that ends with [bal o = true] leaves) *)
Definition Relw (b : bool) (w w' : sworld) : Prop :=
  exists new old', sw_modal w' = new ++ old' /\ Forall2 frame_le (sw_modal w) old' /\ (b = true -> new = []).

Lemma Relw_refl b w : Relw b w w.
Proof. exists [], (sw_modal w). split; [reflexivity|split; [apply frames_le_refl|auto]]. Qed.
Lemma Relw_modal b w w' : Forall2 frame_le (sw_modal w) (sw_modal w') -> Relw b w w'.
Proof. intros H. exists [], (sw_modal w'). split; [reflexivity|split; auto]. Qed.
Lemma Relw_trans b1 b2 w w1 w2 : Relw b1 w w1 -> Relw b2 w1 w2 -> Relw (b1 && b2) w w2.
Proof.
  intros (n1 & o1 & E1 & F1 & B1) (n2 & o2 & E2 & F2 & B2). rewrite E1 in F2.
  apply Forall2_app_inv_l in F2. destruct F2 as (o2a & o2b & Fa & Fb & ->).
  exists (n2 ++ o2a), o2b. split; [rewrite E2, app_assoc; reflexivity|]. split; [eapply frames_le_trans; eauto|].
  intros B. apply andb_true_iff in B. destruct B as [T1 T2]. rewrite (B2 T2). rewrite (B1 T1) in Fa. inversion Fa. reflexivity.
Qed.
Lemma Relw_weaken b w w' : Relw true w w' -> Relw b w w'.
Proof. intros (n & o & E & F & B). exists n, o. split; [exact E|split; [exact F|intros _; auto]]. Qed.
Lemma Relw_trans_l b w w1 w2 : Relw true w w1 -> Relw b w1 w2 -> Relw b w w2.
Proof. intros H1 H2. exact (Relw_trans true b _ _ _ H1 H2). Qed.
Lemma Relw_trans_r b w w1 w2 : Relw b w w1 -> Relw true w1 w2 -> Relw b w w2.
Proof. intros H1 H2. pose proof (Relw_trans b true _ _ _ H1 H2) as H. rewrite andb_true_r in H. exact H. Qed.
Lemma head_closed_le l l' : Forall2 frame_le l l' -> head_closed l -> head_closed l'.
Proof. intros F H. destruct F as [|f f' r r' [_ C] _]; cbn in *; auto. Qed.
Lemma Relw_head_closed w w' : Relw true w w' -> head_closed (sw_modal w) -> head_closed (sw_modal w').
Proof. intros (n & o & E & F & B). rewrite E, (B eq_refl). apply head_closed_le, F. Qed.

Lemma ofc_close id l : ofc (close_cur id l) = filter (fun c => negb (c =? id)%nat) (ofc l).
Proof.
  unfold ofc, close_cur, openf. induction l as [|f r IH]; cbn; [reflexivity|].
  destruct (mf_cur f =? id)%nat eqn:E; cbn.
  - destruct (mf_closed f); cbn; rewrite ?E; cbn; exact IH.
  - destruct (mf_closed f); cbn; rewrite ?E; cbn; [exact IH|f_equal; exact IH].
Qed.
Lemma ofc_rename o n l : ofc (rename_cur o n l) = map (fun c => if (c =? o)%nat then n else c) (ofc l).
Proof.
  unfold ofc, rename_cur, openf. induction l as [|f r IH]; cbn; [reflexivity|].
  destruct (mf_cur f =? o)%nat eqn:E; cbn; destruct (mf_closed f); cbn; rewrite ?E; try exact IH; f_equal; exact IH.
Qed.
Lemma ofc_remove_closed p l f : find p l = Some f -> mf_closed f = true -> ofc (remove_first p l) = ofc l.
Proof.
  unfold ofc. induction l as [|x r IH]; cbn; [discriminate|].
  destruct (p x) eqn:P.
  - intros H C. injection H as ->. unfold openf at 2. rewrite C. reflexivity.
  - intros H C. cbn. destruct (openf x); cbn; [f_equal|]; apply IH; assumption.
Qed.
Lemma mei_in x st : In x (mei st) -> In x (map en_id st).
Proof.
  unfold mei. intros H. apply in_map_iff in H. destruct H as (e & <- & He). apply filter_In in He. apply in_map, He.
Qed.
Lemma mei_app st e : en_modal e = false -> mei (st ++ [e]) = mei st.
Proof. intros H. unfold mei. rewrite filter_app. cbn. rewrite H. rewrite app_nil_r. reflexivity. Qed.
Lemma map_e_of_id l : map en_id (map e_of l) = map sd_id l.
Proof. rewrite map_map. reflexivity. Qed.
Definition frame_of (d : sdata) : mframe := {| mf_orig := sd_id d; mf_cur := sd_id d; mf_closed := false |}.
Lemma mei_cons e st : mei (e :: st) = if en_modal e then en_id e :: mei st else mei st.
Proof. unfold mei. cbn. destruct (en_modal e); reflexivity. Qed.
Lemma nodup_not_in_mei e st : NoDup (map en_id (e :: st)) -> ~ In (en_id e) (mei st).
Proof. cbn. intros N H. inversion N; subst. apply mei_in in H. contradiction. Qed.
Lemma map_ren_noop o nw l : ~ In o l -> map (fun c => if (c =? o)%nat then nw else c) l = l.
Proof.
  intros H. apply map_noop. intros x Hx. destruct (x =? o)%nat eqn:E; [|reflexivity]. apply Nat.eqb_eq in E; subst. contradiction.
Qed.
Lemma J_close l e st : ofc l = mei (e :: st) -> NoDup (map en_id (e :: st)) -> ofc (close_cur (en_id e) l) = mei st.
Proof.
  intros J N. pose proof (nodup_not_in_mei _ _ N) as NI. rewrite ofc_close, J, mei_cons.
  destruct (en_modal e); cbn [filter]; rewrite ?Nat.eqb_refl; cbn [negb]; apply filter_neq_noop, NI.
Qed.
Lemma J_rename l e e' st : ofc l = mei (e :: st) -> NoDup (map en_id (e :: st)) -> en_modal e' = en_modal e ->
  ofc (rename_cur (en_id e) (en_id e') l) = mei (e' :: st).
Proof.
  intros J N M. pose proof (nodup_not_in_mei _ _ N) as NI. rewrite ofc_rename, J, !mei_cons, M.
  destruct (en_modal e); cbn [map]; rewrite ?Nat.eqb_refl; [f_equal|]; apply map_ren_noop, NI.
Qed.
Lemma head_closed_close id l rest : ofc l = id :: rest -> head_closed (close_cur id l).
Proof.
  destruct l as [|f r]; [discriminate|]. unfold ofc, openf. cbn [filter close_cur map head_closed].
  destruct (mf_closed f) eqn:C; cbn [negb map].
  - intros _. destruct (mf_cur f =? id)%nat; [reflexivity|exact C].
  - intros H. injection H as -> _. rewrite Nat.eqb_refl. reflexivity.
Qed.
Lemma map_orig_rename o nw l : map mf_orig (rename_cur o nw l) = map mf_orig l.
Proof. unfold rename_cur. rewrite map_map. apply map_ext. intros f. destruct (mf_cur f =? o)%nat; reflexivity. Qed.
Lemma map_orig_close id l : map mf_orig (close_cur id l) = map mf_orig l.
Proof. unfold close_cur. rewrite map_map. apply map_ext. intros f. destruct (mf_cur f =? id)%nat; reflexivity. Qed.

Definition entry_eqb (a b : entry) : bool :=
  (en_id a =? en_id b)%nat && (en_scr a =? en_scr b)%nat && (en_args a =? en_args b)%nat && Bool.eqb (en_modal a) (en_modal b).
Fixpoint is_prefix (a b : list entry) : bool :=
  match a, b with
  | [], _ => true
  | x :: r, y :: r' => entry_eqb x y && is_prefix r r'
  | _ :: _, [] => false
  end.
Fixpoint beneath (st : list entry) (id : nat) : list entry :=
  match st with [] => [] | e :: r => if (en_id e =? id)%nat then r else beneath r id end.
(* [below w f]: the entries strictly beneath the current entry of frame [f] (in the middle of a replace,
   when the entry has just been popped: the whole stack) *)
Definition below (w : sworld) (f : mframe) : list entry :=
  match sw_replaced w with
  | Some old => if (old =? mf_cur f)%nat then sw_stack w else beneath (sw_stack w) (mf_cur f)
  | None => beneath (sw_stack w) (mf_cur f)
  end.
(* every stack primitive leaves what is beneath an open modal frame in place: for every frame open before
   the event and still open after it, the entries beneath its current entry (it or what replaced it) are the
   same, in the same order, with possibly more entries at the very bottom (add_first) *)
Definition chk_C05_below (w : sworld) (e : event) : bool :=
  match e with
  | EUser tag a _ =>
    if (tag =? T_STACK)%nat then
      let w' := sworld_step w e in
      forallb (fun f => mf_closed f ||
                 match find (fun f' => (mf_orig f' =? mf_orig f)%nat) (sw_modal w') with
                 | Some f' => mf_closed f' || is_prefix (below w f) (below w' f')
                 | None => true
                 end) (sw_modal w)
    else true
  | _ => true
  end.

Lemma entry_eqb_refl a : entry_eqb a a = true.
Proof. unfold entry_eqb. rewrite !Nat.eqb_refl, eqb_reflx. reflexivity. Qed.
Lemma is_prefix_app a x : is_prefix a (a ++ x) = true.
Proof. induction a as [|e r IH]; cbn; [reflexivity|]. rewrite entry_eqb_refl, IH. reflexivity. Qed.
Lemma is_prefix_refl a : is_prefix a a = true.
Proof. rewrite <- (app_nil_r a) at 2. apply is_prefix_app. Qed.

Lemma beneath_cons_ne e st id : en_id e <> id -> beneath (e :: st) id = beneath st id.
Proof. intros H. cbn. apply Nat.eqb_neq in H. rewrite H. reflexivity. Qed.
Lemma beneath_cons_eq e st : beneath (e :: st) (en_id e) = st.
Proof. cbn. rewrite Nat.eqb_refl. reflexivity. Qed.
Lemma beneath_app st x id : In id (map en_id st) -> beneath (st ++ x) id = beneath st id ++ x.
Proof.
  induction st as [|e r IH]; cbn; [tauto|]. destruct (en_id e =? id)%nat eqn:E; [reflexivity|].
  intros [H|H]; [apply Nat.eqb_neq in E; contradiction|apply IH, H].
Qed.

Lemma find_orig l f : NoDup (map mf_orig l) -> In f l -> find (fun f' => (mf_orig f' =? mf_orig f)%nat) l = Some f.
Proof.
  induction l as [|x r IH]; cbn; intros N H; [destruct H|]. inversion N as [|? ? Nx Nr]; subst.
  destruct H as [->|H]; [rewrite Nat.eqb_refl; reflexivity|].
  destruct (mf_orig x =? mf_orig f)%nat eqn:E; [|apply IH; assumption].
  apply Nat.eqb_eq in E. exfalso. apply Nx. rewrite E. apply in_map, H.
Qed.

Lemma chk_below_not_stack w tag a t : (tag =? T_STACK)%nat = false -> chk_C05_below w (EUser tag a t) = true.
Proof. intros H. cbn [chk_C05_below]. rewrite H. reflexivity. Qed.

(* The configuration that the T_OP / T_STACK events drive.  [c_stk], [c_nxt]: the concrete stack and the next entry id.
   [c_pend]: the entry popped by a replace whose append is still to come; for the frames it still counts as the top of the
   stack, so that a replace is a pop followed by an append and each of the two keeps what is said here.  [c_exp]: what the
   world still expects of the operation under way *)
Record wcfg := { c_pend : option sdata; c_stk : list sdata; c_nxt : nat; c_exp : list sexp }.
Definition vstack (c : wcfg) : list sdata := match c_pend c with Some p => p :: c_stk c | None => c_stk c end.
(* [wev c e F c']: event [e] takes configuration [c] to [c'] and the frames [l] to [F l].  The replacement takes over the
   frames of the replaced entry, and is modal if that was; the pops that close an entry are close_screen's and the discard
   after a failed setup *)
Inductive wev : wcfg -> event -> (list mframe -> list mframe) -> wcfg -> Prop :=
| wev_op stk nxt x k sc a t :
    wev (Build_wcfg None stk nxt x) (EUser T_OP [k; sc; a] t) (fun l => l)
        (Build_wcfg None stk nxt (op_exp k sc a (match stk with [] => false | _ => true end)))
| wev_push stk nxt x d t : sd_id d = nxt ->
    wev (Build_wcfg None stk nxt [x]) (EUser T_STACK (sargs K_APPEND d) t)
        (app (if sd_modal d then [frame_of d] else [])) (Build_wcfg None (d :: stk) (S nxt) [])
| wev_repl top stk nxt x d t : sd_id d = nxt -> sd_modal d = sd_modal top ->
    wev (Build_wcfg (Some top) stk nxt [x]) (EUser T_STACK (sargs K_APPEND d) t)
        (rename_cur (sd_id top) (sd_id d)) (Build_wcfg None (d :: stk) (S nxt) [])
| wev_sched stk nxt x d t : sd_id d = nxt -> sd_modal d = false ->
    wev (Build_wcfg None stk nxt [x]) (EUser T_STACK (sargs K_ADD_FIRST d) t) (fun l => l)
        (Build_wcfg None (stk ++ [d]) (S nxt) [])
| wev_pop_repl top r nxt rest t :
    wev (Build_wcfg None (top :: r) nxt (XPop false :: rest)) (EUser T_STACK (sargs K_POP top) t) (fun l => l)
        (Build_wcfg (Some top) r nxt rest)
| wev_pop_close top r nxt x t : x = [XPop true] \/ x = [] ->
    wev (Build_wcfg None (top :: r) nxt x) (EUser T_STACK (sargs K_POP top) t) (close_cur (sd_id top))
        (Build_wcfg None r nxt []).

(* what the world says of a configuration *)
Record WB (c : wcfg) (w : sworld) : Prop := {
  w_stack : sw_stack w = map e_of (c_stk c);
  w_repl : sw_replaced w = option_map sd_id (c_pend c);
  w_expect : sw_expect w = c_exp c;
  w_ids : fresh_below (c_nxt c) (map sd_id (vstack c));
  w_origs : fresh_below (c_nxt c) (map mf_orig (sw_modal w));
  w_fmodal : forall f, In f (sw_modal w) -> mf_closed f = false ->
             exists d, In d (vstack c) /\ sd_id d = mf_cur f /\ sd_modal d = true }.
(* the open frames are the modal entries, in order *)
Definition WJ (c : wcfg) (w : sworld) : Prop := ofc (sw_modal w) = mei (map e_of (vstack c)).

Lemma WB_same c w w' : sw_stack w' = sw_stack w -> sw_modal w' = sw_modal w -> sw_replaced w' = sw_replaced w ->
  sw_expect w' = sw_expect w -> WB c w -> WB c w'.
Proof. intros E1 E2 E3 E4 []. split; rewrite ?E1, ?E2, ?E3, ?E4; assumption. Qed.

Lemma WJ_ext c c' w w' : vstack c' = vstack c -> sw_modal w' = sw_modal w -> WJ c w -> WJ c' w'.
Proof. unfold WJ. intros -> ->. auto. Qed.
Lemma WJ_head_closed stk nxt x w top : WJ (Build_wcfg None (top :: stk) nxt x) w -> sd_modal top = true ->
  head_closed (close_cur (sd_id top) (sw_modal w)).
Proof. unfold WJ, vstack. cbn [c_pend c_stk map]. rewrite mei_cons. cbn [e_of en_modal en_id]. intros J M. rewrite M in J. eapply head_closed_close, J. Qed.

Theorem wev_ok c e F c' w : wev c e F c' -> WB c w ->
  WB c' (sworld_step w e) /\ sw_modal (sworld_step w e) = F (sw_modal w) /\ (WJ c w -> WJ c' (sworld_step w e)).
Proof.
  intros V B. pose proof B as [B1 B2 BE B3 B5 B7].
  destruct V as [stk nxt x k sc a t|stk nxt x d t D|top stk nxt x d t D M|stk nxt x d t D M|top r nxt rest t|top r nxt x t X];
    cbn [sworld_step]; unfold WJ, vstack in *; cbn [c_pend c_stk c_nxt c_exp option_map map] in *.
  - destruct (us_op w k sc a t) as (O1 & O2 & O3 & O4). rewrite B1 in O4.
    split; [|split; [exact O2|rewrite O2; auto]].
    split; unfold vstack; cbn [c_pend c_stk c_nxt c_exp option_map]; rewrite ?O1, ?O2, ?O3; auto.
    rewrite O4. destruct stk; reflexivity.
  - subst nxt. destruct (us_append w d t) as (P1 & P2 & P3 & P4). rewrite B2 in P4. set (w' := user_step w T_STACK (sargs K_APPEND d) t) in *.
    assert (EM : sw_modal w' = (if sd_modal d then [frame_of d] else []) ++ sw_modal w) by (rewrite P4; destruct (sd_modal d); reflexivity).
    split; [|split; [exact EM|]].
    + split; unfold vstack; cbn [c_pend c_stk c_nxt c_exp option_map]; rewrite ?P1, ?P2, ?P3, ?EM.
      * cbn [map]. rewrite B1. reflexivity.
      * reflexivity.
      * rewrite BE. reflexivity.
      * apply (fb_cons _ _ B3).
      * rewrite map_app. destruct (sd_modal d); [apply (fb_cons _ _ B5)|apply fb_S, B5].
      * intros f Hf C. apply in_app_or in Hf. destruct Hf as [Hf|Hf].
        -- destruct (sd_modal d) eqn:M; [|destruct Hf]. destruct Hf as [<-|[]]. exists d. split; [left; reflexivity|split; [reflexivity|exact M]].
        -- destruct (B7 f Hf C) as (d0 & H0 & E0). exists d0. split; [right; exact H0|exact E0].
    + intros J. rewrite EM, mei_cons. cbn [e_of en_modal en_id]. destruct (sd_modal d); cbn [app]; [|exact J].
      change (ofc (frame_of d :: sw_modal w)) with (sd_id d :: ofc (sw_modal w)). rewrite J. reflexivity.
  - subst nxt. destruct (us_append w d t) as (P1 & P2 & P3 & P4). rewrite B2 in P4. set (w' := user_step w T_STACK (sargs K_APPEND d) t) in *.
    pose proof (proj1 B3) as Nd. pose proof (proj1 (proj1 (NoDup_cons_iff _ _) Nd)) as Nt.
    split; [|split; [exact P4|]].
    + split; unfold vstack; cbn [c_pend c_stk c_nxt c_exp option_map]; rewrite ?P1, ?P2, ?P3, ?P4.
      * cbn [map]. rewrite B1. reflexivity.
      * reflexivity.
      * rewrite BE. reflexivity.
      * apply (fb_cons _ _ (fb_tail _ _ _ B3)).
      * rewrite map_orig_rename. apply fb_S, B5.
      * intros f' Hf' C'. unfold rename_cur in Hf'. apply in_map_iff in Hf'. destruct Hf' as (f & <- & Hf).
        destruct (mf_cur f =? sd_id top)%nat eqn:E; destruct (B7 f Hf C') as (d0 & [<-|H0] & E0 & M0).
        -- exists d. split; [left; reflexivity|split; [reflexivity|rewrite M; exact M0]].
        -- exfalso. apply Nt. apply Nat.eqb_eq in E. rewrite <- E, <- E0. apply in_map, H0.
        -- apply Nat.eqb_neq in E. congruence.
        -- exists d0. split; [right; exact H0|split; assumption].
    + intros J. rewrite P4. apply (J_rename _ (e_of top) (e_of d) (map e_of stk)); [exact J| |exact M].
      cbn [map]. rewrite map_e_of_id. exact Nd.
  - subst nxt. destruct (us_addfirst w d t) as (P1 & P2 & P3 & P4). set (w' := user_step w T_STACK (sargs K_ADD_FIRST d) t) in *.
    split; [|split; [exact P4|]].
    + split; unfold vstack; cbn [c_pend c_stk c_nxt c_exp option_map]; rewrite ?P1, ?P2, ?P3, ?P4; auto.
      * rewrite map_app, B1. reflexivity.
      * rewrite BE. reflexivity.
      * rewrite map_app. apply (fb_snoc _ _ B3).
      * apply fb_S, B5.
      * intros f Hf C. destruct (B7 f Hf C) as (d0 & H0 & E0). exists d0. split; [apply in_or_app; left; exact H0|exact E0].
    + intros J. rewrite P4, map_app. cbn [map]. rewrite mei_app by exact M. exact J.
  - destruct (us_pop w top t) as (Q1 & Q2). rewrite BE in Q2. destruct Q2 as (Q2 & Q3 & Q4). rewrite B1 in Q1.
    set (w' := user_step w T_STACK (sargs K_POP top) t) in *.
    split; [|split; [exact Q4|rewrite Q4; auto]].
    split; unfold vstack; cbn [c_pend c_stk c_nxt c_exp option_map]; rewrite ?Q1, ?Q2, ?Q3, ?Q4; auto.
  - destruct (us_pop w top t) as (Q1 & Q2). rewrite B1 in Q1. cbn [tl] in Q1. set (w' := user_step w T_STACK (sargs K_POP top) t) in *.
    assert (Q : sw_expect w' = [] /\ sw_replaced w' = sw_replaced w /\ sw_modal w' = close_cur (sd_id top) (sw_modal w))
      by (destruct X as [-> | ->]; rewrite BE in Q2; exact Q2).
    destruct Q as (Q0 & Q3 & Q4).
    split; [|split; [exact Q4|]].
    + split; unfold vstack; cbn [c_pend c_stk c_nxt c_exp option_map]; rewrite ?Q0, ?Q1, ?Q3, ?Q4; auto.
      * apply (fb_tail _ _ _ B3).
      * rewrite map_orig_close. exact B5.
      * intros f' Hf' C'. unfold close_cur in Hf'. apply in_map_iff in Hf'. destruct Hf' as (f & <- & Hf).
        destruct (mf_cur f =? sd_id top)%nat eqn:E; [discriminate C'|].
        destruct (B7 f Hf C') as (d0 & [<-|H0] & E0 & M0); [apply Nat.eqb_neq in E; congruence|]. exists d0. auto.
    + intros J. rewrite Q4. apply (J_close _ (e_of top) (map e_of r)); [exact J|]. cbn [map]. rewrite map_e_of_id. apply B3.
Qed.

(* for the frames the entry popped by a replace still is the top of the stack *)
Lemma below_vstack c w f : WB c w -> below w f = beneath (map e_of (vstack c)) (mf_cur f).
Proof. intros [B1 B2 _ _ _ _]. unfold below, vstack. rewrite B1, B2. destruct (c_pend c); reflexivity. Qed.

(* the frames after a stack primitive: new ones in front of the old ones, each taken to one opened by the same push, which
   is the only such frame since the pushes of the frames after the step are distinct too; what is left to show is that a
   frame still open, its current entry [d], has beneath it what it had *)
Lemma chk_below_cfg c c' w a t new (g : mframe -> mframe) :
  WB c w -> WB c' (user_step w T_STACK a t) ->
  sw_modal (user_step w T_STACK a t) = new ++ map g (sw_modal w) -> (forall f, mf_orig (g f) = mf_orig f) ->
  (forall f d, In d (vstack c) -> sd_id d = mf_cur f ->
     mf_closed (g f) = true \/
     exists x, beneath (map e_of (vstack c')) (mf_cur (g f)) = beneath (map e_of (vstack c)) (mf_cur f) ++ x) ->
  chk_C05_below w (EUser T_STACK a t) = true.
Proof.
  intros B B' EM Hg H. cbn [chk_C05_below sworld_step]. rewrite Nat.eqb_refl. cbv zeta. apply forallb_forall. intros f Hf.
  destruct (mf_closed f) eqn:C; [reflexivity|]. cbn [orb].
  pose proof (find_orig _ (g f) (proj1 (w_origs _ _ B'))) as Fg. rewrite (Hg f) in Fg.
  rewrite Fg by (rewrite EM; apply in_or_app; right; apply in_map, Hf).
  rewrite (below_vstack _ _ _ B), (below_vstack _ _ _ B'). destruct (w_fmodal _ _ B f Hf C) as (d & Hd & Ed & _).
  destruct (H f d Hd Ed) as [C'|[x E]]; [rewrite C'; reflexivity|]. rewrite E, is_prefix_app. apply orb_true_r.
Qed.

(* a replace: its pop leaves [vstack] as it is, its append puts the new entry in the place of the old *)
Theorem wev_below c e F c' w : wev c e F c' -> WB c w -> chk_C05_below w e = true.
Proof.
  intros V B. destruct (wev_ok _ _ _ _ _ V B) as (B' & EM & _). pose proof (w_ids _ _ B) as B3.
  destruct V as [stk nxt x k sc a t|stk nxt x d t D|top stk nxt x d t D M|stk nxt x d t D M|top r nxt rest t|top r nxt x t X];
    cbn [sworld_step] in *; unfold vstack in B3; cbn [c_pend c_stk c_nxt map] in B3; [reflexivity|..].
  - subst nxt. apply (chk_below_cfg _ _ w _ t (if sd_modal d then [frame_of d] else []) (fun f => f) B B'); [rewrite map_id; exact EM|reflexivity|].
    intros f d0 H0 E0. right. exists []. rewrite app_nil_r. cbn [vstack c_pend c_stk map]. apply beneath_cons_ne.
    cbn [e_of en_id]. intros E. apply (fb_notin _ _ B3). rewrite E, <- E0. apply in_map, H0.
  - subst nxt. apply (chk_below_cfg _ _ w _ t [] (fun f => if (mf_cur f =? sd_id top)%nat then f <| mf_cur := sd_id d |> else f) B B');
      [exact EM|intros f; destruct (mf_cur f =? sd_id top)%nat; reflexivity|].
    intros f d0 H0 E0. right. exists []. rewrite app_nil_r. cbn [vstack c_pend c_stk map].
    destruct (mf_cur f =? sd_id top)%nat eqn:E.
    + apply Nat.eqb_eq in E. cbn [mf_cur set]. rewrite E. rewrite (beneath_cons_eq (e_of top)). apply (beneath_cons_eq (e_of d)).
    + apply Nat.eqb_neq in E. rewrite !beneath_cons_ne; [reflexivity|cbn [e_of en_id]; congruence|].
      cbn [e_of en_id]. intros E'. destruct H0 as [<-|H0]; [congruence|].
      apply (fb_notin _ _ (fb_tail _ _ _ B3)). rewrite E', <- E0. apply in_map, H0.
  - subst nxt. apply (chk_below_cfg _ _ w _ t [] (fun f => f) B B'); [rewrite map_id; exact EM|reflexivity|].
    intros f d0 H0 E0. right. exists [e_of d]. cbn [vstack c_pend c_stk]. rewrite map_app. apply beneath_app.
    rewrite map_e_of_id, <- E0. apply in_map, H0.
  - apply (chk_below_cfg _ _ w _ t [] (fun f => f) B B'); [rewrite map_id; exact EM|reflexivity|].
    intros f d0 _ _. right. exists []. rewrite app_nil_r. reflexivity.
  - apply (chk_below_cfg _ _ w _ t [] (fun f => if (mf_cur f =? sd_id top)%nat then f <| mf_closed := true |> else f) B B');
      [exact EM|intros f; destruct (mf_cur f =? sd_id top)%nat; reflexivity|].
    intros f d0 _ _. destruct (mf_cur f =? sd_id top)%nat eqn:E; [left; reflexivity|right]. apply Nat.eqb_neq in E.
    exists []. rewrite app_nil_r. cbn [vstack c_pend c_stk map]. symmetry. apply beneath_cons_ne. cbn [e_of en_id]. congruence.
Qed.

Lemma WB_modal_return c w id sc t f' rest : WB c w -> sw_modal w = f' :: rest -> mf_orig f' = id ->
  let w' := user_step w T_MODAL_RETURN [id; sc] t in
  WB c w' /\ sw_modal w' = rest /\ (mf_closed f' = true -> WJ c w -> WJ c w').
Proof.
  intros [B1 B2 BE B3 B5 B7] M O w'. destruct (us_modal_return w id sc t) as (R1 & R2 & R3 & R4). fold w' in R1, R2, R3, R4.
  rewrite M in R4. cbn [remove_first] in R4. rewrite O, Nat.eqb_refl in R4. rewrite M in B5, B7.
  split; [|split; [exact R4|]].
  - split; rewrite ?R1, ?R2, ?R3, ?R4; auto.
    + apply (fb_tail _ _ _ B5).
    + intros f Hf C. apply B7; [right; exact Hf|exact C].
  - unfold WJ. rewrite R4, M. unfold ofc. cbn [filter]. unfold openf at 1. intros -> J. exact J.
Qed.

Lemma nodup_id_inj (l : list sdata) a b : NoDup (map sd_id l) -> In a l -> In b l -> sd_id a = sd_id b -> a = b.
Proof.
  induction l as [|y r IH]; intros N Ha Hb E; [destruct Ha|]. cbn [map] in N. apply NoDup_cons_iff in N. destruct N as [N1 N2].
  destruct Ha as [->|Ha], Hb as [->|Hb]; auto.
  - exfalso. apply N1. rewrite E. apply in_map, Hb.
  - exfalso. apply N1. rewrite <- E. apply in_map, Ha.
Qed.
Lemma shielded_clear stk nxt x w da d db : WB (Build_wcfg None stk nxt x) w -> stk = da ++ d :: db ->
  (forall d0, In d0 da -> sd_modal d0 = false) -> shielded w (sd_id d) = false.
Proof.
  intros [B1 _ _ [B3 _] _ B7] -> F. unfold vstack in *. cbn [c_pend c_stk] in *. apply not_true_iff_false. intros H.
  assert (ES : sw_stack w = map e_of da ++ e_of d :: map e_of db) by (rewrite B1, map_app; reflexivity).
  pose proof B3 as B3o. rewrite map_app in B3. cbn [map] in B3.
  assert (Nx : ~ In (sd_id d) (map en_id (map e_of da))).
  { rewrite map_e_of_id. apply NoDup_remove_2 in B3. intros H'. apply B3, in_or_app. left. exact H'. }
  destruct (shielded_above _ _ _ _ _ ES eq_refl Nx H) as (f & Hf & Hc & Hin).
  rewrite map_e_of_id in Hin. apply in_map_iff in Hin. destruct Hin as (d' & Ed' & Hd').
  destruct (B7 f Hf Hc) as (d0 & Hd0 & E1 & E2).
  assert (d0 = d') by (apply (nodup_id_inj (da ++ d :: db)); [exact B3o|exact Hd0|apply in_or_app; left; exact Hd'|congruence]).
  subst d0. rewrite (F d' Hd') in E2. discriminate E2.
Qed.

(* ---- the acceptors of this file on the trace of a state.  Nothing refers to this section: C05Input.v defines [SWt], [SW],
   [Ht], [HH], [accb], [chkP], [chkS], [At], [A], [Keep] again under the same names, with the T_INPUT clause in [At] and
   the prompts' layer in [Keep] ---- *)
Section Screen.
Variable specs : nat -> screen_spec.
Variable typed : list (option str).
Notation st := (lstate sstate).
Implicit Types s : st.

Definition SWt (t : list event) : sworld := fold_left sworld_step (rev t) (sworld0 typed).
Definition SW s : sworld := SWt (trace s).
Definition Ht (t : list event) : hst := hyp_of (rev t).
Definition HH s : hst := Ht (trace s).

Definition accb (chk : sworld -> event -> bool) (t : list event) : Prop :=
  srun_mon chk (sworld0 typed) (rev t) 0 = None.

Definition chkP := relax_setup specs (chk_C05_shield_gen false).
Definition chkS := relax_setup specs (chk_C05_shield_gen true).

(* what holds at every moment, even when the fuel runs out in the middle of an operation *)
Definition At (t : list event) : Prop :=
  accb chkP t /\ (h_ok (Ht t) = true -> accb chkS t) /\ accb chk_C05_below t.
Definition A s : Prop := At (trace s).

(* a step that changes nothing the invariant looks at *)
Record Keep s s' : Prop := {
  k_v : vsame (SW s) (SW s'); k_h : HH s' = HH s; k_A : A s -> A s';
  k_u1 : st_stack (ust s') = st_stack (ust s); k_u2 : st_next_sd (ust s') = st_next_sd (ust s);
  k_rl : run_loop s' = run_loop s; k_fq : force_quit s' = force_quit s }.

Lemma SW_cons s s' e : trace s' = e :: trace s -> SW s' = sworld_step (SW s) e.
Proof. intros T. unfold SW, SWt. rewrite T. apply fold_left_snoc. Qed.
Lemma HH_cons_user s s' tag a t : trace s' = EUser tag a t :: trace s -> HH s' = HH s.
Proof. intros T. unfold HH, Ht, hyp_of. rewrite T. cbn [rev]. rewrite fold_left_snoc. reflexivity. Qed.
Lemma Keep_same_r s s1 s2 : Keep s s1 -> trace s2 = trace s1 -> ust s2 = ust s1 -> run_loop s2 = run_loop s1 ->
  force_quit s2 = force_quit s1 -> Keep s s2.
Proof. intros [V H KA U1 U2 RL FQ] T U R F. split; unfold SW, HH, A in *; rewrite ?T, ?U, ?R, ?F; assumption. Qed.
Lemma Keep_modal s s' : Keep s s' -> sw_modal (SW s') = sw_modal (SW s).
Proof. intros [V _ _ _ _ _ _]. apply V. Qed.
End Screen.

Lemma step_not_stack w e :
  match e with EUser tag _ _ => tag <> T_STACK | _ => True end ->
  sw_stack (sworld_step w e) = sw_stack w /\ sw_replaced (sworld_step w e) = sw_replaced w /\
  (sw_modal (sworld_step w e) = sw_modal w \/
   exists id, sw_modal (sworld_step w e) = remove_first (fun f => (mf_orig f =? id)%nat) (sw_modal w)).
Proof.
  intros H. destruct e;
    try (match goal with |- context [sworld_step w ?e] => destruct (step_loop_vsame w e eq_refl) as (V1 & V2 & V3 & _) end; auto; fail).
  cbn [sworld_step]. destruct (tag =? T_OP)%nat eqn:E1.
  { apply Nat.eqb_eq in E1; subst tag. cbn. auto. }
  destruct (tag =? T_MODAL_RETURN)%nat eqn:E2.
  { apply Nat.eqb_eq in E2; subst tag. cbn. split; [reflexivity|split; [reflexivity|right; eauto]]. }
  assert (I : inert_tag tag = true).
  { unfold inert_tag. rewrite E1, E2. apply Nat.eqb_neq in H. rewrite H. reflexivity. }
  destruct (step_inert_vsame w tag args text I) as (V1 & V2 & V3 & _). auto.
Qed.

Lemma sok_C05_gen_split strict typed t :
  sok (chk_C05_gen strict) typed t = sok (chk_C05_shield_gen strict) typed t && sok chk_C05_input typed t.
Proof.
  pose proof (srun_mon_and (chk_C05_shield_gen strict) chk_C05_input t (sworld0 typed) 0) as H.
  rewrite <- (srun_mon_ext (chk_C05_gen strict) _ t (chk_C05_gen_split strict)) in H.
  unfold sok. destruct (srun_mon (chk_C05_gen strict) (sworld0 typed) t 0) as [k|].
  - destruct (srun_mon (chk_C05_shield_gen strict) (sworld0 typed) t 0), (srun_mon chk_C05_input (sworld0 typed) t 0);
      try reflexivity. destruct H as [_ H]. discriminate (H (conj eq_refl eq_refl)).
  - destruct H as [H _]. destruct (H eq_refl) as [-> ->]. reflexivity.
Qed.

Section Eq.
Variable specs : nat -> screen_spec.
Notation code := (screen_code specs).
Notation st := (lstate sstate).

(* push_screen_modal inside a command list: the operation is announced, the entry appended, the nested loop
   run; when it returns normally the very next step is the T_MODAL_RETURN event and then the REST of the
   caller's commands, from the state the nested loop left; any other outcome is passed on unchanged *)
Lemma caller_resumes_eq f cn self cnt scr a rest (s : st) :
  let d := {| sd_id := st_next_sd (ust s); sd_scr := scr; sd_args := a; sd_modal := true |} in
  let s1 := emit (EUser T_STACK [K_APPEND; sd_id d; scr; a; 1] [])
                 ((emit (EUser T_OP [O_PUSH_MODAL; scr; a] []) s)
                    <| ust := (ust s) <| st_next_sd := S (st_next_sd (ust s)) |> <| st_stack := d :: st_stack (ust s) |> |>) in
  exec code (8 + f) (CProg (do_scmds specs cn self cnt (SPushModal scr a :: rest))) s =
  let '(o, s2) := exec code f (CApi (ANewLoop (render_spec None))) s1 in
  match o with
  | ONormal => exec code (7 + f) (CProg (do_scmds specs cn self cnt rest))
                    (emit (EUser T_MODAL_RETURN [sd_id d; scr] []) s2)
  | _ => (o, s2)
  end.
Proof.
  intros d s1. cbn [do_scmds do_scmd plus]. unfold new_sd, ev_stack, ev, rd, wr.
  rewrite exec_seq. rewrite exec_seq. rewrite exec_emit. rewrite (exec_rd code). cbv beta zeta.
  rewrite exec_seq, exec_wr. rewrite exec_seq, exec_wr. rewrite exec_seq, exec_emit. rewrite exec_seq, exec_api.
  match goal with |- context [exec code f (CApi _) ?x] => change x with s1 end.
  destruct (exec code f (CApi (ANewLoop (render_spec None))) s1) as [o s2].
  destruct o; reflexivity.
Qed.
End Eq.

Module C05Ex.
Definition k1 : str := [49%N]. Definition k2 : str := [50%N]. Definition kc : str := [99%N].
Definition kx : str := [120%N]. Definition ky : str := [121%N].
Definition scr (refresh show : list scmd) (inp : list (str * (list scmd * ret_val))) : screen_spec :=
  {| sc_setup := []; sc_refresh := refresh; sc_show := show; sc_closed := []; sc_input := inp;
     sc_input_default := ([], None); sc_prompt_none := false; sc_input_required := true;
     sc_no_separator := false; sc_skip_check := false; sc_pages := 0; sc_answer0 := AnsNoAttr; sc_custom := []; sc_setup_cmds := [] |}.
(* a screen that never asks for input *)
Definition quiet (refresh show : list scmd) : screen_spec :=
  {| sc_setup := []; sc_refresh := refresh; sc_show := show; sc_closed := []; sc_input := [];
     sc_input_default := ([], Some RProcessed); sc_prompt_none := false; sc_input_required := false;
     sc_no_separator := false; sc_skip_check := false; sc_pages := 0; sc_answer0 := AnsNoAttr; sc_custom := []; sc_setup_cmds := [] |}.
Definition session (specl : list screen_spec) (typed : list (option str)) (acts : list saction) : list outcome * list event :=
  let '(os, st) := app_run_all (fun n => nth n specl default_spec) specl typed None false 2000 acts in
  (os, rev (trace st)).
Definition start := [SACmds [SSchedule 0 0]; SARun].
Definition count_tag (tag : nat) (t : list event) : nat :=
  length (filter (fun e => match e with EUser g _ _ => (g =? tag)%nat | _ => false end) t).

(* 1. modal pushed from input(); inside it: a push, its close, a replace (the replacement takes the frame over), its close *)
Definition ex1_specs := [ scr [] [] [(k1, ([SPushModal 1 0], RProcessed))];
                          scr [] [] [(k1, ([SPush 2 0], RProcessed)); (k2, ([SReplace 3 7], RProcessed))];
                          scr [] [] []; scr [] [] [] ].
Definition ex1_typed := map Some [k1; k1; kc; k2; kc; kc].
Definition ex1 := session ex1_specs ex1_typed start.
(* 2. modal pushed from refresh() *)
Definition ex2_specs := [ scr [SIfCount 1 [SPushModal 1 0] []] [] [];
                          scr [] [] [(k1, ([SPush 2 0], RProcessed))]; scr [] [] [] ].
Definition ex2_typed := map Some [k1; kc; kc; kc].
Definition ex2 := session ex2_specs ex2_typed start.
(* 3. modal pushed from show_all() *)
Definition ex3_specs := [ scr [] [SIfCount 1 [SPushModal 1 0] []] [];
                          scr [] [] [(k1, ([SReplace 2 0], RProcessed))]; scr [] [] [] ].
Definition ex3_typed := map Some [k1; kc; kc].
Definition ex3 := session ex3_specs ex3_typed start.
(* 4. a modal from a modal from a modal, with a push and its close at depth 2 *)
Definition ex4_specs := [ scr [] [] [(k1, ([SPushModal 1 0], RRedraw))];
                          scr [] [] [(k1, ([SPushModal 2 0], RRedraw))];
                          scr [] [] [(k1, ([SPushModal 3 0], RRedraw)); (k2, ([SPush 4 0], RProcessed))];
                          scr [] [] []; scr [] [] [] ].
Definition ex4_typed := map Some [k1; k1; k2; kc; k1; kc; kc; kc; kc].
Definition ex4 := session ex4_specs ex4_typed start.

(* finding F13 at the screen level: input() of a modal screen closes it and pushes another modal screen *)
Definition f13_specs := [ scr [] [] [(k1, ([SPushModal 1 0], RRedraw))];
                          scr [] [] [(k1, ([SCloseNow; SPushModal 2 0], RProcessed))];
                          scr [] [] [] ].
Definition f13_typed := map Some [k1; k1; kc; kc].
Definition f13 := session f13_specs f13_typed start.

(* a hand-written trace: entry 0, a modal entry 1 on top of it, then a refresh of entry 0 *)
Definition bad_trace : list event :=
  [EUser T_STACK [K_APPEND; 0; 0; 0; 0] []; EUser T_STACK [K_APPEND; 1; 1; 0; 1] []; EUser T_REFRESH [0; 0; 0] []].

(* a hand-written trace in which the entry beneath a modal entry disappears while its frame is open:
   a replace of the modal entry that pops twice *)
Definition bad_below : list event :=
  [EUser T_STACK [K_APPEND; 0; 0; 0; 0] []; EUser T_STACK [K_APPEND; 1; 1; 0; 1] [];
   EUser T_OP [O_REPLACE; 2; 0] []; EUser T_STACK [K_POP; 1; 1; 0; 1] []; EUser T_STACK [K_POP; 0; 0; 0; 0] []].

(* finding F16: input() of a screen beneath an open modal screen.
   cx1: the same screen object twice on the stack, beneath and above the modal screen *)
Definition cx1_specs := [ quiet [SIfCount 1 [SPush 2 0] []] [];
                          quiet [SIfCount 1 [SPush 2 7] []] [];
                          {| sc_setup := []; sc_refresh := [SIfCount 1 [SPushModal 1 0] []]; sc_show := [SIfCount 1 [SCloseSig] []];
                             sc_closed := []; sc_input := []; sc_input_default := ([], Some RProcessed);
                             sc_prompt_none := false; sc_input_required := true; sc_no_separator := false;
                             sc_skip_check := false; sc_pages := 0; sc_answer0 := AnsNoAttr; sc_custom := []; sc_setup_cmds := [] |} ].
Definition cx1_typed := [Some kx].
Definition cx1 := session cx1_specs cx1_typed start.
(* cx2: no screen twice; force_quit, then a second App.run() *)
Definition cx2_specs := [ {| sc_setup := [];
                             sc_refresh := [SIfCount 1 [SRedrawSig] [SIfCount 2 [SForceQuit] [SIfCount 3 [SRedrawSig]
                                            [SIfCount 4 [SPushModal 1 0] []]]]];
                             sc_show := []; sc_closed := []; sc_input := []; sc_input_default := ([], Some RRedraw);
                             sc_prompt_none := false; sc_input_required := true; sc_no_separator := false;
                             sc_skip_check := false; sc_pages := 0; sc_answer0 := AnsNoAttr; sc_custom := []; sc_setup_cmds := [] |};
                          quiet [] [] ].
Definition cx2_typed := [Some kx; Some ky].
Definition cx2 := session cx2_specs cx2_typed [SACmds [SSchedule 0 0]; SARun; SARun].
End C05Ex.

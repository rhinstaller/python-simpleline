(* C09Acc.v — run() itself, the one call [good_Exec] leaves out: its entry is accepted from any good state,
   its main loop is an inner call, and its return - the quit callback once, then ERunReturn - is accepted
   because a main loop entered with one open level ends only for a cause ([run_cause]). *)
From SL Require Import Tac.
From RecordUpdate Require Import RecordUpdate.
From SL Require Import LoopSem Monitors.
From SL Require Import proofs.C09Exec proofs.C09Base proofs.C09Passes.
Import ListNotations.

Lemma good_enter_run k :
  good k ->
  good (enter_run k) /\ v_in_run (V (c_trace (enter_run k))) = true /\ v_qc (V (c_trace (enter_run k))) = false /\
  v_rl1 (V (c_trace (enter_run k))) = (length (c_levels k) =? 1)%nat.
Proof.
  intros Gk. pose proof Gk as (((L1 & L2 & L3) & _ & A) & X).
  unfold good, okx, klink, kinv. cbn [enter_run c_trace c_levels c_run c_fq c_quit]. rewrite V_cons. cbn.
  rewrite L1. repeat split; auto; try discriminate.
  apply (acc_push k ERunEnter Gk); [reflexivity|discriminate].
Qed.

(* the quit callback, if one is registered, then the return *)
Definition leave_run (k : core) : core :=
  push ERunReturn (match c_quit k with Some a => push (EQuitCb a) k | None => k end).

Lemma okx_leave_run k :
  okx k -> v_in_run (V (c_trace k)) = true -> v_qc (V (c_trace k)) = false ->
  (v_rl1 (V (c_trace k)) = true -> v_cause (V (c_trace k)) = true) ->
  okx (leave_run k) /\ v_in_run (V (c_trace (leave_run k))) = false.
Proof.
  intros ((L1 & L2 & L3) & N & A) Rn Qc C. unfold leave_run, okx, klink, kinv.
  destruct (c_quit k) as [a|] eqn:Q; cbn [push c_trace c_levels c_run c_fq c_quit]; rewrite !V_cons; cbn;
    (split; [|reflexivity]); (split; [repeat split; congruence|]); (split; [exact N|]).
  - rewrite !accT_cons_view, A, V_cons. cbn [andb]. apply andb_true_intro. split.
    + apply chk_quitcb; congruence.
    + apply chk_runreturn; cbn; auto. rewrite L3. reflexivity.
  - rewrite accT_cons_view, A. apply chk_runreturn; auto. rewrite L3. reflexivity.
Qed.

Section A.
  Context {U : Type}.
  Variable code : nat -> signal -> nat -> prog U.
  Notation Exec := (Exec code).
  Notation K := core_of (only parsing).

  Lemma core_quit_call (s : lstate U) :
    K (emit ERunReturn (quit_call s)) = leave_run (K s).
  Proof. unfold quit_call, leave_run. cbn [core_of c_quit]. destruct (quit_cb s); reflexivity. Qed.

  (* run() entered with exactly one open level: its main loop comes back only after an exit, the closing of
     that level (an exit again) or force-quit - by the counting argument it cannot simply return *)
  Lemma run_cause (s : lstate U) o s1 :
    Exec CMainloop (run_enter s) o s1 -> o = ONormal \/ o = OThrow XExit ->
    klink (K s1) -> length (levels s) = 1 -> v_cause (V (trace s1)) = true.
  Proof.
    intros H [-> | ->] (_ & L2 & _) N; [|exact (exit_cause_Exec _ _ _ _ _ H eq_refl eq_refl)].
    destruct (force_quit s1) eqn:F.
    - apply (proj1 (winv_V (trace s1))). rewrite <- F. exact L2.
    - exfalso. destruct (spends_elim 1 _ _ (count_Exec _ _ _ _ _ H ltac:(discriminate) quiet_normal) F) as (_ & P & NE).
      rewrite levels_run_enter in NE. rewrite levels_run_enter, run_loop_run_enter, N in P.
      destruct (levels s1); [|cbn [length] in P; lia].
      apply NE; [|reflexivity]. intros E. rewrite E in N. discriminate N.
  Qed.

  Theorem run_Exec s o s' :
    Exec CRun s o s' -> good (K s) -> okx (K s') /\ (o = ONormal -> v_in_run (V (c_trace (K s'))) = false).
  Proof.
    intros H Gs. destruct (good_enter_run _ Gs) as (Ge & Rn & Qc & R1).
    remember CRun as c eqn:E. destruct H; try discriminate E.
    - split; [exact (proj1 Gs)|discriminate].
    - destruct (good_Exec _ _ _ _ _ H ltac:(discriminate) Ge) as (O1 & (Rn1 & Qc1 & R11 & _) & _).
      rewrite core_quit_call.
      destruct (okx_leave_run (K s1) O1 (eq_trans Rn1 Rn) (eq_trans Qc1 Qc)) as [O I];
        [|split; [exact O|intros _; exact I]].
      intros RL. apply (run_cause _ _ _ H H0 (proj1 O1)). apply Nat.eqb_eq.
      exact (eq_trans (eq_sym R1) (eq_trans (eq_sym R11) RL)).
    - destruct (good_Exec _ _ _ _ _ H ltac:(discriminate) Ge) as (O1 & _ & _).
      split; [exact O1|]. intros ->. destruct (H0 eq_refl).
  Qed.
End A.

(* ScreenFacts.v — what the proofs about the screen layer share before any invariant.
   About the model (ScreenSem.v) and its acceptors (ScreenMon.v): [upd_nth], [streq], [mem], [remove_first]; induction on
   commands, which are nested through the branches of SIfCount ([scmd_ind'], [do_scmd_if], [do_scmd_closed]); what
   [srun_mon] does when one more event is appended, and that each event of an accepted trace was accepted in the world of
   the events before it; two acceptors that agree or are conjoined; [lists_ok]: every command list a screen can run has a property.
   Proof-side definitions: the ideal stack as the three invariants of the screen layer read it off the events ([sargs],
   [entry_of_args], [op_exp], [stack_after]); [fresh_below], ids given out by a counter; [app_call]: an application
   session is the session (proofs/ExecEqs.v) of these calls, hence [app_sessions_inv], [app_sessions_keep]. *)
From Coq Require Import List Arith NArith Bool Lia Permutation.
From SL Require Import PyInt LoopSem ScreenSem ScreenMon proofs.ListFacts proofs.ExecEqs.
Import ListNotations.

Lemma length_upd_nth {A} (l : list A) : forall k (f : A -> A), length (upd_nth l k f) = length l.
Proof. induction l as [|a l IH]; intros [|k] f; cbn [upd_nth length]; auto. Qed.

Lemma nth_upd_nth {A} (l : list A) : forall k (f : A -> A) x d,
  nth x (upd_nth l k f) d = if (x =? k)%nat && (k <? length l)%nat then f (nth x l d) else nth x l d.
Proof.
  induction l as [|a l IH]; intros k f x d.
  - cbn [upd_nth]. destruct k, x; cbn; try reflexivity; rewrite ?andb_false_r; reflexivity.
  - destruct k as [|k]; cbn [upd_nth].
    + destruct x; reflexivity.
    + destruct x as [|x]; [reflexivity|]. cbn [nth]. rewrite IH. cbn [length]. reflexivity.
Qed.

Lemma nth_error_upd_nth {A} (f : A -> A) l : forall m k,
  nth_error (upd_nth l m f) k = if (k =? m)%nat then option_map f (nth_error l k) else nth_error l k.
Proof.
  induction l as [|h r IH]; intros m k; [destruct m, k, (_ =? _)%nat; reflexivity|].
  destruct m, k; cbn [upd_nth nth_error Nat.eqb]; auto.
Qed.

Lemma map_upd_nth {A B} (g : A -> B) (f : A -> A) l : (forall x, g (f x) = g x) -> forall m, map g (upd_nth l m f) = map g l.
Proof. intros Hf. induction l as [|h r IH]; intros [|k]; cbn; auto; congruence. Qed.

Lemma upd_nth_snoc {A} (l : list A) x (f : A -> A) : upd_nth (l ++ [x]) (length l) f = l ++ [f x].
Proof. induction l as [|a r IH]; cbn; [reflexivity|]. rewrite IH. reflexivity. Qed.

Lemma upd_nth_comp {A} (l : list A) : forall k (f g : A -> A), upd_nth (upd_nth l k f) k g = upd_nth l k (fun x => g (f x)).
Proof. induction l as [|a r IH]; intros [|k] f g; cbn; auto. f_equal. apply IH. Qed.

Lemma b2n_eqb b : (b2n b =? 1)%nat = b.
Proof. destruct b; reflexivity. Qed.

Lemma forallb_id_nth_last l n : forallb (fun b : bool => b) l = true -> nth_last l n = true.
Proof.
  intros H. unfold nth_last. destruct l as [|a l']; [reflexivity|]. set (l := a :: l') in *. clearbody l.
  assert (HL : last l true = true).
  { clear -H. induction l as [|x r IH]; [reflexivity|]. cbn [forallb] in H. apply andb_true_iff in H. destruct H as [Hx H].
    cbn [last]. destruct r; [exact Hx|apply IH, H]. }
  destruct (nth_in_or_default n l (last l true)) as [Hin|E]; [|rewrite E; exact HL].
  rewrite forallb_forall in H. apply (H _ Hin).
Qed.

Lemma streq_refl (a : str) : streq a a = true.
Proof. exact (Nlist_eqb_refl a). Qed.
Lemma streq_eq (a : str) : forall b, streq a b = true -> a = b.
Proof. exact (Nlist_eqb_eq a). Qed.

Lemma mem_cons j k l : mem j (k :: l) = (j =? k)%nat || mem j l.
Proof. reflexivity. Qed.

Lemma remove_first_sub {A} (f : A -> bool) l x : In x (remove_first f l) -> In x l.
Proof.
  induction l as [|y r IH]; cbn; intros I; [destruct I|]. destruct (f y); [right; exact I|].
  destruct I as [<-|I]; [left; reflexivity|right; auto].
Qed.

Lemma remove_first_perm {A} (p : A -> bool) (x : A) l : In x l -> p x = true -> (forall y, p y = true -> y = x) ->
  Permutation l (x :: remove_first p l).
Proof.
  induction l as [|y r IH]; intros I P U; [destruct I|]. cbn [remove_first]. destruct (p y) eqn:E.
  - rewrite (U y E). apply Permutation_refl.
  - destruct I as [->|I]; [congruence|]. eapply perm_trans; [apply perm_skip, (IH I P U)|]. apply perm_swap.
Qed.

(* [scmd] is nested through the two lists of SIfCount *)
Lemma scmd_ind' (P : scmd -> Prop) :
  (forall c, match c with SIfCount _ t e => Forall P t /\ Forall P e | _ => True end -> P c) -> forall c, P c.
Proof.
  intros H. fix IH 1. intros c. apply H. destruct c; try exact I.
  split; [induction t as [|x t IHt]|induction e as [|x e IHe]]; constructor; auto.
Qed.

(* the local loop of [do_scmd] over the chosen branch is [do_scmds] *)
Lemma do_scmd_if specs close_now self count k t e :
  do_scmd specs close_now self count (SIfCount k t e) =
  if (count <? k)%nat then do_scmds specs close_now self count t else do_scmds specs close_now self count e.
Proof.
  cbn [do_scmd].
  match goal with |- (if _ then ?f t else _) = _ => assert (H : forall l, f l = do_scmds specs close_now self count l) end.
  { induction l as [|x l IHl]; cbn [do_scmds]; [|rewrite <- IHl]; reflexivity. }
  rewrite !H. reflexivity.
Qed.

(* a class [T] of programs that contains PRet, is closed under sequencing and holds the code of every admitted ([ok])
   command other than SIfCount holds the code of every admitted command and command list, if an admitted SIfCount has
   admitted branches *)
Lemma do_scmd_closed specs (T : sprog -> Prop) (ok : scmd -> bool) cn :
  T PRet -> (forall p q, T p -> T q -> T (p ;; q)) ->
  (forall k t e, ok (SIfCount k t e) = true -> forallb ok t = true /\ forallb ok e = true) ->
  (forall c, match c with SIfCount _ _ _ => False | _ => True end -> ok c = true ->
             forall self cnt, T (do_scmd specs cn self cnt c)) ->
  (forall c, ok c = true -> forall self cnt, T (do_scmd specs cn self cnt c)) /\
  (forall l, forallb ok l = true -> forall self cnt, T (do_scmds specs cn self cnt l)).
Proof.
  intros Hret Hseq Hif Hat.
  assert (L : forall l, Forall (fun c => ok c = true -> forall self cnt, T (do_scmd specs cn self cnt c)) l ->
              forallb ok l = true -> forall self cnt, T (do_scmds specs cn self cnt l)).
  { induction 1 as [|x r Hx _ IH]; cbn [do_scmds forallb]; intros O self cnt; [exact Hret|].
    apply andb_true_iff in O. destruct O. apply Hseq; auto. }
  assert (C : forall c, ok c = true -> forall self cnt, T (do_scmd specs cn self cnt c)).
  { induction c as [c IH] using scmd_ind'. destruct c; try (apply Hat; exact I).
    intros O self cnt. destruct IH as [It Ie]. destruct (Hif _ _ _ O) as [Ot Oe].
    rewrite do_scmd_if. destruct (cnt <? k)%nat; apply L; assumption. }
  split; [exact C|]. intros l. apply L, Forall_forall. intros c _. apply C.
Qed.

(* The command lists a screen can run (the [list scmd] fields of [screen_spec]): what setup(), refresh(), show_all() and
   closed() do, what input() does for each key and by default, what each signal callback does.  [lists_ok P sp]: every
   one of them has [P]; a hypothesis on sessions (well-formed, no modal push ...) is brought into this form once per
   file ([lists_okb_ok] when it is a boolean in the order of the fields; [specs_all] takes it from the screens of the
   session to every [specs x]) and read where a method runs one of the lists; [ok_assoc] and [ok_nth_custom] are the two
   places where the list is looked up first (call_input, custom_handler). *)
Record lists_ok (P : list scmd -> Prop) (sp : screen_spec) : Prop := {
  ok_setup : P (sc_setup_cmds sp);
  ok_refresh : P (sc_refresh sp);
  ok_show : P (sc_show sp);
  ok_closed : P (sc_closed sp);
  ok_input : forall x, In x (sc_input sp) -> P (fst (snd x));
  ok_default : P (fst (sc_input_default sp));
  ok_custom : forall l, In l (sc_custom sp) -> P l }.

Arguments ok_setup {P sp}. Arguments ok_refresh {P sp}. Arguments ok_show {P sp}. Arguments ok_closed {P sp}.
Arguments ok_input {P sp}. Arguments ok_default {P sp}. Arguments ok_custom {P sp}.

Lemma assoc_str_in k l v : assoc_str k l = Some v -> exists k', In (k', v) l.
Proof.
  induction l as [|[k' v'] r IH]; cbn; [discriminate|].
  destruct ((length k =? length k')%nat && forallb (fun p => (fst p =? snd p)%N) (combine k k')).
  - intros E. inversion E; subst. eauto.
  - intros E. destruct (IH E) as [k2 I]. eauto.
Qed.

Lemma ok_assoc {P : list scmd -> Prop} {sp key c r} : lists_ok P sp -> assoc_str key (sc_input sp) = Some (c, r) -> P c.
Proof. intros H E. destruct (assoc_str_in _ _ _ E) as [k' I]. exact (ok_input H _ I). Qed.

(* an unknown callback does nothing *)
Lemma ok_nth_custom (P : list scmd -> Prop) {sp} k : P [] -> lists_ok P sp -> P (nth k (sc_custom sp) []).
Proof.
  intros H0 H. destruct (nth_in_or_default k (sc_custom sp) []) as [I|E]; [exact (ok_custom H _ I)|rewrite E; exact H0].
Qed.

(* the same for a test on lists, as a boolean: the form the hypotheses on sessions have *)
Definition lists_okb (f : list scmd -> bool) (sp : screen_spec) : bool :=
  f (sc_setup_cmds sp) && f (sc_refresh sp) && f (sc_show sp) && f (sc_closed sp) &&
  forallb (fun x => f (fst (snd x))) (sc_input sp) && f (fst (sc_input_default sp)) && forallb f (sc_custom sp).

Lemma lists_okb_ok f sp : lists_okb f sp = true -> lists_ok (fun l => f l = true) sp.
Proof.
  unfold lists_okb. rewrite !andb_true_iff, !forallb_forall. intros [[[[[[H0 H1] H2] H3] H4] H5] H6]. constructor; assumption.
Qed.

(* a session names its screens by their place in [specl], [default_spec] beyond it: what holds of all of these holds of
   every [specs x] *)
Lemma specs_all (P : screen_spec -> Prop) specs specl :
  (forall n, specs n = nth n specl default_spec) -> P default_spec -> (forall sp, In sp specl -> P sp) ->
  forall x, P (specs x).
Proof. intros Hs Hd H x. rewrite Hs. destruct (nth_in_or_default x specl default_spec) as [I| ->]; auto. Qed.

Lemma specs_allb (f : screen_spec -> bool) specs specl :
  (forall n, specs n = nth n specl default_spec) -> f default_spec = true -> forallb f specl = true ->
  forall x, f (specs x) = true.
Proof. intros Hs Hd Hf. apply (specs_all (fun sp => f sp = true) _ _ Hs Hd), forallb_forall, Hf. Qed.

Lemma srun_mon_snoc chk t : forall w idx e,
  srun_mon chk w (t ++ [e]) idx =
  match srun_mon chk w t idx with
  | Some k => Some k
  | None => if chk (fold_left sworld_step t w) e then None else Some (idx + length t)
  end.
Proof.
  induction t as [|a t IH]; intros w idx e; cbn [app srun_mon fold_left length].
  - rewrite Nat.add_0_r. reflexivity.
  - destruct (chk w a); [|reflexivity]. rewrite IH. rewrite Nat.add_succ_comm. reflexivity.
Qed.

Lemma srun_mon_snoc_none chk t w i e :
  srun_mon chk w (t ++ [e]) i = None <-> srun_mon chk w t i = None /\ chk (fold_left sworld_step t w) e = true.
Proof.
  rewrite srun_mon_snoc. destruct (srun_mon chk w t i); [split; [discriminate|intros [H _]; discriminate H]|].
  destruct (chk _ e); split; auto; try discriminate. intros [_ H]; discriminate H.
Qed.

Lemma srun_mon_app chk t1 : forall w i t2,
  srun_mon chk w (t1 ++ t2) i = None -> srun_mon chk (fold_left sworld_step t1 w) t2 (i + length t1) = None.
Proof.
  induction t1 as [|a t1 IH]; intros w i t2 H; cbn [app srun_mon fold_left length] in *.
  - now rewrite Nat.add_0_r.
  - destruct (chk w a); [|discriminate]. apply IH in H. now rewrite <- Nat.add_succ_comm.
Qed.

(* a trace whose beginning is rejected is rejected *)
Lemma srun_mon_prefix chk t1 : forall w i t2, srun_mon chk w (t1 ++ t2) i = None -> srun_mon chk w t1 i = None.
Proof.
  induction t1 as [|a t1 IH]; intros w i t2 H; cbn [app srun_mon] in *; [reflexivity|].
  destruct (chk w a); [exact (IH _ _ _ H)|discriminate H].
Qed.

Lemma sok_prefix_false chk typed t1 t2 : sok chk typed t1 = false -> sok chk typed (t1 ++ t2) = false.
Proof.
  unfold sok. destruct (srun_mon chk (sworld0 typed) (t1 ++ t2) 0) eqn:E; [reflexivity|].
  rewrite (srun_mon_prefix _ _ _ _ _ E). discriminate.
Qed.

Lemma sok_event chk typed t1 e t2 :
  sok chk typed (t1 ++ e :: t2) = true -> chk (fold_left sworld_step t1 (sworld0 typed)) e = true.
Proof.
  unfold sok. destruct (srun_mon chk (sworld0 typed) (t1 ++ e :: t2) 0) eqn:E; [discriminate|]. intros _.
  apply srun_mon_app in E. cbn [srun_mon] in E.
  destruct (chk (fold_left sworld_step t1 (sworld0 typed)) e); [reflexivity | discriminate].
Qed.

Lemma sok_iff chk typed t : sok chk typed t = true <-> srun_mon chk (sworld0 typed) t 0 = None.
Proof. unfold sok. destruct (srun_mon chk (sworld0 typed) t 0); split; congruence. Qed.
Lemma srun_mon_ext c1 c2 t : (forall w e, c1 w e = c2 w e) -> forall w i, srun_mon c1 w t i = srun_mon c2 w t i.
Proof. intros H. induction t as [|e r IH]; intros w i; cbn [srun_mon]; [reflexivity|]. rewrite H, IH. reflexivity. Qed.
Lemma sok_ext c1 c2 typed t : (forall w e, c1 w e = c2 w e) -> sok c1 typed t = sok c2 typed t.
Proof. intros H. unfold sok. rewrite (srun_mon_ext c1 c2 t H). reflexivity. Qed.
Lemma srun_mon_and c1 c2 t : forall w i,
  srun_mon (fun w e => c1 w e && c2 w e) w t i = None <-> srun_mon c1 w t i = None /\ srun_mon c2 w t i = None.
Proof.
  induction t as [|e r IH]; intros w i; cbn [srun_mon]; [tauto|].
  destruct (c1 w e), (c2 w e); cbn [andb]; try (split; [discriminate|intros [X Y]; discriminate]).
  apply IH.
Qed.

(* The ideal stack: what the events about it carry.
   The arguments of the T_STACK event about entry [d], and the entry that such arguments describe *)
Definition sargs (k : nat) (d : sdata) : list nat := [k; sd_id d; sd_scr d; sd_args d; b2n (sd_modal d)].
Definition entry_of_args (a : list nat) : entry :=
  {| en_id := nth0 a 1; en_scr := nth0 a 2; en_args := nth0 a 3; en_modal := (nth0 a 4 =? 1)%nat |}.

Lemma entry_of_sargs k d :
  entry_of_args (sargs k d) = {| en_id := sd_id d; en_scr := sd_scr d; en_args := sd_args d; en_modal := sd_modal d |}.
Proof. unfold entry_of_args, sargs, nth0. cbn [nth]. rewrite b2n_eqb. reflexivity. Qed.

(* the stack primitives a T_OP announces *)
Definition op_exp (kind x y : nat) (nonempty : bool) : list sexp :=
  if (kind =? O_SCHEDULE)%nat then [XAddFirst x y]
  else if (kind =? O_PUSH)%nat then [XAppend x y (Some false)]
  else if (kind =? O_PUSH_MODAL)%nat then [XAppend x y (Some true)]
  else if (kind =? O_REPLACE)%nat then (if nonempty then [XPop false; XAppend x y None] else [])
  else (if nonempty then [XPop true] else []).

(* [sw_stack] after an event; a T_STACK event that is neither append nor add_first is a pop *)
Definition stack_after (st : list entry) (e : event) : list entry :=
  match e with
  | EUser tag a _ =>
    if (tag =? T_STACK)%nat then
      if (nth0 a 0 =? K_APPEND)%nat then entry_of_args a :: st
      else if (nth0 a 0 =? K_ADD_FIRST)%nat then st ++ [entry_of_args a] else tl st
    else st
  | _ => st
  end.

(* ids given out by a counter (entry ids, the ids under which modal frames were opened): no duplicates, all below the
   next id to be given out *)
Definition fresh_below (m : nat) (l : list nat) : Prop := NoDup l /\ Forall (fun i => i < m) l.
Lemma fb_notin m l : fresh_below m l -> ~ In m l.
Proof. intros [_ F] H. rewrite Forall_forall in F. apply F in H. lia. Qed.
Lemma fb_S m l : fresh_below m l -> fresh_below (S m) l.
Proof. intros [N F]. split; [exact N|]. eapply Forall_impl; [|exact F]. cbn. intros; lia. Qed.
Lemma fb_cons m l : fresh_below m l -> fresh_below (S m) (m :: l).
Proof. intros H. split; [constructor; [apply fb_notin, H|apply H]|constructor; [lia|apply (fb_S _ _ H)]]. Qed.
Lemma fb_snoc m l : fresh_below m l -> fresh_below (S m) (l ++ [m]).
Proof.
  intros H. destruct (fb_S _ _ H) as [N F]. split; [apply NoDup_snoc; [exact N|apply fb_notin, H]|].
  apply Forall_app; split; [exact F|repeat constructor].
Qed.
Lemma fb_tail m x l : fresh_below m (x :: l) -> fresh_below m l.
Proof. intros [N F]. split; [apply NoDup_cons_iff in N; apply N|apply (Forall_inv_tail F)]. Qed.

(* the call an application action makes; [app_session] is the session of these calls (proofs/ExecEqs.v, [sessions_inv]) *)
Definition app_call (specs : nat -> screen_spec) (f : nat) (a : saction) (s : lstate sstate) : outcome * lstate sstate :=
  match a with
  | SACmds l => exec (screen_code specs) f (CProg (run_cmds specs 0 0 l)) (emit ETop s)
  | SARun =>
    match st_stack (ust s), st_run_empty (ust s) with
    | [], false => (OThrow XError, emit ETop s)
    | _, _ => exec (screen_code specs) f CRun (emit ETop s)
    end
  end.

Lemma app_session_cons specs f a r s :
  app_session specs f (a :: r) s = continue (app_session specs f r) (app_call specs f a s).
Proof. reflexivity. Qed.

Definition app_sessions_inv specs f :=
  sessions_inv (app_call specs f) (app_session specs f) (fun _ => eq_refl) (app_session_cons specs f).
Definition app_sessions_keep specs f :=
  sessions_keep (app_call specs f) (app_session specs f) (fun _ => eq_refl) (app_session_cons specs f).

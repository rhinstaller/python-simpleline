(* C20Proofs.v — C20 "both event loops drive an application identically".
   The observable: the handler invocations (EHandler) and marks (EMark) of a session, in order, up to the
   moment the application quits (the first ERunReturn), and the outcomes of the top-level calls.
   Refutation witnesses, one per class of behavioural difference between LoopSem.exec (MainLoop) and
   GLibSem.gexec (GLibEventLoop over the validated GLib model), then six sessions on which the two agree.  The
   sessions are generated from corpus/glib/witnesses.py (--coq); checks/C20.py verifies that every [Definition] line
   of that output stands below and replays every witness on the two REAL loops (MainLoop, GLibEventLoop over libglib).
   (a)-(e) are the letters of finding F9 in DESIGN.md. *)
From SL Require Import Tac.
From Coq Require Import ZArith NArith List Bool.
From SL Require Import Sx LoopSem LoopProg LoopWire GLibSem drv.Drv_loop.
Import ListNotations.

Definition is_hm (e : event) : bool := match e with EHandler _ _ _ | EMark _ => true | _ => false end.
(* chronological trace up to and including the first ERunReturn *)
Fixpoint upto_quit (t : list event) : list event :=
  match t with [] => [] | ERunReturn :: _ => [ERunReturn] | e :: r => e :: upto_quit r end.
Definition hseq (t : list event) : list event := filter is_hm (upto_quit (rev t)).
(* the user-visible sequence: handler invocations, marks and the events of the layers above the loop (EUser: what the
   screen layer does — setup, refresh, show, prompt, input delivered to a screen, closed, modal return ...) *)
Definition is_vis (e : event) : bool := match e with EHandler _ _ _ | EMark _ | EUser _ _ _ => true | _ => false end.
Definition vseq (t : list event) : list event := filter is_vis (upto_quit (rev t)).
Definition is_user (e : event) : bool := match e with EUser _ _ _ => true | _ => false end.
Definition useq (t : list event) : list event := filter is_user (upto_quit (rev t)).

(* a session = handler bodies (handler id = position) + top-level actions; both loops start from their initial state *)
Definition main_obs (bodies : list (list cmd)) (acts : list action) (fuel : nat) : list outcome * list event :=
  let '(os, st) := run_session (handler_prog bodies) fuel (map top_of acts) (init_state []) in (os, hseq (trace st)).
Definition glib_obs_gen (mark_first : bool) (bodies : list (list cmd)) (acts : list action) (fuel : nat)
  : list outcome * list event :=
  let '(os, st) := grun_session mark_first (handler_prog bodies) fuel (map top_of acts) (ginit_state []) in
  (os, hseq (gtrace st)).
(* the code as it is: the ticket is marked after the handlers *)
Definition glib_obs := glib_obs_gen false.
Definition no_fuel (os : list outcome) : bool := forallb (fun o => match o with OFuel => false | _ => true end) os.

(* the two loops complete the session (neither interpreter ran out of fuel) and the observables differ *)
Definition differ (bodies : list (list cmd)) (acts : list action) (fuel : nat) : Prop :=
  no_fuel (fst (main_obs bodies acts fuel)) = true /\ no_fuel (fst (glib_obs bodies acts fuel)) = true /\
  main_obs bodies acts fuel <> glib_obs bodies acts fuel.
(* ... already in the handler/mark sequence, whatever the outcomes *)
Definition differ_handlers (bodies : list (list cmd)) (acts : list action) (fuel : nat) : Prop :=
  no_fuel (fst (main_obs bodies acts fuel)) = true /\ no_fuel (fst (glib_obs bodies acts fuel)) = true /\
  snd (main_obs bodies acts fuel) <> snd (glib_obs bodies acts fuel).

(* ---- witnesses (generated: corpus/glib/witnesses.py --coq) ---- *)
(* glib-raise-skips-handlers *)
Definition w_a_bodies : list (list cmd) := [[CmRaise]; [CmMark 1]].
Definition w_a_acts : list action := [ACmds [CmRegHandler 1 0 0; CmRegHandler 1 1 0; CmEnqueue 1 (0)%Z None]; ARun].
(* glib-exception-not-overtaking *)
Definition w_b_bodies : list (list cmd) := [[CmRaise]; [CmMark 1]; [CmMark 2]].
Definition w_b_acts : list action := [ACmds [CmRegHandler 1 0 0; CmRegHandler 2 1 0; CmRegHandler 0 2 0; CmEnqueue 1 (0)%Z None; CmEnqueue 2 (0)%Z None; CmEnqueue 3 (5)%Z None]; ARun].
(* glib-urgent-not-overtaking *)
Definition w_b2_bodies : list (list cmd) := [[CmEnqueue 3 (-5)%Z None]; [CmMark 1]; [CmMark 2]].
Definition w_b2_acts : list action := [ACmds [CmRegHandler 1 0 0; CmRegHandler 2 1 0; CmRegHandler 3 2 0; CmEnqueue 1 (0)%Z None; CmEnqueue 2 (0)%Z None]; ARun].
(* glib-exit-batch-continues *)
Definition w_c_bodies : list (list cmd) := [[CmExit]; [CmMark 1]].
Definition w_c_acts : list action := [ACmds [CmRegHandler 1 0 0; CmRegHandler 2 1 0; CmEnqueue 1 (0)%Z None; CmEnqueue 2 (0)%Z None]; ARun].
(* glib-exit-not-unwinding *)
Definition w_c2_bodies : list (list cmd) := [[CmNewLoop 2 (0)%Z None; CmMark 9]; [CmExit]].
Definition w_c2_acts : list action := [ACmds [CmRegHandler 1 0 0; CmRegHandler 2 1 0; CmEnqueue 1 (0)%Z None]; ARun].
(* glib-close-no-drain *)
Definition w_d_bodies : list (list cmd) := [[CmNewLoop 2 (0)%Z None; CmMark 9; CmExit]; [CmEnqueue 3 (0)%Z None; CmCloseLoop; CmMark 1]; [CmMark 2]].
Definition w_d_acts : list action := [ACmds [CmRegHandler 1 0 0; CmRegHandler 2 1 0; CmRegHandler 3 2 0; CmEnqueue 1 (0)%Z None]; ARun].
(* glib-handler-after-force-quit *)
Definition w_f_bodies : list (list cmd) := [[CmForceQuit]; [CmMark 1]].
Definition w_f_acts : list action := [ACmds [CmRegHandler 1 0 0; CmRegHandler 1 1 0; CmEnqueue 1 (0)%Z None]; ARun].
(* glib-after-force-quit *)
Definition w_f2_bodies : list (list cmd) := [[CmCloseLoop]; [CmMark 1]].
Definition w_f2_acts : list action := [ACmds [CmForceQuit]; ACmds [CmRegHandler 1 0 0; CmRegHandler 1 1 0; CmExt 1 (0)%Z None]; ARun].
(* glib-process-one-batch *)
Definition w_g_bodies : list (list cmd) := [[CmIfCount 1 [CmProcess None; CmMark 1] []]; [CmIfCount 1 [CmEnqueue 2 (0)%Z None] []]].
Definition w_g_acts : list action := [ACmds [CmRegHandler 1 0 0; CmRegHandler 2 1 0; CmEnqueue 1 (0)%Z None; CmEnqueue 2 (0)%Z None]; ARun].
(* glib-wait-not-stopped *)
Definition w_h_bodies : list (list cmd) := [[CmNewLoop 2 (0)%Z None; CmMark 9]; [CmCloseLoop; CmProcess (Some 3); CmMark 1]].
Definition w_h_acts : list action := [ACmds [CmRegHandler 1 0 0; CmRegHandler 2 1 0; CmEnqueue 1 (0)%Z None]; ARun].
(* glib-wait-finishes-batch *)
Definition w_h2_bodies : list (list cmd) := [[CmProcess (Some 2); CmMark 1]; [CmMark 2]; [CmMark 3]].
Definition w_h2_acts : list action := [ACmds [CmRegHandler 1 0 0; CmRegHandler 2 1 0; CmRegHandler 3 2 0; CmEnqueue 1 (0)%Z None; CmEnqueue 2 (0)%Z None; CmEnqueue 3 (0)%Z None]; ARun].
(* glib-handlers-bound-at-enqueue *)
Definition w_i_bodies : list (list cmd) := [[CmMark 1]].
Definition w_i_acts : list action := [ACmds [CmEnqueue 1 (0)%Z None; CmRegHandler 1 0 0]; ARun].
(* glib-close-last-level *)
Definition w_j_bodies : list (list cmd) := [[CmCloseLoop; CmMark 1]].
Definition w_j_acts : list action := [ACmds [CmRegHandler 1 0 0; CmEnqueue 1 (0)%Z None]; ARun].
(* glib-mark-after-handlers *)
Definition w_e_bodies : list (list cmd) := [[CmCloseLoop]; [CmRaise]; [CmCloseLoop; CmProcess (Some 1); CmMark 1]].
Definition w_e_acts : list action := [ACmds [CmRegHandler 1 0 0; CmRegHandler 1 1 0; CmRegHandler 2 2 0; CmEnqueue 1 (0)%Z None]; ACmds [CmNewLoop 2 (0)%Z None]; ARun].
(* scheduler scenario: replace_screen *)
Definition s_replace_screen_bodies : list (list cmd) := [[CmIfCount 1 [CmRegSource 100; CmRegSource 100; CmEnqueue 1 (0)%Z (Some 50)] [CmRegSource 101; CmRegSource 101; CmEnqueue 2 (0)%Z (Some 101)]]; [CmExit]].
(* scheduler scenario: switch_screen *)
Definition s_switch_screen_bodies : list (list cmd) := [[CmIfCount 1 [CmRegSource 100; CmRegSource 100; CmEnqueue 1 (0)%Z (Some 50)] [CmIfCount 2 [CmRegSource 101; CmRegSource 101; CmEnqueue 2 (0)%Z (Some 101)] [CmRegSource 100; CmEnqueue 2 (0)%Z (Some 100)]]]; [CmIfCount 1 [CmEnqueue 1 (0)%Z (Some 50)] [CmExit]]].
(* scheduler scenario: modal_in_render *)
Definition s_modal_in_render_bodies : list (list cmd) := [[CmIfCount 1 [CmRegSource 100; CmRegSource 100; CmMark 3; CmNewLoop 1 (0)%Z (Some 50); CmMark 4; CmEnqueue 2 (0)%Z (Some 100)] [CmRegSource 101; CmRegSource 101; CmEnqueue 2 (0)%Z (Some 101)]]; [CmIfCount 1 [CmCloseLoop] [CmExit]]].
(* scheduler scenario: modal_in_refresh *)
Definition s_modal_in_refresh_bodies : list (list cmd) := [[CmIfCount 1 [CmRegSource 100; CmRegSource 100; CmMark 1; CmNewLoop 1 (0)%Z (Some 50); CmMark 2; CmEnqueue 2 (0)%Z (Some 100)] [CmRegSource 101; CmRegSource 101; CmEnqueue 2 (0)%Z (Some 101)]]; [CmIfCount 1 [CmCloseLoop] [CmExit]]].
(* scheduler scenario: modal_refresh_and_render *)
Definition s_modal_refresh_and_render_bodies : list (list cmd) := [[CmIfCount 1 [CmRegSource 100; CmRegSource 100; CmMark 1; CmNewLoop 1 (0)%Z (Some 50); CmMark 2; CmMark 3; CmNewLoop 1 (0)%Z (Some 50); CmMark 4; CmEnqueue 2 (0)%Z (Some 100)] [CmIfCount 2 [CmRegSource 101; CmRegSource 101; CmEnqueue 2 (0)%Z (Some 101)] [CmRegSource 102; CmRegSource 102; CmEnqueue 2 (0)%Z (Some 102)]]]; [CmIfCount 1 [CmCloseLoop] [CmIfCount 2 [CmCloseLoop] [CmExit]]]].
(* scheduler scenario: modal_render_recursive *)
Definition s_modal_render_recursive_bodies : list (list cmd) := [[CmIfCount 1 [CmRegSource 100; CmRegSource 100; CmMark 3; CmNewLoop 1 (0)%Z (Some 50); CmMark 4; CmEnqueue 2 (0)%Z (Some 100)] [CmIfCount 2 [CmRegSource 101; CmRegSource 101; CmMark 3; CmNewLoop 1 (0)%Z (Some 50); CmMark 4; CmEnqueue 2 (0)%Z (Some 101)] [CmRegSource 102; CmRegSource 102; CmEnqueue 2 (0)%Z (Some 102)]]]; [CmIfCount 1 [CmCloseLoop] [CmIfCount 2 [CmCloseLoop] [CmExit]]]].
Definition s_acts : list action := [ACmds [CmRegHandler 1 0 0; CmRegHandler 2 1 0; CmEnqueue 1 (0)%Z (Some 50)]; ARun].
(* ---- end of generated part ---- *)

Ltac by_computation := unfold differ, differ_handlers; vm_compute; repeat split; discriminate.

(* (a) two handlers on one class, the first raises: GLib skips the second *)
Lemma refuted_raise_skips_handlers : differ_handlers w_a_bodies w_a_acts 200 /\
  main_obs w_a_bodies w_a_acts 200 = ([ONormal; OThrow XSysExit], [EHandler 0 0 0; EHandler 1 0 0; EMark 1]) /\
  glib_obs w_a_bodies w_a_acts 200 = ([ONormal; OThrow XSysExit], [EHandler 0 0 0]).
Proof. split; [by_computation | split; vm_compute; reflexivity]. Qed.

(* (b) the ExceptionSignal does not overtake a signal of the same GLib batch (here the application handles
   ExceptionSignal itself: handler 2) *)
Lemma refuted_exception_not_overtaking : differ_handlers w_b_bodies w_b_acts 200 /\
  snd (main_obs w_b_bodies w_b_acts 200) = [EHandler 0 0 0; EHandler 2 3 0; EMark 2; EHandler 1 1 0; EMark 1] /\
  snd (glib_obs w_b_bodies w_b_acts 200) = [EHandler 0 0 0; EHandler 1 1 0; EMark 1; EHandler 2 3 0; EMark 2].
Proof. split; [by_computation | split; vm_compute; reflexivity]. Qed.

Lemma refuted_urgent_not_overtaking : differ_handlers w_b2_bodies w_b2_acts 200.
Proof. by_computation. Qed.

(* (c) ExitMainLoop does not stop the other sources of the current GLib batch *)
Lemma refuted_exit_batch_continues : differ_handlers w_c_bodies w_c_acts 200 /\
  main_obs w_c_bodies w_c_acts 200 = ([ONormal; ONormal], [EHandler 0 0 0]) /\
  glib_obs w_c_bodies w_c_acts 200 = ([ONormal; ONormal], [EHandler 0 0 0; EHandler 1 1 0; EMark 1]).
Proof. split; [by_computation | split; vm_compute; reflexivity]. Qed.

Lemma refuted_exit_not_unwinding : differ_handlers w_c2_bodies w_c2_acts 200.
Proof. by_computation. Qed.

(* (d) close_loop drains the top-priority batch in MainLoop, not in GLib *)
Lemma refuted_close_no_drain : differ_handlers w_d_bodies w_d_acts 200 /\
  snd (main_obs w_d_bodies w_d_acts 200) = [EHandler 0 0 0; EHandler 1 1 0; EHandler 2 2 0; EMark 2; EMark 1; EMark 9] /\
  snd (glib_obs w_d_bodies w_d_acts 200) = [EHandler 0 0 0; EHandler 1 1 0; EMark 1; EMark 9].
Proof. split; [by_computation | split; vm_compute; reflexivity]. Qed.

Lemma refuted_handler_after_force_quit : differ_handlers w_f_bodies w_f_acts 200.
Proof. by_computation. Qed.
(* here the handler sequences agree and the outcomes differ (MainLoop: killed, GLib: normal end) *)
Lemma refuted_after_force_quit : differ w_f2_bodies w_f2_acts 200.
Proof. by_computation. Qed.
Lemma refuted_process_one_batch : differ_handlers w_g_bodies w_g_acts 200.
Proof. by_computation. Qed.
Lemma refuted_wait_not_stopped : differ_handlers w_h_bodies w_h_acts 200.
Proof. by_computation. Qed.
Lemma refuted_wait_finishes_batch : differ_handlers w_h2_bodies w_h2_acts 200.
Proof. by_computation. Qed.
Lemma refuted_handlers_bound_at_enqueue : differ_handlers w_i_bodies w_i_acts 200.
Proof. by_computation. Qed.
Lemma refuted_close_last_level : differ_handlers w_j_bodies w_j_acts 200.
Proof. by_computation. Qed.

(* (e) the ticket is marked after the handlers in GLibEventLoop (before them in MainLoop).  That order is observable
   only when an exception leaves _run_handlers between the handlers and the mark, which needs the level stack to be
   empty (close_loop at level 0): on this session the GLib model as it is blocks for ever in a wait that the
   counterfactual mark-first variant would end; MainLoop differs from both (it already differs by the classes of
   [w_h_bodies] and [w_j_bodies]: glib-wait-not-stopped, glib-close-last-level). *)
Lemma refuted_mark_after_handlers :
  glib_obs w_e_bodies w_e_acts 200 = ([ONormal; OBlocked], [EHandler 2 1 0; EHandler 0 0 0; EHandler 1 0 0]) /\
  glib_obs_gen true w_e_bodies w_e_acts 200 =
    ([ONormal; ONormal; OThrow XError], [EHandler 2 1 0; EHandler 0 0 0; EHandler 1 0 0; EMark 1]) /\
  differ_handlers w_e_bodies w_e_acts 200.
Proof. split; [vm_compute; reflexivity | split; [vm_compute; reflexivity | by_computation]]. Qed.

(* the full statement of C20 is false of the code as it is *)
Lemma not_identical :
  ~ (forall bodies acts fuel,
        no_fuel (fst (main_obs bodies acts fuel)) = true -> no_fuel (fst (glib_obs bodies acts fuel)) = true ->
        snd (main_obs bodies acts fuel) = snd (glib_obs bodies acts fuel)).
Proof.
  intro H. destruct refuted_raise_skips_handlers as [[A [B C]] _]. exact (C (H _ _ _ A B)).
Qed.

(* agreement on the six scenarios of tests/units/main/screen_scheduler_test.py (translated to the loop API,
   see corpus/glib/witnesses.py): same outcomes, same handler/mark sequence, and the application quits *)
Definition agree (bodies : list (list cmd)) (acts : list action) (fuel : nat) : Prop :=
  main_obs bodies acts fuel = glib_obs bodies acts fuel /\ fst (main_obs bodies acts fuel) = [ONormal; ONormal].

Lemma example_agree_replace_screen : agree s_replace_screen_bodies s_acts 200.
Proof. vm_compute. split; reflexivity. Qed.
Lemma example_agree_switch_screen : agree s_switch_screen_bodies s_acts 200.
Proof. vm_compute. split; reflexivity. Qed.
Lemma example_agree_modal_in_render : agree s_modal_in_render_bodies s_acts 200 /\
  snd (main_obs s_modal_in_render_bodies s_acts 200) =
  [EHandler 0 0 0; EMark 3; EHandler 0 1 0; EHandler 1 2 0; EMark 4; EHandler 1 3 0].
Proof. vm_compute. repeat split; reflexivity. Qed.
Lemma example_agree_modal_in_refresh : agree s_modal_in_refresh_bodies s_acts 200.
Proof. vm_compute. split; reflexivity. Qed.
Lemma example_agree_modal_refresh_and_render : agree s_modal_refresh_and_render_bodies s_acts 200.
Proof. vm_compute. split; reflexivity. Qed.
Lemma example_agree_modal_render_recursive : agree s_modal_render_recursive_bodies s_acts 200 /\
  length (snd (main_obs s_modal_render_recursive_bodies s_acts 200)) = 10%nat.
Proof. vm_compute. repeat split; reflexivity. Qed.

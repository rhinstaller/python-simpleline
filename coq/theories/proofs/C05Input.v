(* C05Input.v -- C05 on every session: the four acceptors of C05Proofs.v accept the trace of every session of the
   screen-layer model (ScreenSem.app_run_all) in which a setup() that runs commands of its own reports success (the section
   hypothesis [Hcok : setup_cmds_ok specs]): [relax_setup specs (chk_C05_shield_gen false)]; the strict form
   [relax_setup specs (chk_C05_shield_gen true)] under [no_f13]; [chk_C05_below]; and [chk_C05_input] under three conditions
   decided on the trace,
     no_stale_prompt         a prompt is issued only on behalf of the screen of the top entry,
     no_orphan_prompt        no entry of a screen is popped while a request of that screen is unanswered,
     no_modal_during_prompt  no modal screen is pushed while a request is unanswered
   (then input() is never given to a screen all of whose stack entries lie beneath an open modal frame); each condition is
   needed (finding F16, six sessions: props/C05.v).  The invariant behind the last: while a request of screen S is
   unanswered, S has a stack entry with no modal entry above it.  [relax_setup] leaves out the clauses for the return of a
   setup() with commands and for the refresh() of its screen; without such setups ([plain_setup]) it is the acceptor
   itself ([C05_input_session]).
   Method: a fuel-indexed Hoare judgement [run n s p Q] for handler programs (LoopHoare's [hoare] from a state with [A],
   asking [A] alone of a run out of fuel) with that file's rules for the program
   constructors restated for it ([run_seq], [run_try], [run_rd], [run_wr], [run_emit], [run_while], [run_api]); an
   invariant [InvG] linking the world rebuilt from the trace ([SW]) to the concrete state: [WB] of C05Proofs.v at the
   configuration [wcfg_of s] (the world's stack is [st_stack], entry ids are fresh, the current entry of every open
   frame is a modal entry of the stack, no operation pending); as long as the three conditions hold of the trace: [IQ]; and, as long as [no_f13]
   holds of the trace: the open frames are the modal entries of the stack in order ([WJ]), and whenever
   [run_loop = false] (the loop has been told to stop) the innermost frame is closed; a relation [Rel] between the states before and after a call (the
   modal frames are the same, in the same order, none re-opened: calls are balanced); [Keep]: steps the invariant
   does not see; [LoopOK n]: the contract of the loop's calls, a [hoare] triple too; [call_step]: one step of [exec] keeps
   it if the handlers and the calls with less fuel do; [std n s p]:
   the program [p] does, from [s] ([auto with std] for the programs made of inert events and simple calls, one lemma
   for each scheduler operation and each callback; [Mid]: what holds between the events of one stack operation, each
   event a step of the stack machine [wev] of C05Proofs.v); [handlers_ok]: every handler of [screen_code] does if the loop's
   calls (with less fuel) do; [loop_ok] by induction. *)
From SL Require Import Tac.
From RecordUpdate Require Import RecordUpdate.
From SL Require Import PyInt LoopSem ScreenSem ScreenMon proofs.ExecEqs proofs.ListFacts proofs.LoopFacts proofs.ScreenFacts proofs.LoopHoare proofs.C09Exec proofs.C05Proofs.
Import ListNotations.

(* "unanswered": a request (T_REQ [screen; args; handler]) that has not yet been answered by a typed line
   (T_READY [handler; 1]).  A refused request, or one answered by a failure because a newer request took the
   line, stays unanswered. *)
Record hq := {
  q_stack : list (nat * bool);   (* (screen, modal) of the stack entries, top first, from the T_STACK events *)
  q_pend : list (nat * nat);     (* unanswered requests: (handler, screen) *)
  q_stale : bool; q_orphan : bool; q_modal : bool }.
#[export] Instance eta_hq : Settable _ := settable! Build_hq <q_stack; q_pend; q_stale; q_orphan; q_modal>.
Definition hq0 : hq := {| q_stack := []; q_pend := []; q_stale := false; q_orphan := false; q_modal := false |}.
Definition pend_remove (n : nat) (l : list (nat * nat)) : list (nat * nat) := filter (fun p => negb (fst p =? n)%nat) l.
Definition pend_of (scr : nat) (l : list (nat * nat)) : bool := existsb (fun p => (snd p =? scr)%nat) l.

Definition hq_step (h : hq) (e : event) : hq :=
  match e with
  | EUser tag a _ =>
    if (tag =? T_STACK)%nat then
      let kind := nth0 a 0 in let scr := nth0 a 2 in let modal := (nth0 a 4 =? 1)%nat in
      if (kind =? K_APPEND)%nat then
        h <| q_stack := (scr, modal) :: q_stack h |>
          <| q_modal := q_modal h || (modal && negb (match q_pend h with [] => true | _ => false end)) |>
      else if (kind =? K_ADD_FIRST)%nat then h <| q_stack := q_stack h ++ [(scr, false)] |>
      else h <| q_stack := tl (q_stack h) |> <| q_orphan := q_orphan h || pend_of scr (q_pend h) |>
    else if (tag =? T_REQ)%nat then
      let scr := nth0 a 0 in
      h <| q_stale := q_stale h || negb (match q_stack h with (s, _) :: _ => (s =? scr)%nat | [] => false end) |>
        <| q_pend := (nth0 a 2, scr) :: q_pend h |>
    else if (tag =? T_READY)%nat then
      if (nth0 a 1 =? 1)%nat then h <| q_pend := pend_remove (nth0 a 0) (q_pend h) |> else h
    else h
  | _ => h
  end.
Definition hq_of (t : list event) : hq := fold_left hq_step t hq0.
Definition hqok (h : hq) : bool := negb (q_stale h || q_orphan h || q_modal h).

(* a prompt is issued only on behalf of the screen of the top entry *)
Definition no_stale_prompt (t : list event) : bool := negb (q_stale (hq_of t)).
(* no entry of a screen is popped (closed, replaced, discarded) while a request of that screen is unanswered *)
Definition no_orphan_prompt (t : list event) : bool := negb (q_orphan (hq_of t)).
(* no modal screen is pushed while a request is unanswered *)
Definition no_modal_during_prompt (t : list event) : bool := negb (q_modal (hq_of t)).

Lemma hqok_split t : hqok (hq_of t) = no_stale_prompt t && no_orphan_prompt t && no_modal_during_prompt t.
Proof. unfold hqok, no_stale_prompt, no_orphan_prompt, no_modal_during_prompt. destruct (q_stale _), (q_orphan _), (q_modal _); reflexivity. Qed.

Lemma hq_step_mono h e : hqok (hq_step h e) = true -> hqok h = true.
Proof.
  unfold hqok. destruct e; try (cbn; auto; fail). cbn [hq_step].
  repeat match goal with |- context [if ?b then _ else _] => destruct b end; cbn;
    destruct (q_stale h), (q_orphan h), (q_modal h); cbn; rewrite ?orb_true_r; cbn; auto.
Qed.
Lemma hq_step_loop h e : is_user e = false -> hq_step h e = h.
Proof. destruct e; try reflexivity. discriminate. Qed.

Lemma chk_input_other w tag a t : (tag =? T_INPUT)%nat = false -> chk_C05_input w (EUser tag a t) = true.
Proof. intros H. cbn [chk_C05_input]. rewrite H. reflexivity. Qed.
Lemma chk_input_loop w e : is_user e = false -> chk_C05_input w e = true.
Proof. destruct e; try reflexivity. discriminate. Qed.

(* the screen has a stack entry with no modal entry above it *)
Definition clear_entry (st : list (nat * bool)) (scr : nat) : Prop :=
  exists above b below, st = above ++ (scr, b) :: below /\ forallb (fun p => negb (snd p)) above = true.

Definition stack_sm (l : list sdata) : list (nat * bool) := map (fun d => (sd_scr d, sd_modal d)) l.
(* [h]: the monitor's state; [stk]: the stack; [ih]: (owner, callback?) of the input handlers.  A handler with a callback
   that has not fired yet is an unanswered request, and the screen of an unanswered request has a clear entry *)
Record IQ (h : hq) (stk : list sdata) (ih : list (nat * bool)) : Prop := {
  i_stack : q_stack h = stack_sm stk;
  i_pc : forall n A, nth_error ih n = Some (A, true) -> In (n, A) (q_pend h);
  i_ip : forall n A, In (n, A) (q_pend h) -> clear_entry (q_stack h) A }.
(* ... as long as the three conditions on prompts hold *)
Definition IQg (h : hq) (stk : list sdata) (ih : list (nat * bool)) : Prop := hqok h = true -> IQ h stk ih.

Lemma hq_append h d t : let h' := hq_step h (EUser T_STACK (sargs K_APPEND d) t) in
  q_stack h' = (sd_scr d, sd_modal d) :: q_stack h /\ q_pend h' = q_pend h /\
  q_modal h' = q_modal h || (sd_modal d && negb (match q_pend h with [] => true | _ => false end)).
Proof. unfold sargs. cbn. rewrite b2n_eqb. repeat split. Qed.
Lemma hq_addfirst h d t : let h' := hq_step h (EUser T_STACK (sargs K_ADD_FIRST d) t) in
  q_stack h' = q_stack h ++ [(sd_scr d, false)] /\ q_pend h' = q_pend h.
Proof. cbn. repeat split. Qed.
Lemma hq_pop h d t : let h' := hq_step h (EUser T_STACK (sargs K_POP d) t) in
  q_stack h' = tl (q_stack h) /\ q_pend h' = q_pend h /\ q_orphan h' = q_orphan h || pend_of (sd_scr d) (q_pend h).
Proof. cbn. repeat split. Qed.
Lemma hq_req h scr x n t : let h' := hq_step h (EUser T_REQ [scr; x; n] t) in
  q_stack h' = q_stack h /\ q_pend h' = (n, scr) :: q_pend h /\
  q_stale h' = q_stale h || negb (match q_stack h with (s, _) :: _ => (s =? scr)%nat | [] => false end).
Proof. cbn. repeat split. Qed.
Lemma hq_ready1 h m t : let h' := hq_step h (EUser T_READY [m; 1] t) in
  q_stack h' = q_stack h /\ q_pend h' = pend_remove m (q_pend h).
Proof. cbn. repeat split. Qed.

Lemma clear_entry_push st A sc : clear_entry st A -> clear_entry ((sc, false) :: st) A.
Proof. intros (ab & b & bl & -> & F). exists ((sc, false) :: ab), b, bl. split; [reflexivity|cbn; exact F]. Qed.
Lemma clear_entry_app st A x : clear_entry st A -> clear_entry (st ++ x) A.
Proof. intros (ab & b & bl & -> & F). exists ab, b, (bl ++ x). split; [rewrite <- app_assoc; reflexivity|exact F]. Qed.
Lemma clear_entry_tl sc m st A : clear_entry ((sc, m) :: st) A -> A <> sc -> clear_entry st A /\ m = false.
Proof.
  intros (ab & b & bl & E & F) N. destruct ab as [|[s0 m0] ab]; cbn in E; injection E as E1 E2 E3; [congruence|].
  cbn in F. apply andb_true_iff in F. destruct F as [F1 F2]. split; [exists ab, b, bl; auto|].
  rewrite E2. destruct m0; [discriminate F1|reflexivity].
Qed.
Lemma pend_of_in n A l : In (n, A) l -> pend_of A l = true.
Proof. intros H. unfold pend_of. apply existsb_exists. exists (n, A). split; [exact H|apply Nat.eqb_refl]. Qed.
Lemma hqok_flags h : hqok h = true -> q_stale h = false /\ q_orphan h = false /\ q_modal h = false.
Proof. unfold hqok. destruct (q_stale h), (q_orphan h), (q_modal h); cbn; auto; discriminate. Qed.
Lemma In_pend_remove m k A l : k <> m -> In (k, A) l -> In (k, A) (pend_remove m l).
Proof. intros N H. unfold pend_remove. apply filter_In. split; [exact H|]. cbn. apply negb_true_iff, Nat.eqb_neq, N. Qed.
Lemma In_pend_remove_inv m k A l : In (k, A) (pend_remove m l) -> In (k, A) l.
Proof. unfold pend_remove. intros H. apply filter_In in H. apply H. Qed.
(* one lemma for each event the monitor looks at: a replace is a pop, then an append *)
Lemma IQ_append h stk ih d t : IQg h stk ih -> IQg (hq_step h (EUser T_STACK (sargs K_APPEND d) t)) (d :: stk) ih.
Proof.
  intros Q Hok. destruct (hq_append h d t) as (G1 & G2 & G5). destruct (hqok_flags _ Hok) as (_ & _ & F3).
  rewrite G5 in F3. apply orb_false_iff in F3. destruct F3 as [_ F4].
  destruct (Q (hq_step_mono _ _ Hok)) as [I1 I2 I3]. split; rewrite ?G1, ?G2.
  - cbn [stack_sm map]. rewrite I1. reflexivity.
  - exact I2.
  - intros n A HA. destruct (sd_modal d).
    + destruct (q_pend h); [destruct HA|discriminate F4].
    + apply clear_entry_push, (I3 n), HA.
Qed.
Lemma IQ_addfirst h stk ih d t : sd_modal d = false ->
  IQg h stk ih -> IQg (hq_step h (EUser T_STACK (sargs K_ADD_FIRST d) t)) (stk ++ [d]) ih.
Proof.
  intros M Q Hok. destruct (hq_addfirst h d t) as (G1 & G2).
  destruct (Q (hq_step_mono _ _ Hok)) as [I1 I2 I3]. split; rewrite ?G1, ?G2.
  - unfold stack_sm. rewrite map_app, I1. cbn [map]. rewrite M. reflexivity.
  - exact I2.
  - intros n A HA. apply clear_entry_app, (I3 n), HA.
Qed.
Lemma IQ_pop h top r ih t : IQg h (top :: r) ih -> IQg (hq_step h (EUser T_STACK (sargs K_POP top) t)) r ih.
Proof.
  intros Q Hok. destruct (hq_pop h top t) as (K1 & K2 & K4). destruct (hqok_flags _ Hok) as (_ & F2 & _).
  rewrite K4 in F2. apply orb_false_iff in F2. destruct F2 as [_ F2].
  destruct (Q (hq_step_mono _ _ Hok)) as [I1 I2 I3]. cbn [stack_sm map] in I1. split; rewrite ?K1, ?K2, ?I1.
  - reflexivity.
  - exact I2.
  - intros n A HA. pose proof (I3 n A HA) as CE. rewrite I1 in CE.
    assert (NA : A <> sd_scr top) by (intros ->; rewrite (pend_of_in _ _ _ HA) in F2; discriminate F2).
    apply (clear_entry_tl _ _ _ _ CE NA).
Qed.
(* the prompt of a screen: the request is announced, the handler created *)
Lemma IQ_req h stk ih scr x t : IQg h stk ih -> IQg (hq_step h (EUser T_REQ [scr; x; length ih] t)) stk (ih ++ [(scr, true)]).
Proof.
  intros Q Hok. destruct (hq_req h scr x (length ih) t) as (G1 & G2 & G3). destruct (hqok_flags _ Hok) as (F1 & _ & _).
  rewrite G3 in F1. apply orb_false_iff in F1. destruct F1 as [_ TOP]. apply negb_false_iff in TOP.
  destruct (Q (hq_step_mono _ _ Hok)) as [I1 I2 I3]. split; rewrite ?G1, ?G2.
  - exact I1.
  - intros m A H. destruct (nth_error_snoc _ _ _ _ H) as [X|[-> X]]; [right; apply I2, X|left; congruence].
  - intros m A [X|X]; [|apply I3 in X; exact X]. injection X as _ <-.
    destruct (q_stack h) as [|[s0 b0] r]; [discriminate TOP|]. apply Nat.eqb_eq in TOP; subst s0.
    exists [], b0, r. split; reflexivity.
Qed.
(* the typed line reaches handler [m], which is no longer waiting afterwards *)
Lemma IQ_ready1 h stk ih ih' m t :
  (forall k A, nth_error ih' k = Some (A, true) -> k <> m /\ nth_error ih k = Some (A, true)) ->
  IQg h stk ih -> IQg (hq_step h (EUser T_READY [m; 1] t)) stk ih'.
Proof.
  intros W Q Hok. destruct (hq_ready1 h m t) as (G1 & G2).
  destruct (Q (hq_step_mono _ _ Hok)) as [I1 I2 I3]. split; rewrite ?G1, ?G2.
  - exact I1.
  - intros k A H. destruct (W k A H) as [Nk H']. apply In_pend_remove; [exact Nk|apply I2, H'].
  - intros k A H. apply (I3 k), (In_pend_remove_inv _ _ _ _ H).
Qed.
Lemma IQ_ih_weaken h stk ih ih' :
  (forall m A, nth_error ih' m = Some (A, true) -> nth_error ih m = Some (A, true)) -> IQg h stk ih -> IQg h stk ih'.
Proof. intros W Q Hok. destruct (Q Hok) as [I1 I2 I3]. split; auto. Qed.

Section Screen.
Variable specs : nat -> screen_spec.
Hypothesis Hcok : setup_cmds_ok specs.
Variable typed : list (option str).
Notation st := (lstate sstate).
Notation code := (screen_code specs).
Implicit Types s : st.

Definition SWt (t : list event) : sworld := fold_left sworld_step (rev t) (sworld0 typed).
Definition SW s : sworld := SWt (trace s).
Definition Ht (t : list event) : hst := hyp_of (rev t).
Definition HH s : hst := Ht (trace s).

Definition Hqt (t : list event) : hq := hq_of (rev t).
Definition HQ s : hq := Hqt (trace s).

(* one more event: on traces, on states whose trace is known, at [emit] *)
Lemma SWt_cons e t : SWt (e :: t) = sworld_step (SWt t) e.
Proof. apply fold_left_snoc. Qed.
Lemma Ht_cons e t : Ht (e :: t) = hyp_step (Ht t) e.
Proof. apply fold_left_snoc. Qed.
Lemma Hqt_cons e t : Hqt (e :: t) = hq_step (Hqt t) e.
Proof. apply fold_left_snoc. Qed.
Lemma SW_cons s s' e : trace s' = e :: trace s -> SW s' = sworld_step (SW s) e.
Proof. intros T. unfold SW. rewrite T. apply SWt_cons. Qed.
Lemma HH_cons s s' e : trace s' = e :: trace s -> HH s' = hyp_step (HH s) e.
Proof. intros T. unfold HH. rewrite T. apply Ht_cons. Qed.
Lemma HQ_cons s s' e : trace s' = e :: trace s -> HQ s' = hq_step (HQ s) e.
Proof. intros T. unfold HQ. rewrite T. apply Hqt_cons. Qed.
Lemma HH_cons_user s s' tag a t : trace s' = EUser tag a t :: trace s -> HH s' = HH s.
Proof. apply HH_cons. Qed.
Lemma SW_emit e s : SW (emit e s) = sworld_step (SW s) e.
Proof. apply SWt_cons. Qed.
Lemma HH_emit e s : HH (emit e s) = hyp_step (HH s) e.
Proof. apply Ht_cons. Qed.
Lemma HQ_emit e s : HQ (emit e s) = hq_step (HQ s) e.
Proof. apply Hqt_cons. Qed.

Definition accb (chk : sworld -> event -> bool) (t : list event) : Prop :=
  srun_mon chk (sworld0 typed) (rev t) 0 = None.
Lemma accb_cons chk e t : accb chk (e :: t) <-> accb chk t /\ chk (SWt t) e = true.
Proof. unfold accb, SWt. cbn [rev]. apply srun_mon_snoc_none. Qed.

Definition chkP := relax_setup specs (chk_C05_shield_gen false).
Definition chkS := relax_setup specs (chk_C05_shield_gen true).

(* what holds at every moment, even when the fuel runs out in the middle of an operation *)
Definition At (t : list event) : Prop :=
  accb chkP t /\ (h_ok (Ht t) = true -> accb chkS t) /\ accb chk_C05_below t /\
  (hqok (Hqt t) = true -> accb chk_C05_input t).
Definition A s : Prop := At (trace s).

(* an acceptor under a trace hypothesis that, once false, stays false *)
Lemma accb_guard_cons {H} (ok : H -> bool) (h h' : H) chk e t : (ok h' = true -> ok h = true) ->
  (ok h = true -> accb chk t) -> (ok h = true -> ok h' = true -> chk (SWt t) e = true) -> ok h' = true -> accb chk (e :: t).
Proof. intros M G C Hh. apply accb_cons. split; [apply G, M, Hh|apply C; [apply M, Hh|exact Hh]]. Qed.

Lemma A_emit_relaxed e s : A s -> chkP (SW s) e = true ->
  (h_ok (HH s) = true -> h_ok (hyp_step (HH s) e) = true -> chkS (SW s) e = true) ->
  chk_C05_below (SW s) e = true ->
  (hqok (HQ s) = true -> hqok (hq_step (HQ s) e) = true -> chk_C05_input (SW s) e = true) -> A (emit e s).
Proof.
  intros (A1 & A2 & A3 & A4) C1 C2 C3 C4. unfold A, At, emit. cbn [trace set]. rewrite Ht_cons, Hqt_cons.
  split; [apply accb_cons; split; assumption|]. split; [|split; [apply accb_cons; split; assumption|]].
  - apply (accb_guard_cons h_ok (HH s)); [apply hyp_step_mono|exact A2|exact C2].
  - apply (accb_guard_cons hqok (HQ s)); [apply hq_step_mono|exact A4|exact C4].
Qed.
Lemma A_emit e s : A s -> chk_C05_shield_gen false (SW s) e = true ->
  (h_ok (HH s) = true -> h_ok (hyp_step (HH s) e) = true -> chk_C05_shield_gen true (SW s) e = true) ->
  chk_C05_below (SW s) e = true ->
  (hqok (HQ s) = true -> hqok (hq_step (HQ s) e) = true -> chk_C05_input (SW s) e = true) -> A (emit e s).
Proof.
  intros HA C1 C2 C3 C4. apply A_emit_relaxed; [exact HA|apply relax_setup_of, C1| |exact C3|exact C4].
  intros H1 H2. apply relax_setup_of, C2; assumption.
Qed.

Lemma A_emit_loop e s : is_user e = false -> A s -> A (emit e s).
Proof.
  intros N HA. apply A_emit; [exact HA|destruct e; try reflexivity; discriminate| |destruct e; try reflexivity; discriminate|].
  - intros _ _. destruct e; try reflexivity; discriminate.
  - intros _ _. apply chk_input_loop, N.
Qed.

Lemma A_trace s s' : trace s' = trace s -> A s -> A s'.
Proof. unfold A. intros ->. auto. Qed.

Definition run (n : nat) s (p : sprog) (Q : outcome -> st -> Prop) : Prop :=
  A s -> hoare code n (CProg p) s (fun o s' => A s' /\ (o <> OFuel -> Q o s')).

Lemma run_conseq n s p (Q Q' : outcome -> st -> Prop) :
  run n s p Q -> (forall o s', Q o s' -> Q' o s') -> run n s p Q'.
Proof. intros R HQ HA. eapply hoare_conseq; [exact (R HA)|]. intros o s' [A' Q1]. split; auto. Qed.

Lemma run_ret n s (Q : outcome -> st -> Prop) : Q ONormal s -> run n s PRet Q.
Proof. intros HQ HA. apply hoare_ret; split; auto; congruence. Qed.

Lemma run_throw n s x (Q : outcome -> st -> Prop) : Q (OThrow x) s -> run n s (PThrow x) Q.
Proof. intros HQ HA. apply hoare_throw; split; auto; congruence. Qed.

Lemma run_seq n s p q (Q : outcome -> st -> Prop) :
  run n s p (fun o s1 => match o with ONormal => run n s1 q Q | _ => Q o s1 end) -> run n s (p ;; q) Q.
Proof.
  intros R HA. apply hoare_seq. eapply hoare_conseq; [exact (R HA)|].
  intros [] s1 [A1 Q1]; [exact (Q1 ltac:(discriminate) A1) | exact (conj A1 Q1) ..].
Qed.

Lemma run_try n s p h (Q : outcome -> st -> Prop) :
  run n s p (fun o s1 => match o with OThrow XError => run n s1 h Q | _ => Q o s1 end) -> run n s (PTry p h) Q.
Proof.
  intros R HA. apply hoare_try. eapply hoare_conseq; [exact (R HA)|].
  intros [|[]| |] s1 [A1 Q1]; try exact (conj A1 Q1). exact (Q1 ltac:(discriminate) A1).
Qed.

Lemma run_st n s g (Q : outcome -> st -> Prop) :
  run n (s <| ust := fst (g (ust s)) |>) (snd (g (ust s))) Q -> run n s (PSt g) Q.
Proof.
  intros R HA. apply hoare_st; [split; [exact HA|congruence]|]. apply R. eapply A_trace; [|exact HA]. reflexivity.
Qed.

Lemma run_rd n s k (Q : outcome -> st -> Prop) : run n s (k (ust s)) Q -> run n s (rd k) Q.
Proof. intros R. unfold rd. apply run_st. cbn [fst snd]. rewrite ust_eta. exact R. Qed.

Lemma run_wr n s g (Q : outcome -> st -> Prop) : Q ONormal (s <| ust := g (ust s) |>) -> run n s (wr g) Q.
Proof. intros HQ. unfold wr. apply run_st. cbn [fst snd]. apply run_ret, HQ. Qed.

Lemma run_emit n s e (Q : outcome -> st -> Prop) :
  (A s -> A (emit (user_event e) s)) -> Q ONormal (emit (user_event e) s) -> run n s (PEmit e) Q.
Proof. intros HA' HQ HA. apply hoare_emit; split; auto; congruence. Qed.

Lemma run_while n c b (I : st -> Prop) (Q : outcome -> st -> Prop) :
  (forall s1, I s1 -> c (ust s1) = true -> run n s1 b (fun o s2 => match o with ONormal => I s2 | _ => Q o s2 end)) ->
  (forall s1, I s1 -> c (ust s1) = false -> Q ONormal s1) ->
  forall s, I s -> run n s (PWhile c b) Q.
Proof.
  intros Hb Hx s HI HA. apply (hoare_while code n c b s _ (fun s1 => I s1 /\ A s1) (conj HI HA)).
  - intros s1 [_ A1]. split; [exact A1|congruence].
  - intros s1 [I1 A1] C. eapply hoare_conseq; [exact (Hb s1 I1 C A1)|].
    intros [] s2 [A2 Q2]; [exact (conj (Q2 ltac:(discriminate)) A2) | exact (conj A2 Q2) ..].
  - intros s1 [I1 A1] C. split; [exact A1|]. intros _. exact (Hx s1 I1 C).
Qed.

Definition ihs (u : sstate) : list (nat * bool) := map (fun h => (ih_owner h, ih_cb h)) (st_ih u).
(* between two operations: nothing pending, nothing expected *)
Definition wcfg_of s : wcfg := {| c_pend := None; c_stk := st_stack (ust s); c_nxt := st_next_sd (ust s); c_exp := [] |}.
Record Base s : Prop := {
  b_w : WB (wcfg_of s) (SW s);
  b_iq : IQg (HQ s) (st_stack (ust s)) (ihs (ust s)) }.

(* ... and what holds as long as the hypothesis of the strict form does.  [s_G]: a loop that has been told to stop
   ([run_loop = false]) was told so by the close of its modal entry.  [g = false] takes [s_G] away: the state between the
   append of a modal entry, whose frame is open, and the entry into its loop; there [run_loop = false] would make the
   hypothesis fail at the ENewLoopEnter ([PreC] asks only [InvG false] of ANewLoop) *)
Record Strict (g : bool) s : Prop := {
  s_fq : force_quit s = false;
  s_rl : run_loop s = false -> h_rl (HH s) = false;
  s_J : WJ (wcfg_of s) (SW s);
  s_G : g = true -> run_loop s = false -> head_closed (sw_modal (SW s)) }.

Lemma Base_stack s : Base s -> sw_stack (SW s) = map e_of (st_stack (ust s)).
Proof. intros [B _]. exact (w_stack _ _ B). Qed.

Definition InvG (g : bool) s : Prop := Base s /\ (h_ok (HH s) = true -> Strict g s).
Notation Inv := (InvG true).

(* between the states before and after a call: [Relw b] of the worlds ([b = true]: no frame opened since is left), and the
   hypothesis of the strict form, once failed, stays failed *)
Definition Rel (b : bool) s s' : Prop :=
  Relw b (SW s) (SW s') /\ (h_ok (HH s') = true -> h_ok (HH s) = true).

Lemma Rel_refl b s : Rel b s s.
Proof. split; [apply Relw_refl|auto]. Qed.
Lemma Rel_trans_l b s s1 s2 : Rel true s s1 -> Rel b s1 s2 -> Rel b s s2.
Proof. intros [R1 M1] [R2 M2]. split; [eapply Relw_trans_l; eauto|auto]. Qed.
Lemma Rel_trans_r b s s1 s2 : Rel b s s1 -> Rel true s1 s2 -> Rel b s s2.
Proof. intros [R1 M1] [R2 M2]. split; [eapply Relw_trans_r; eauto|auto]. Qed.
Lemma Rel_weaken b s s' : Rel true s s' -> Rel b s s'.
Proof. intros [R M]. split; [apply Relw_weaken, R|exact M]. Qed.
Lemma Rel_trans_false b1 b2 s s1 s2 : Rel b1 s s1 -> Rel b2 s1 s2 -> Rel false s s2.
Proof.
  intros [R1 M1] [R2 M2]. split; [|auto]. pose proof (Relw_trans _ _ _ _ _ R1 R2) as (n & o & E & F & _).
  exists n, o. split; [exact E|split; [exact F|discriminate]].
Qed.

(* a step that changes nothing the invariant looks at *)
Record Keep s s' : Prop := {
  k_v : vsame (SW s) (SW s'); k_h : HH s' = HH s; k_A : A s -> A s';
  k_u1 : st_stack (ust s') = st_stack (ust s); k_u2 : st_next_sd (ust s') = st_next_sd (ust s);
  k_rl : run_loop s' = run_loop s; k_fq : force_quit s' = force_quit s;
  k_hq : HQ s' = HQ s; k_ih : ihs (ust s') = ihs (ust s) }.

Lemma Keep_refl s : Keep s s.
Proof. split; auto using vsame_refl. Qed.
Lemma Keep_trans s s1 s2 : Keep s s1 -> Keep s1 s2 -> Keep s s2.
Proof. intros [] []. split; try congruence; eauto using vsame_trans. Qed.
Lemma Keep_same s s' : trace s' = trace s -> ust s' = ust s -> run_loop s' = run_loop s -> force_quit s' = force_quit s -> Keep s s'.
Proof. intros T U R F. split; auto; unfold SW, HH, HQ, A; rewrite ?T, ?U; auto using vsame_refl. Qed.
Lemma Keep_wr s (g : sstate -> sstate) : st_stack (g (ust s)) = st_stack (ust s) -> st_next_sd (g (ust s)) = st_next_sd (ust s) ->
  ihs (g (ust s)) = ihs (ust s) -> Keep s (s <| ust := g (ust s) |>).
Proof. intros U1 U2 U3. split; auto; try reflexivity. apply vsame_refl. Qed.

Definition neutral_ev (e : event) : bool :=
  match e with
  | EUser _ _ _ | EForceQuit | ENewLoopEnter _ | EClosePop _ | ENewLoopReturn _ | ERunEnter => false
  | _ => true
  end.
Lemma neutral_not_user e : neutral_ev e = true -> is_user e = false.
Proof. destruct e; cbn; congruence. Qed.
Lemma Keep_emit e s : neutral_ev e = true -> Keep s (emit e s).
Proof.
  intros N. split; try reflexivity.
  - rewrite SW_emit. apply step_loop_vsame, neutral_not_user, N.
  - rewrite HH_emit. destruct e; try discriminate N; reflexivity.
  - apply A_emit_loop, neutral_not_user, N.
  - rewrite HQ_emit. apply hq_step_loop, neutral_not_user, N.
Qed.
Lemma Keep_emit_r e s s1 : Keep s s1 -> neutral_ev e = true -> Keep s (emit e s1).
Proof. intros K N. eapply Keep_trans; [exact K|apply Keep_emit, N]. Qed.
Lemma Keep_same_r s s1 s2 : Keep s s1 -> trace s2 = trace s1 -> ust s2 = ust s1 -> run_loop s2 = run_loop s1 ->
  force_quit s2 = force_quit s1 -> Keep s s2.
Proof. intros K T U R F. eapply Keep_trans; [exact K|apply Keep_same; assumption]. Qed.

(* the invariant reads the world only through the stack, the frames and the pending replace; the prompts' layer apart *)
Lemma Base_vsame s s' : vsame (SW s) (SW s') -> st_stack (ust s') = st_stack (ust s) ->
  st_next_sd (ust s') = st_next_sd (ust s) -> IQg (HQ s') (st_stack (ust s)) (ihs (ust s')) -> Base s -> Base s'.
Proof.
  intros (V1 & V2 & V3 & V4) U1 U2 Q [B _]. split; [|rewrite U1; exact Q]. unfold wcfg_of. rewrite U1, U2.
  apply (WB_same _ (SW s)); auto. rewrite (w_expect _ _ B). destruct V4 as [V4|V4]; [rewrite V4; apply B|exact V4].
Qed.
Lemma Inv_vsame g s s' : vsame (SW s) (SW s') -> HH s' = HH s -> st_stack (ust s') = st_stack (ust s) ->
  st_next_sd (ust s') = st_next_sd (ust s) -> run_loop s' = run_loop s -> force_quit s' = force_quit s ->
  IQg (HQ s') (st_stack (ust s)) (ihs (ust s')) -> InvG g s -> InvG g s'.
Proof.
  intros V Hh U1 U2 R F Q [B S]. split; [eapply Base_vsame; eauto|].
  rewrite Hh. intros Hok. destruct (S Hok) as [S1 S2 S3 S4]. destruct V as (V1 & V2 & _).
  split; rewrite ?Hh, ?R, ?F, ?V2; auto. exact (WJ_ext (wcfg_of s) (wcfg_of s') _ _ U1 V2 S3).
Qed.
Lemma Rel_vsame s s' : vsame (SW s) (SW s') -> HH s' = HH s -> Rel true s s'.
Proof. intros (_ & V2 & _) Hh. split; [apply Relw_modal; rewrite V2; apply frames_le_refl|rewrite Hh; auto]. Qed.
Lemma Base_transfer s s' : vsame (SW s) (SW s') -> ust s' = ust s -> HQ s' = HQ s -> Base s -> Base s'.
Proof. intros V U E B. apply (Base_vsame s); rewrite ?U, ?E; auto. apply B. Qed.
Lemma Keep_inv g s s' : Keep s s' -> InvG g s -> InvG g s'.
Proof. intros [V Hh _ U1 U2 R F E U3] HI. apply (Inv_vsame g s); auto. rewrite E, U3. apply HI. Qed.
Lemma Keep_rel s s' : Keep s s' -> Rel true s s'.
Proof. intros K. apply Rel_vsame; apply K. Qed.
Lemma Keep_modal s s' : Keep s s' -> sw_modal (SW s') = sw_modal (SW s).
Proof. intros [V _ _ _ _ _ _ _ _]. apply V. Qed.

Lemma Keep_new_signal s sp : Keep s (snd (new_signal s sp)).
Proof.
  unfold new_signal. cbn [snd]. apply Keep_emit_r; [|reflexivity]. apply Keep_same; reflexivity.
Qed.
Lemma Keep_do_enqueue s sg : Keep s (do_enqueue s sg).
Proof.
  unfold do_enqueue. destruct (force_quit s); [apply Keep_emit; reflexivity|].
  apply Keep_emit_r; [|reflexivity]. apply Keep_same; reflexivity.
Qed.
Lemma Keep_do_get_some s sg s1 : do_get s = inl (Some (sg, s1)) -> Keep s s1.
Proof. intros H. destruct (do_get_some s sg s1 H) as (p & c & q' & _ & ->). apply Keep_same; reflexivity. Qed.
Lemma Keep_do_get_ext s s1 : do_get s = inr s1 -> Keep s s1.
Proof.
  intros H. destruct (do_get_inr s s1 H) as (_ & sp & r & _ & ->). unfold ext_arrival.
  pose proof (Keep_new_signal (s <| ext := r |>) sp) as K. destruct (new_signal (s <| ext := r |>) sp) as [sg s0]. cbn [snd] in K.
  eapply Keep_trans; [|apply Keep_do_enqueue]. apply Keep_emit_r; [|reflexivity].
  eapply Keep_trans; [|exact K]. apply Keep_same; reflexivity.
Qed.

(* the flags of the loop enter the invariant only here *)
Lemma Strict_flags g g' s s' : Strict g s -> sw_modal (SW s') = sw_modal (SW s) -> st_stack (ust s') = st_stack (ust s) ->
  force_quit s' = false ->
  (run_loop s' = false -> h_rl (HH s') = false /\ (g' = true -> head_closed (sw_modal (SW s)))) -> Strict g' s'.
Proof.
  intros [_ _ J _] M U F R. split; [exact F|apply R|exact (WJ_ext (wcfg_of s) (wcfg_of s') _ _ U M J)|].
  rewrite M. intros G RL. apply R; assumption.
Qed.

(* a loop event (it moves the flags at most): the world keeps its stack and frames, the base part is not concerned *)
Lemma flag_event g g' e s s' : is_user e = false -> trace s' = e :: trace s -> ust s' = ust s -> A s -> InvG g s ->
  (h_ok (hyp_step (HH s) e) = true -> Strict g s -> force_quit s' = false /\
     (run_loop s' = false -> h_rl (hyp_step (HH s) e) = false /\ (g' = true -> head_closed (sw_modal (SW s))))) ->
  A s' /\ InvG g' s' /\ Rel true s s' /\ HH s' = hyp_step (HH s) e /\ sw_modal (SW s') = sw_modal (SW s).
Proof.
  intros N T U HA [B St] F. pose proof (HH_cons _ _ _ T) as EH. pose proof (HQ_cons _ _ _ T) as EQ. rewrite (hq_step_loop _ _ N) in EQ.
  pose proof (step_loop_vsame (SW s) e N) as V. rewrite <- (SW_cons _ _ _ T) in V. pose proof V as (_ & V2 & _).
  split; [|split; [split|split; [|split; [exact EH|exact V2]]]].
  - unfold A. rewrite T. apply (A_emit_loop e s N HA).
  - apply (Base_transfer s); assumption.
  - rewrite EH. intros Hok. pose proof (St (hyp_step_mono _ _ Hok)) as S. destruct (F Hok S) as [F1 F2].
    apply (Strict_flags g g' s s' S); rewrite ?U, ?EH; auto.
  - split; [apply Relw_modal; rewrite V2; apply frames_le_refl|rewrite EH; apply hyp_step_mono].
Qed.

(* The contract of the calls of the loop.  What a call [c] is owed ([PreC c]) is the invariant, with two exceptions.
   execute_new_loop is called when the frame of the modal screen has just been opened: that frame is not closed whatever
   [run_loop] says, so the clause [s_G] of the invariant is suspended ([InvG false]) until ENewLoopEnter, after which, under
   the trace hypothesis, [run_loop] is true.  close_loop sets [run_loop] to false, and the invariant then asks that the
   innermost frame be closed: the caller owes [head_closed].
   What a call promises ([PostC c]): the invariant; [Rel (balc c o)], the frames of the start still there, in order, none
   re-opened and, when [balc c o], none added: so after a normal return or an ordinary exception ([bal]), except for run(),
   which returns normally also when ExitMainLoop ends it and frames are left open; and [Spec c o]: _mainloop returns
   normally only when [run_loop] was false, so by [s_G] with the innermost frame closed, and then sets [run_loop] again
   (unless the loop was told to quit): the invariant no longer says that the frame is closed, so _mainloop, and
   execute_new_loop which ends with it, say so themselves ([LoopLeft]; push_screen_modal needs it to report the return). *)
Definition PreC (c : call sstate) s : Prop :=
  match c with
  | CApi (ANewLoop _) => InvG false s
  | CApi ACloseLoop => Inv s /\ (h_ok (HH s) = true -> head_closed (sw_modal (SW s)))
  | CProg _ => False
  | _ => Inv s
  end.
Definition balc (c : call sstate) (o : outcome) : bool := match c with CRun => false | _ => bal o end.
Definition LoopLeft s' : Prop :=
  (force_quit s' = false -> run_loop s' = true) /\ (h_ok (HH s') = true -> head_closed (sw_modal (SW s'))).
Definition Spec (c : call sstate) (o : outcome) s' : Prop :=
  match c with
  | CMainloop | CApi (ANewLoop _) => o = ONormal -> LoopLeft s'
  | _ => True
  end.
Definition PostC (c : call sstate) s (o : outcome) s' : Prop := Inv s' /\ Rel (balc c o) s s' /\ Spec c o s'.
Definition Res (c : call sstate) s (o : outcome) s' : Prop := A s' /\ (o <> OFuel -> PostC c s o s').

Definition LoopOK (n : nat) : Prop := forall c s, A s -> PreC c s -> hoare code n c s (Res c s).
Definition HOK (n : nat) : Prop :=
  forall hid sg data s, Inv s -> run n s (code hid sg data) (fun o s' => Inv s' /\ Rel (bal o) s s').

Lemma balc_bal c o : c <> CRun -> balc c o = bal o.
Proof. destruct c; try reflexivity. congruence. Qed.

Lemma Spec_abnormal c o s' : o <> ONormal -> Spec c o s'.
Proof. intros N. destruct c as [| | | | | |[]|]; try exact I; intros E; destruct (N E). Qed.

(* [s2] is reached from [s] with the frames in place ([b]: none added): a call begun in [s] may go on, or end, in [s2] *)
Definition Reach (b : bool) s s2 : Prop := A s2 /\ Inv s2 /\ Rel b s s2.
Lemma Reach_refl s : A s -> Inv s -> Reach true s s.
Proof. intros HA HI. split; [exact HA|split; [exact HI|apply Rel_refl]]. Qed.
Lemma Reach_keep b s s1 s2 : Reach b s s1 -> Keep s1 s2 -> Reach b s s2.
Proof.
  intros (A1 & I1 & R1) K. split; [apply (k_A _ _ K), A1|split; [eapply Keep_inv; eauto|]].
  eapply Rel_trans_r; [exact R1|apply Keep_rel, K].
Qed.
Lemma Reach_of_keep s s2 : A s -> Inv s -> Keep s s2 -> Reach true s s2.
Proof. intros HA HI. apply Reach_keep, Reach_refl; assumption. Qed.
Lemma Reach_step b s s1 s2 : Reach true s s1 -> A s2 -> Inv s2 -> Rel b s1 s2 -> Reach b s s2.
Proof. intros (_ & _ & R1) A2 I2 R2. split; [exact A2|split; [exact I2|eapply Rel_trans_l; eauto]]. Qed.
Lemma Res_out c s s2 o : Reach (balc c o) s s2 -> Spec c o s2 -> Res c s o s2.
Proof. intros (A2 & I2 & R2) SP. split; [exact A2|]. intros _. split; [exact I2|split; [exact R2|exact SP]]. Qed.
Lemma Res_done c s s2 o : Reach true s s2 -> Spec c o s2 -> Res c s o s2.
Proof. intros (A2 & I2 & R2). apply Res_out. split; [exact A2|split; [exact I2|apply Rel_weaken, R2]]. Qed.
Lemma Res_keep c s s2 o : A s -> Inv s -> Keep s s2 -> Spec c o s2 -> Res c s o s2.
Proof. intros HA HI K. apply Res_done, Reach_of_keep; assumption. Qed.
(* the result of a sub-call begun in [s2] is the result of the call *)
Lemma Res_from c c2 s s2 o s3 : Rel true s s2 -> c <> CRun -> c2 <> CRun -> Res c2 s2 o s3 ->
  (Spec c2 o s3 -> Spec c o s3) -> Res c s o s3.
Proof.
  intros R NR NR2 [HA HP] SP. split; [exact HA|]. intros NF. destruct (HP NF) as (I & R2 & S2).
  split; [exact I|split; [|apply SP, S2]]. rewrite (balc_bal c2 o NR2) in R2. rewrite (balc_bal c o NR).
  eapply Rel_trans_l; eauto.
Qed.

Ltac inj E := injection E as <- <-.

(* one step of [exec] for each call, the sub-calls running with fuel [f <= n] *)
Section Calls.
Variable n : nat.
Hypothesis L : LoopOK n.
Variable f : nat.
Hypothesis Hf : f <= n.

Lemma Res_call c c2 s s2 o s3 : Reach true s s2 -> (Inv s2 -> PreC c2 s2) -> c <> CRun -> c2 <> CRun ->
  exec code f c2 s2 = (o, s3) -> (Spec c2 o s3 -> Spec c o s3) -> Res c s o s3.
Proof.
  intros (A2 & I2 & R2) HP NR NR2 E SP. apply (Res_from c c2 s s2); auto. exact (L c2 s2 A2 (HP I2) f o s3 Hf E).
Qed.

(* a sub-call and, if it returns normally, the rest [k] of the call *)
Lemma Res_bind c c2 s s2 (k : st -> outcome * st) o s' :
  Reach true s s2 -> (Inv s2 -> PreC c2 s2) -> c <> CRun -> c2 <> CRun ->
  (let '(o1, s3) := exec code f c2 s2 in match o1 with ONormal => k s3 | _ => (o1, s3) end) = (o, s') ->
  (forall s3, Reach true s s3 -> Spec c2 ONormal s3 -> k s3 = (o, s') -> Res c s o s') -> Res c s o s'.
Proof.
  intros (A2 & I2 & R2) HP NR NR2 E K. refine (hoare_bind code n f c2 s2 k (Res c s) o s' Hf _ E).
  eapply hoare_conseq; [exact (L c2 s2 A2 (HP I2))|]. intros o1 s3 R3.
  assert (ABN : o1 <> ONormal -> Res c s o1 s3).
  { intros N. apply (Res_from c c2 s s2 o1 s3 R2 NR NR2 R3). intros _. apply Spec_abnormal, N. }
  destruct o1; try (apply ABN; discriminate).
  destruct R3 as [A3 P3]. destruct (P3 ltac:(discriminate)) as (I3 & R3 & S3). rewrite (balc_bal c2 _ NR2) in R3.
  apply (K s3); [split; [exact A3|split; [exact I3|eapply Rel_trans_l; eauto]]|exact S3].
Qed.

(* _process_signals_loop, _process_signals_with_return, _process_signals_iteration: a signal is taken, dispatched *)
Lemma Res_dispatch c s s1 e sg (k : st -> outcome * st) o s' :
  c <> CRun -> A s -> Inv s ->
  (let '(o1, s3) := exec code f (CProcessSignal sg 0) (emit e s1) in match o1 with ONormal => k s3 | _ => (o1, s3) end) = (o, s') ->
  Keep s s1 -> neutral_ev e = true ->
  (forall s3, Reach true s s3 -> k s3 = (o, s') -> Res c s o s') -> Res c s o s'.
Proof.
  intros NR HA HI E K1 N K. apply (Res_bind c (CProcessSignal sg 0) s (emit e s1) k); auto; try discriminate.
  - apply Reach_of_keep, Keep_emit_r; assumption.
  - intros s3 R3 _ E3. apply (K s3); assumption.
Qed.

Lemma call_step c s o s' : HOK n -> A s -> PreC c s -> exec code (S f) c s = (o, s') -> Res c s o s'.
Proof.
  intros HK HA HP E. destruct c; cbn [exec] in E.
  - (* CRun *)
    cbn [PreC] in HP. set (s0 := emit ERunEnter _) in E.
    destruct (flag_event true true ERunEnter s s0 eq_refl eq_refl eq_refl HA HP) as (A0 & I0 & R0 & _).
    { intros _ _. split; [reflexivity|cbn; discriminate]. }
    destruct (exec code f CMainloop s0) as [o1 s1] eqn:E1.
    destruct (L CMainloop s0 A0 I0 f o1 s1 Hf E1) as [A1 P1].
    assert (FIN : forall o2 s2, Keep s1 s2 -> o1 <> OFuel -> Res CRun s o2 s2).
    { intros o2 s2 K NF. destruct (P1 NF) as (I1 & R1 & _). apply Res_out; [|exact I].
      apply (Reach_keep _ s s1); [|exact K]. split; [exact A1|split; [exact I1|eapply Rel_trans_false; eauto]]. }
    assert (K2 : Keep s1 (emit ERunReturn (match quit_cb s1 with Some a => emit (EQuitCb a) s1 | None => s1 end))).
    { apply Keep_emit_r; [|reflexivity]. destruct (quit_cb s1); [apply Keep_emit; reflexivity|apply Keep_refl]. }
    destruct o1 as [|[| |]| |]; inj E; try (apply FIN; [first [exact K2|apply Keep_refl]|discriminate]).
    split; [exact A1|congruence].
  - (* CMainloop *)
    cbn [PreC] in HP.
    destruct (run_loop s) eqn:RL.
    + apply (Res_bind CMainloop CProcLoop s s (fun s1 => exec code f CMainloop s1)); auto using Reach_refl; try discriminate.
      intros s3 R3 _ E3. apply (Res_call CMainloop CMainloop s s3); auto; discriminate.
    + set (sx := if force_quit s then s else _) in E. inj E. destruct HP as [B St].
      assert (T : trace sx = trace s) by (unfold sx; destruct (force_quit s); reflexivity).
      assert (U : ust sx = ust s) by (unfold sx; destruct (force_quit s); reflexivity).
      assert (F : force_quit sx = force_quit s) by (unfold sx; destruct (force_quit s) eqn:F0; cbn; exact F0).
      assert (Ew : SW sx = SW s) by (unfold SW; rewrite T; reflexivity).
      assert (Eh : HH sx = HH s) by (unfold HH; rewrite T; reflexivity).
      assert (RLx : force_quit s = false -> run_loop sx = true) by (intros F0; unfold sx; rewrite F0; reflexivity).
      split; [eapply A_trace; eauto|]. intros _. split; [|split].
      * split; [apply (Base_transfer s sx); [rewrite Ew; apply vsame_refl|exact U|unfold HQ; rewrite T; reflexivity|exact B]|].
        rewrite Eh. intros Hok. pose proof (St Hok) as S. pose proof (s_fq _ _ S) as F0.
        apply (Strict_flags true true s sx S); rewrite ?Ew, ?U, ?F, ?(RLx F0); auto; discriminate.
      * cbn [balc bal]. split; [rewrite Ew; apply Relw_refl|rewrite Eh; auto].
      * intros _. split.
        -- rewrite F. exact RLx.
        -- rewrite Eh, Ew. intros Hok. destruct (St Hok) as [S1 S2 S3 S4]. apply S4; auto.
  - (* CProcLoop *)
    cbn [PreC] in HP.
    destruct (run_loop s) eqn:RL; [|inj E; apply Res_done; [apply Reach_refl; assumption|exact I]].
    destruct (do_get s) as [[[sg s1]|]|s1] eqn:G.
    + eapply Res_dispatch; [discriminate|exact HA|exact HP|exact E|exact (Keep_do_get_some _ _ _ G)|reflexivity|].
      intros s3 R3 E3. apply (Res_call CProcLoop CProcLoop s s3); auto; discriminate.
    + inj E. apply Res_done; [apply Reach_refl; assumption|exact I].
    + apply (Res_call CProcLoop CProcLoop s s1); auto; try discriminate.
      exact (Reach_of_keep s s1 HA HP (Keep_do_get_ext _ _ G)).
  - (* CProcWait *)
    cbn [PreC] in HP.
    destruct (run_loop s) eqn:RL; [|inj E; apply Res_done; [apply Reach_refl; assumption|exact I]].
    destruct (do_get s) as [[[sg s1]|]|s1] eqn:G.
    + eapply Res_dispatch; [discriminate|exact HA|exact HP|exact E|exact (Keep_do_get_some _ _ _ G)|reflexivity|].
      cbv beta. intros s3 R3 E3. destruct (check_ticket (tickets s3) cls ticket) as [[[|] t']|].
      * inj E3. apply Res_done; [|exact I]. apply (Reach_keep true s s3); [exact R3|apply Keep_same; reflexivity].
      * apply (Res_call _ (CProcWait cls ticket) s s3); auto; discriminate.
      * inj E3. apply Res_done; [exact R3|exact I].
    + inj E. apply Res_done; [apply Reach_refl; assumption|exact I].
    + apply (Res_call _ (CProcWait cls ticket) s s1); auto; try discriminate.
      exact (Reach_of_keep s s1 HA HP (Keep_do_get_ext _ _ G)).
  - (* CProcIter *)
    cbn [PreC] in HP.
    destruct (negb (q_empty (get_q s (active s))) && run_loop s);
      [|inj E; apply Res_done; [apply Reach_refl; assumption|exact I]].
    destruct (q_pop (get_q s (active s))) as [[[[p cnt] sg] q']|] eqn:P;
      [|inj E; apply Res_done; [apply Reach_refl; assumption|exact I]].
    assert (GO : forall o s',
               (let s1 := set_q s (active s) q' in
                let s2 := emit (EDispatch (sg_id sg) (active s) (length (levels s))) s1 in
                let '(o, s3) := exec code f (CProcessSignal sg 0) s2 in
                match o with ONormal => exec code f (CProcIter (Some p)) s3 | _ => (o, s3) end) = (o, s') ->
               Res (CProcIter prio) s o s').
    { clear E. intros o0 s0' E. cbn zeta in E.
      eapply Res_dispatch; [discriminate|exact HA|exact HP|exact E|apply Keep_same; reflexivity|reflexivity|].
      intros s3 R3 E3. apply (Res_call _ (CProcIter (Some p)) s s3); auto; discriminate. }
    destruct prio as [p0|]; [|apply GO in E; exact E].
    destruct (p =? p0)%Z; [apply GO in E; exact E|].
    inj E. apply Res_keep; auto; [|exact I]. apply Keep_emit_r; [apply Keep_same; reflexivity|reflexivity].
  - (* CProcessSignal *)
    cbn [PreC] in HP.
    set (s0 := if (idx =? 0)%nat then _ else s) in E.
    assert (R0 : Reach true s s0).
    { apply Reach_of_keep; auto. unfold s0; destruct (idx =? 0)%nat; [apply Keep_same; reflexivity|apply Keep_refl]. }
    clearbody s0.
    assert (DONE : forall e, neutral_ev e = true -> forall o, Res (CProcessSignal sg idx) s o (emit e s0)).
    { intros e N o0. apply Res_done; [apply (Reach_keep true s s0); [exact R0|apply Keep_emit, N]|exact I]. }
    destruct (handlers_of s0 (sg_cls sg)) as [hs|].
    2:{ destruct (sg_cls sg =? CLS_EXCEPTION)%nat; inj E; apply DONE; reflexivity. }
    destruct (force_quit s0); [inj E; apply DONE; reflexivity|].
    destruct (nth_error hs idx) as [[hid data]|]; [|inj E; apply DONE; reflexivity].
    set (s1 := emit _ s0) in E.
    assert (R1 : Reach true s s1) by (apply (Reach_keep true s s0); [exact R0|apply Keep_emit; reflexivity]).
    destruct (exec code f (CProg (code hid sg data)) s1) as [o1 s2] eqn:E1.
    destruct (HK hid sg data s1 (proj1 (proj2 R1)) (proj1 R1) f o1 s2 Hf E1) as [A2 Q2].
    assert (R2 : o1 <> OFuel -> Reach (bal o1) s s2).
    { intros NF. destruct (Q2 NF) as [I2 R2]. exact (Reach_step _ _ _ _ R1 A2 I2 R2). }
    destruct o1 as [|[| |]| |]; cbn [bal] in R2.
    + refine (Res_call _ _ s _ _ _ _ _ _ _ E _); [|auto|discriminate|discriminate|auto].
      apply (Reach_keep true s s2); [apply R2; discriminate|apply Keep_emit; reflexivity].
    + inj E. apply Res_out; [|exact I].
      apply (Reach_keep _ s s2); [apply R2; discriminate|apply Keep_emit; reflexivity].
    + set (s3 := emit _ s2) in E. pose proof (Keep_new_signal s3 exception_spec) as K4.
      destruct (new_signal s3 exception_spec) as [xs s4]. cbn [snd] in K4.
      refine (Res_call _ _ s _ _ _ _ _ _ _ E _); [|auto|discriminate|discriminate|auto].
      apply (Reach_keep true s s4); [|apply Keep_do_enqueue]. apply (Reach_keep true s s3); [|exact K4].
      apply (Reach_keep true s s2); [apply R2; discriminate|apply Keep_emit; reflexivity].
    + inj E. apply Res_out; [|exact I].
      apply (Reach_keep _ s s2); [apply R2; discriminate|apply Keep_emit; reflexivity].
    + inj E. apply Res_out; [apply R2; discriminate|exact I].
    + inj E. split; [exact A2|congruence].
  - (* CApi *)
    destruct c.
    + (* AEnqueue *)
      cbn [PreC] in HP. pose proof (Keep_new_signal s sp) as K1.
      destruct (new_signal s sp) as [sg s1]. cbn [snd] in K1. inj E.
      apply Res_keep; auto; [|exact I]. eapply Keep_trans; [exact K1|apply Keep_do_enqueue].
    + (* AForceQuit *)
      cbn [PreC] in HP. inj E. set (s1 := emit EForceQuit _).
      destruct (flag_event true true EForceQuit s s1 eq_refl eq_refl eq_refl HA HP) as (A1 & I1 & R1 & _); [cbn; discriminate|].
      split; [exact A1|]. intros _. split; [exact I1|split; [exact R1|exact I]].
    + (* ANewLoop *)
      cbn [PreC] in HP. pose proof (Keep_new_signal s sp) as K1.
      destruct (new_signal s sp) as [sg s1]. cbn [snd] in K1.
      pose proof (Keep_inv _ _ _ K1 HP) as I1. pose proof (k_A _ _ K1 HA) as A1.
      destruct (force_quit s1) eqn:FQ.
      { destruct I1 as [B1 S1]. inj E. split; [exact A1|]. intros _. split; [|split; [apply Keep_rel, K1|]].
        - split; [exact B1|]. intros Hok. destruct (S1 Hok) as [X _ _ _]. congruence.
        - intros _. split; [intros X; congruence|].
          intros Hok. destruct (S1 Hok) as [X _ _ _]. congruence. }
      set (s2e := emit (ENewLoopEnter _) _) in E.
      destruct (flag_event false true (ENewLoopEnter (length (qstore s1))) s1 s2e eq_refl eq_refl eq_refl A1 I1) as (A2 & I2 & R2 & _).
      { cbn [hyp_step h_ok h_rl]. intros Hok [X1 X2 _ _]. apply andb_true_iff in Hok. destruct Hok as [_ Hrl].
        split; [exact X1|]. intros RL. rewrite (X2 RL) in Hrl. discriminate. }
      eapply (Res_bind _ CMainloop s (do_enqueue s2e sg)); [|auto|discriminate|discriminate|exact E|].
      * apply (Reach_keep true s s2e); [|apply Keep_do_enqueue].
        split; [exact A2|split; [exact I2|eapply Rel_trans_l; [apply Keep_rel, K1|exact R2]]].
      * cbv beta. intros s4 (A4 & I4 & R4) SP4 E4. inj E4. set (s5 := emit _ s4).
        destruct (SP4 eq_refl) as [RL4 HC4].
        destruct (flag_event true true (ENewLoopReturn (length (qstore s1))) s4 s5 eq_refl eq_refl eq_refl A4 I4) as (A5 & I5 & R5 & H5 & M5).
        { intros _ [X1 _ _ _]. split; [exact X1|]. intros RL. pose proof (RL4 X1 : run_loop s5 = true). congruence. }
        split; [exact A5|]. intros _. split; [exact I5|split].
        -- cbn [balc bal]. eapply Rel_trans_l; [exact R4|exact R5].
        -- intros _. split; [exact RL4|]. rewrite H5, M5. cbn [hyp_step h_ok]. exact HC4.
    + (* ACloseLoop: process_signals(), then the level is popped *)
      cbn [PreC] in HP. destruct HP as [HI HC].
      eapply (Res_bind _ (CProcIter None) s (emit (EProcEnter None 0) s)); [|auto|discriminate|discriminate|exact E|].
      { apply Reach_of_keep, Keep_emit; auto. }
      cbv beta. intros s1 R1 _ E1. set (s2 := emit (EProcReturn None 0) s1) in E1.
      assert (R2 : Reach true s s2) by (apply (Reach_keep true s s1); [exact R1|apply Keep_emit; reflexivity]).
      destruct (rev (levels s2)) as [|top rest_rev] eqn:RV; [inj E1; apply Res_done; [exact R2|exact I]|].
      (* whatever becomes of [run_loop]: the flag of the trace hypothesis is down, and the innermost frame closed *)
      assert (FIN : forall s5 o5, trace s5 = EClosePop top :: trace s2 -> ust s5 = ust s2 -> force_quit s5 = force_quit s2 ->
                                  Res (CApi ACloseLoop) s o5 s5).
      { intros s5 o5 T5 U5 F5. pose proof R2 as (A2 & I2 & [Rw Mono]).
        destruct (flag_event true true (EClosePop top) s2 s5 eq_refl T5 U5 A2 I2) as (A5 & I5 & R5 & _).
        { intros Hok [X1 _ _ _]. split; [congruence|]. intros _. split; [reflexivity|]. intros _.
          apply (Relw_head_closed _ _ Rw), HC, Mono, Hok. }
        apply Res_done; [exact (Reach_step _ _ _ _ R2 A5 I5 R5)|exact I]. }
      destruct rest_rev as [|q r]; inj E1; apply FIN; reflexivity.
    + (* AProcess *)
      cbn [PreC] in HP. destruct return_after as [cls|].
      * destruct (take_ticket (tickets s) cls) as [t tm].
        eapply (Res_bind _ (CProcWait cls t) s (emit (EProcEnter (Some cls) t) (s <| tickets := tm |>)));
          [|auto|discriminate|discriminate|exact E|].
        -- apply Reach_of_keep, Keep_emit_r; auto. apply Keep_same; reflexivity.
        -- cbv beta. intros s2 R2 _ E2. inj E2. apply Res_done; [|exact I].
           apply (Reach_keep true s s2); [exact R2|apply Keep_emit; reflexivity].
      * eapply (Res_bind _ (CProcIter None) s (emit (EProcEnter None 0) s)); [|auto|discriminate|discriminate|exact E|].
        -- apply Reach_of_keep, Keep_emit; auto.
        -- cbv beta. intros s2 R2 _ E2. inj E2. apply Res_done; [|exact I].
           apply (Reach_keep true s s2); [exact R2|apply Keep_emit; reflexivity].
    + inj E. apply Res_keep; auto; [|exact I]. apply Keep_emit_r; [apply Keep_same; reflexivity|reflexivity].
    + inj E. apply Res_keep; auto; [|exact I]. apply Keep_emit_r; [apply Keep_same; reflexivity|reflexivity].
    + inj E. apply Res_keep; auto; [|exact I]. apply Keep_emit_r; [apply Keep_same; reflexivity|reflexivity].
    + inj E. apply Res_keep; auto; [|exact I]. apply Keep_same; reflexivity.
  - (* CProg *) destruct HP.
Qed.
End Calls.

Definition Post s (o : outcome) s' : Prop := Inv s' /\ Rel (bal o) s s'.
Definition std (n : nat) s (p : sprog) : Prop := run n s p (Post s).

Lemma run_api n s a (Q : outcome -> st -> Prop) :
  LoopOK n -> PreC (CApi a) s -> (forall o s', PostC (CApi a) s o s' -> Q o s') -> run n s (PApi a) Q.
Proof.
  intros L HP HQ HA. apply hoare_api. eapply hoare_conseq; [exact (L (CApi a) s HA HP)|]. intros o s' [A' P']. split; auto.
Qed.

(* execute_new_loop passes on what _mainloop lets through, and that is never an ordinary exception ([no_error_Exec]) *)
Lemma run_newloop n s sp (Q : outcome -> st -> Prop) :
  LoopOK n -> InvG false s -> (forall o s', o <> OThrow XError -> PostC (CApi (ANewLoop sp)) s o s' -> Q o s') ->
  run n s (PApi (ANewLoop sp)) Q.
Proof.
  intros L HP HQ HA. apply hoare_api, (hoare_Exec code n _ s _ (fun o _ => o <> OThrow XError)).
  - intros o s' X. exact (no_error_Exec code _ _ _ _ X eq_refl).
  - eapply hoare_conseq; [exact (L (CApi (ANewLoop sp)) s HA HP)|]. intros o s' [A' P'] NX.
    split; [exact A'|]. intros NF. exact (HQ o s' NX (P' NF)).
Qed.

Definition simple_api (a : api) : Prop := match a with ANewLoop _ | ACloseLoop => False | _ => True end.
Lemma std_api n s a : LoopOK n -> simple_api a -> Inv s -> std n s (PApi a).
Proof.
  intros L SA HI. apply run_api; [exact L|destruct a; try exact HI; destruct SA|].
  intros o s' (I' & R' & _). split; [exact I'|]. destruct a; try exact R'; destruct SA.
Qed.

Lemma std_keep s s1 : Keep s s1 -> Inv s -> Post s ONormal s1.
Proof. intros K HI. split; [eapply Keep_inv; eauto|apply Keep_rel, K]. Qed.

Lemma run_regsource n s o (Q : outcome -> st -> Prop) :
  Q ONormal (emit (ERegSource o (active s)) (set_q s (active s) (q_add_source (get_q s (active s)) o))) ->
  run n s (PApi (ARegSource o)) Q.
Proof.
  intros HQ HA. apply hoare_api. eapply hoare_api_exact; [reflexivity|split; [exact HA|congruence]|]. split; [|intros _; exact HQ].
  apply A_emit_loop; [reflexivity|]. eapply A_trace; [|exact HA]. reflexivity.
Qed.
Lemma Keep_regsource s o : Keep s (emit (ERegSource o (active s)) (set_q s (active s) (q_add_source (get_q s (active s)) o))).
Proof. apply Keep_emit_r; [apply Keep_same; reflexivity|reflexivity]. Qed.

(* programs all of whose steps are invisible to the invariant: begun [Keep] away from [s0], they end [Keep] away from it *)
Definition KeepPost s0 (o : outcome) s1 : Prop := o = ONormal /\ Keep s0 s1.
Lemma run_seq_keep n s0 s p q (Q : outcome -> st -> Prop) :
  run n s p (KeepPost s0) -> (forall s1, Keep s0 s1 -> run n s1 q Q) -> run n s (p ;; q) Q.
Proof. intros Hp Hq. apply run_seq. eapply run_conseq; [exact Hp|]. intros o s1 [-> K]. apply Hq, K. Qed.
Lemma keep_ret n s0 s : Keep s0 s -> run n s PRet (KeepPost s0).
Proof. intros K. apply run_ret. split; [reflexivity|exact K]. Qed.
Lemma keep_wr n s0 s g : Keep s0 s -> st_stack (g (ust s)) = st_stack (ust s) -> st_next_sd (g (ust s)) = st_next_sd (ust s) ->
  ihs (g (ust s)) = ihs (ust s) -> run n s (wr g) (KeepPost s0).
Proof. intros K U1 U2 U3. apply run_wr. split; [reflexivity|]. eapply Keep_trans; [exact K|apply Keep_wr; assumption]. Qed.
Lemma keep_emit n s0 s e : Keep s0 s -> Keep s (emit (user_event e) s) -> run n s (PEmit e) (KeepPost s0).
Proof. intros K0 K. apply run_emit; [exact (k_A _ _ K)|]. split; [reflexivity|eapply Keep_trans; eauto]. Qed.
Lemma keep_regsource n s0 s o : Keep s0 s -> run n s (PApi (ARegSource o)) (KeepPost s0).
Proof. intros K. apply run_regsource. split; [reflexivity|]. eapply Keep_trans; [exact K|apply Keep_regsource]. Qed.

Lemma std_ret n s : Inv s -> std n s PRet.
Proof. intros HI. apply run_ret. split; [exact HI|apply Rel_refl]. Qed.
Lemma std_throw n s x : Inv s -> std n s (PThrow x).
Proof. intros HI. apply run_throw. split; [exact HI|apply Rel_refl]. Qed.

Lemma run_seq_std n s p q (Q : outcome -> st -> Prop) :
  std n s p -> (forall s1, Inv s1 -> Rel true s s1 -> run n s1 q Q) ->
  (forall o s1, o <> ONormal -> Inv s1 -> Rel (bal o) s s1 -> Q o s1) -> run n s (p ;; q) Q.
Proof.
  intros Hp Hq Hx. apply run_seq. eapply run_conseq; [exact Hp|]. intros o s1 [I1 R1].
  destruct o; try (apply Hx; [discriminate|exact I1|exact R1]). apply Hq; assumption.
Qed.
Lemma std_post_l s s1 o s2 : Rel true s s1 -> Post s1 o s2 -> Post s o s2.
Proof. intros R [I2 R2]. split; [exact I2|eapply Rel_trans_l; eauto]. Qed.

(* the rest of a program begun in [s0] *)
Lemma run_std_post n s0 s p : Rel true s0 s -> std n s p -> run n s p (Post s0).
Proof. intros R0 Hp. eapply run_conseq; [exact Hp|]. intros o s1 P. eapply std_post_l; eauto. Qed.
Lemma run_seq_post n s0 s p q :
  Rel true s0 s -> std n s p -> (forall s1, Inv s1 -> Rel true s0 s1 -> run n s1 q (Post s0)) -> run n s (p ;; q) (Post s0).
Proof.
  intros R0 Hp Hq. apply run_seq_std; [exact Hp|intros s1 I1 R1; apply Hq; [exact I1|eapply Rel_trans_l; eauto]|].
  intros o s1 _ I1 R1. split; [exact I1|eapply Rel_trans_l; eauto].
Qed.

Lemma std_seq n s p q : std n s p -> (forall s1, Inv s1 -> std n s1 q) -> std n s (p ;; q).
Proof.
  intros Hp Hq. apply (run_seq_post n s s); [apply Rel_refl|exact Hp|].
  intros s1 I1 R1. apply (run_std_post n s s1 _ R1), Hq, I1.
Qed.
Lemma std_try n s p h : std n s p -> (forall s1, Inv s1 -> std n s1 h) -> std n s (PTry p h).
Proof.
  intros Hp Hh. apply run_try. eapply run_conseq; [exact Hp|]. intros o s1 [I1 R1].
  destruct o as [|[| |]| |]; try (split; assumption).
  eapply run_conseq; [apply Hh, I1|]. intros o s2 P2. eapply std_post_l; eauto.
Qed.
Lemma std_rd n s k : std n s (k (ust s)) -> std n s (rd k).
Proof. apply run_rd. Qed.

Lemma ihs_upd_ih m (f : ihandler -> ihandler) u :
  (forall h, ih_owner (f h) = ih_owner h /\ ih_cb (f h) = ih_cb h) -> ihs (upd_ih m f u) = ihs u.
Proof. intros Hf. apply map_upd_nth. intros h. destruct (Hf h) as [-> ->]. reflexivity. Qed.
Lemma ih_of_upd_ih {Y} (g : ihandler -> Y) m f u k : (forall h, g (f h) = g h) -> g (ih_of (upd_ih m f u) k) = g (ih_of u k).
Proof. intros Hf. unfold ih_of, upd_ih. cbn [st_ih set]. rewrite <- !(map_nth g), map_upd_nth by exact Hf. reflexivity. Qed.
Lemma ihs_upd_ih_nth m f u k :
  nth_error (ihs (upd_ih m f u)) k =
  if (k =? m)%nat then option_map (fun h => (ih_owner (f h), ih_cb (f h))) (nth_error (st_ih u) k) else nth_error (ihs u) k.
Proof.
  unfold ihs, upd_ih. cbn [st_ih set]. rewrite !nth_error_map, nth_error_upd_nth.
  destruct (k =? m)%nat; [destruct (nth_error (st_ih u) k)|]; reflexivity.
Qed.
Lemma Inv_ih_weaken g s s' : trace s' = trace s -> st_stack (ust s') = st_stack (ust s) ->
  st_next_sd (ust s') = st_next_sd (ust s) -> run_loop s' = run_loop s -> force_quit s' = force_quit s ->
  (forall m A, nth_error (ihs (ust s')) m = Some (A, true) -> nth_error (ihs (ust s)) m = Some (A, true)) ->
  InvG g s -> InvG g s'.
Proof.
  intros T U1 U2 RL FQ W HI. apply (Inv_vsame g s); auto; unfold SW, HH, HQ; rewrite ?T; [apply vsame_refl|reflexivity|].
  exact (IQ_ih_weaken _ _ _ _ W (b_iq _ (proj1 HI))).
Qed.
Lemma Rel_same_trace s s' : trace s' = trace s -> Rel true s s'.
Proof. intros T. unfold Rel, SW, HH. rewrite T. split; [apply Relw_refl|auto]. Qed.

Lemma std_wr n s g : (forall u, st_stack (g u) = st_stack u) -> (forall u, st_next_sd (g u) = st_next_sd u) ->
  (forall u, ihs (g u) = ihs u) -> Inv s -> std n s (wr g).
Proof. intros G1 G2 G3 HI. apply run_wr, std_keep; [apply Keep_wr; auto|exact HI]. Qed.

(* [inert3]: [inert2] and neither the monitor of the prompts nor the T_INPUT acceptor looks at the event: no acceptor and no
   layer of the invariant sees it ([Keep_user]) *)
Definition inert3 (tag : nat) : bool :=
  inert2 tag && negb ((tag =? T_REQ)%nat || (tag =? T_READY)%nat || (tag =? T_INPUT)%nat).
Lemma hq_step_inert h tag a t : (tag =? T_STACK)%nat = false -> (tag =? T_REQ)%nat = false -> (tag =? T_READY)%nat = false ->
  hq_step h (EUser tag a t) = h.
Proof. intros E1 E2 E3. cbn [hq_step]. rewrite E1, E2, E3. reflexivity. Qed.
(* a user event that leaves the world as it is *)
Lemma Keep_user_vsame tag a t s : vsame (SW s) (user_step (SW s) tag a t) -> hq_step (HQ s) (EUser tag a t) = HQ s ->
  (A s -> A (emit (EUser tag a t) s)) -> Keep s (emit (EUser tag a t) s).
Proof.
  intros V Eq HA. split; try reflexivity; [rewrite SW_emit; exact V|apply HH_emit|exact HA|rewrite HQ_emit; exact Eq].
Qed.
(* ... because its tag is none of T_OP, T_STACK, T_MODAL_RETURN: what is left to show is that the acceptors accept it *)
Lemma Keep_inert tag a t s : inert_tag tag = true -> hq_step (HQ s) (EUser tag a t) = HQ s ->
  (forall b, relax_setup specs (chk_C05_shield_gen b) (SW s) (EUser tag a t) = true) ->
  (hqok (HQ s) = true -> chk_C05_input (SW s) (EUser tag a t) = true) ->
  Keep s (emit (EUser tag a t) s).
Proof.
  intros N Eq C CI. apply Keep_user_vsame; [apply step_inert_vsame, N|exact Eq|]. intros HA.
  apply A_emit_relaxed; [exact HA|apply C|intros _ _; apply C|apply chk_below_not_stack, inert_not_stack, N|intros Hok _; apply CI, Hok].
Qed.
Lemma Keep_user tag a t s : inert3 tag = true -> Keep s (emit (EUser tag a t) s).
Proof.
  intros H3. apply andb_true_iff in H3. destruct H3 as [H H3].
  apply negb_true_iff in H3. apply orb_false_iff in H3. destruct H3 as [H3 E3]. apply orb_false_iff in H3. destruct H3 as [E1 E2].
  pose proof (proj1 (proj1 (andb_true_iff _ _) H)) as H1.
  apply Keep_inert; [exact H1|apply hq_step_inert; [apply inert_not_stack, H1|exact E1|exact E2]| |intros _; apply chk_input_other, E3].
  intros b. apply relax_setup_of, chk_plain, inert2_plain, H.
Qed.
Lemma std_evt n s tag a t : inert3 tag = true -> Inv s -> std n s (evt tag a t).
Proof.
  intros H HI. unfold evt. apply run_emit.
  - apply (k_A _ _ (Keep_user tag a t s H)).
  - apply std_keep. exact (Keep_user tag a t s H). exact HI.
Qed.
Lemma std_ev n s tag a : inert3 tag = true -> Inv s -> std n s (ev tag a).
Proof. apply std_evt. Qed.

Lemma std_while n s c b : (forall s1, Inv s1 -> std n s1 b) -> Inv s -> std n s (PWhile c b).
Proof.
  intros Hb HI. apply (run_while n c b (fun s1 => Inv s1 /\ Rel true s s1)).
  - intros s1 [I1 R1] _. eapply run_conseq; [apply Hb, I1|]. intros o s2 [I2 R2].
    destruct o; (split; [exact I2|eapply Rel_trans_l; eauto]).
  - intros s1 [I1 R1] _. split; assumption.
  - split; [exact HI|apply Rel_refl].
Qed.

(* [auto with std] follows the structure of a program whose events are inert and whose calls of the loop are simple *)
Create HintDb std.
Hint Resolve std_ret std_throw std_seq std_try std_rd std_wr std_ev std_evt std_api std_while : std.
Hint Extern 1 (inert3 _ = true) => reflexivity : std.
Hint Extern 1 (simple_api _) => exact I : std.
Hint Extern 1 (ihs (upd_ih _ _ _) = ihs _) => apply ihs_upd_ih; intros; split; reflexivity : std.
Hint Extern 2 (std _ _ (match ?x with _ => _ end)) => destruct x : std.
(* the sub-programs that need no lemma of their own are opened when no rule applies *)
Hint Extern 5 (std _ _ _) =>
  progress unfold sched_redraw, raise_exception_signal, start_thread, start_input_thread, emit_ready, input_received_handler,
    handler_get_input, get_input_blocking, handler_ask, handler_wait, with_top, push_screen_modal, run_cmds, call_closed,
    process_input_result, custom_handler : std.

Lemma A_user_plain tag a t s : plain_tag tag = true -> (tag =? T_STACK)%nat = false -> (tag =? T_INPUT)%nat = false ->
  A s -> A (emit (EUser tag a t) s).
Proof.
  intros H H2 H3 HA. apply A_emit; [exact HA|apply chk_plain, H|intros _ _; apply chk_plain, H|apply chk_below_not_stack, H2|].
  intros _ _. apply chk_input_other, H3.
Qed.
Lemma A_user_stack a t s : chk_C05_below (SW s) (EUser T_STACK a t) = true -> A s -> A (emit (EUser T_STACK a t) s).
Proof. intros H HA. apply A_emit; [exact HA|reflexivity|intros _ _; reflexivity|exact H|intros _ _; reflexivity]. Qed.

Lemma run_wr_seq n s g q (Q : outcome -> st -> Prop) :
  run n (s <| ust := g (ust s) |>) q Q -> run n s (wr g ;; q) Q.
Proof. intros R. apply run_seq. apply run_wr. exact R. Qed.

Lemma e_of_modal d : en_modal (e_of d) = sd_modal d. Proof. reflexivity. Qed.
Lemma e_of_id d : en_id (e_of d) = sd_id d. Proof. reflexivity. Qed.

(* Between two events of one operation the concrete state is ahead of the trace (the stack is written before the event is
   logged), so what holds there is about the trace and a configuration of the stack machine [wev], not about [ust].
   [Mid s0 F c ih t]: the operation began in [s0] and has come to the trace [t]; [c] is the configuration now, [ih] the input
   handlers, [F] what has been done to the frames so far *)
Definition Mid s0 (F : list mframe -> list mframe) (c : wcfg) (ih : list (nat * bool)) (t : list event) : Prop :=
  WB c (SWt t) /\ IQg (Hqt t) (c_stk c) ih /\ (h_ok (Ht t) = true -> WJ c (SWt t)) /\
  sw_modal (SWt t) = F (sw_modal (SW s0)) /\ Ht t = HH s0.

Lemma Mid_start g s : InvG g s ->
  Mid s (fun l => l) (Build_wcfg None (st_stack (ust s)) (st_next_sd (ust s)) []) (ihs (ust s)) (trace s).
Proof. intros [[B Q] St]. split; [exact B|split; [exact Q|split; [|split; reflexivity]]]. intros Hok. apply (s_J _ _ (St Hok)). Qed.

Lemma Mid_frames s0 F c ih t : Mid s0 F c ih t -> sw_modal (SWt t) = F (sw_modal (SW s0)).
Proof. intros H. apply H. Qed.
Lemma Mid_hyp s0 F c ih t : Mid s0 F c ih t -> Ht t = HH s0.
Proof. intros H. apply H. Qed.

Lemma IQ_wev c e F c' h ih : wev c e F c' -> IQg h (c_stk c) ih -> IQg (hq_step h e) (c_stk c') ih.
Proof.
  intros V Q. destruct V; cbn [c_stk]; [exact Q|apply IQ_append, Q|apply IQ_append, Q|apply IQ_addfirst; assumption|apply IQ_pop, Q..].
Qed.
Lemma Mid_wev s0 G c ih t e F c' : Mid s0 G c ih t -> wev c e F c' -> Mid s0 (fun l => F (G l)) c' ih (e :: t).
Proof.
  intros (B & Q & J & M & H) V. unfold Mid. rewrite !SWt_cons, Hqt_cons, Ht_cons.
  destruct (wev_ok _ _ _ _ _ V B) as (B' & M' & J').
  assert (EH : hyp_step (Ht t) e = Ht t) by (destruct V; reflexivity). rewrite EH, M', M.
  split; [exact B'|split; [exact (IQ_wev _ _ _ _ _ _ V Q)|auto]].
Qed.

(* the frames [F l] are the frames [l], none re-opened, behind new ones (none if [b]) *)
Definition FRel (b : bool) (F : list mframe -> list mframe) : Prop :=
  forall l, exists new fr, F l = new ++ fr /\ Forall2 frame_le l fr /\ (b = true -> new = []).
Lemma FRel_le F : (forall l, Forall2 frame_le l (F l)) -> FRel true F.
Proof. intros H l. exists [], (F l). auto. Qed.
Lemma FRel_new (m : bool) fs : FRel (negb m) (app (if m then fs else [])).
Proof. intros l. exists (if m then fs else []), l. split; [reflexivity|split; [apply frames_le_refl|]]. destruct m; [discriminate|reflexivity]. Qed.

(* the operation is over: the state has caught up with the configuration *)
Lemma Mid_Inv g b s0 F c ih s' : InvG g s0 -> Mid s0 F c ih (trace s') -> wcfg_of s' = c -> ihs (ust s') = ih ->
  run_loop s' = run_loop s0 -> force_quit s' = force_quit s0 -> FRel b F -> InvG (g && b) s' /\ Rel b s0 s'.
Proof.
  intros [_ St] (B & Q & J & M & H) <- <- RL FQ HF. change (HH s' = HH s0) in H. change (sw_modal (SW s') = F (sw_modal (SW s0))) in M.
  change (h_ok (HH s') = true -> WJ (wcfg_of s') (SW s')) in J. rewrite H in J.
  destruct (HF (sw_modal (SW s0))) as (new & fr & EF & Fr & Bn). rewrite EF in M.
  split; [split; [split; assumption|]|split; [exists new, fr; auto|rewrite H; auto]].
  rewrite H. intros Hok. destruct (St Hok) as [S1 S2 S3 S4]. split; rewrite ?H, ?RL, ?FQ; auto.
  intros G R0. apply andb_true_iff in G. destruct G as [-> Bb]. rewrite M, (Bn Bb). eapply head_closed_le; [exact Fr|auto].
Qed.

Lemma A_wev s0 G c ih e F c' s : Mid s0 G c ih (trace s) -> wev c e F c' -> A s -> A (emit e s).
Proof.
  intros M V HA. pose proof (wev_below _ _ _ _ _ V (proj1 M) : chk_C05_below (SW s) e = true) as C.
  destruct V; [apply A_user_plain; auto|apply A_user_stack; auto..].
Qed.
Lemma run_wev_last n s s0 G c ih tag a F c' (Q : outcome -> st -> Prop) :
  Mid s0 G c ih (trace s) -> wev c (EUser tag a []) F c' ->
  (Mid s0 (fun l => F (G l)) c' ih (trace (emit (EUser tag a []) s)) -> Q ONormal (emit (EUser tag a []) s)) ->
  run n s (ev tag a) Q.
Proof. intros M V R. unfold ev. apply run_emit; [exact (A_wev _ _ _ _ _ _ _ _ M V)|]. apply R, (Mid_wev _ _ _ _ _ _ _ _ M V). Qed.
Lemma run_wev_seq n s s0 G c ih tag a F c' q (Q : outcome -> st -> Prop) :
  Mid s0 G c ih (trace s) -> wev c (EUser tag a []) F c' ->
  (Mid s0 (fun l => F (G l)) c' ih (trace (emit (EUser tag a []) s)) -> run n (emit (EUser tag a []) s) q Q) ->
  run n s (ev tag a ;; q) Q.
Proof. intros M V R. apply run_seq, (run_wev_last n s s0 G c ih tag a F c' _ M V), R. Qed.

(* the pop that closes a modal entry closes the innermost frame; [s3]: the state after the pop *)
Lemma pop_closes s0 G t top r nxt x ih s3 :
  Mid s0 G (Build_wcfg None (top :: r) nxt x) ih t ->
  sw_modal (SW s3) = close_cur (sd_id top) (G (sw_modal (SW s0))) -> HH s3 = HH s0 ->
  sd_modal top = true -> h_ok (HH s3) = true -> head_closed (sw_modal (SW s3)).
Proof.
  intros (_ & _ & J & M & H) M3 H3 Mo Hok. rewrite M3, <- M. eapply WJ_head_closed; [apply J; rewrite H, <- H3; exact Hok|exact Mo].
Qed.

Lemma A_modal_return s5 id sc f' rest : A s5 -> sw_modal (SW s5) = f' :: rest -> mf_orig f' = id ->
  (h_ok (HH s5) = true -> mf_closed f' = true) -> A (emit (EUser T_MODAL_RETURN [id; sc] []) s5).
Proof.
  intros HA M O C. apply A_emit; [exact HA| | |reflexivity|intros _ _; reflexivity].
  - cbn. rewrite M. cbn [find]. rewrite O, Nat.eqb_refl. apply orb_true_r.
  - intros Hok _. cbn. rewrite M. cbn [find]. rewrite O, Nat.eqb_refl. rewrite (C Hok). reflexivity.
Qed.

(* the return of a modal push whose loop has ended: [run_loop = true] again, unless force_quit *)
Lemma Inv_modal_return s5 id sc f' rest : let s' := emit (EUser T_MODAL_RETURN [id; sc] []) s5 in
  Inv s5 -> sw_modal (SW s5) = f' :: rest -> mf_orig f' = id ->
  (h_ok (HH s5) = true -> mf_closed f' = true) -> (force_quit s5 = false -> run_loop s5 = true) ->
  Inv s' /\ sw_modal (SW s') = rest /\ HH s' = HH s5.
Proof.
  intros s' [[B Q] St] M O C RA.
  destruct (WB_modal_return _ _ id sc [] f' rest B M O) as (B' & EM & J').
  rewrite <- (SW_emit (EUser T_MODAL_RETURN [id; sc] []) s5 : SW s' = user_step (SW s5) T_MODAL_RETURN [id; sc] []) in B', EM, J'.
  pose proof (HH_emit (EUser T_MODAL_RETURN [id; sc] []) s5 : HH s' = HH s5) as Eh.
  split; [|split; [exact EM|exact Eh]]. split; [split; [exact B'|rewrite (HQ_emit _ s5 : HQ s' = HQ s5); exact Q]|].
  rewrite Eh. intros Hok. destruct (St Hok) as [S1 S2 S3 S4].
  split; [exact S1|rewrite Eh; exact S2|exact (J' (C Hok) S3)|]. intros _ R0. change (run_loop s5 = false) in R0. rewrite (RA S1) in R0. discriminate R0.
Qed.

Lemma Keep_top_event s0 s tag a t d r : top_tag tag = true -> Inv s0 -> st_stack (ust s0) = d :: r -> Keep s0 s -> nth0 a 0 = sd_id d ->
  Keep s (emit (EUser tag a t) s).
Proof.
  intros HT I0 U K N. pose proof (Keep_inv _ _ _ K I0) as [B _]. assert (U0 : st_stack (ust s) = d :: r) by (rewrite (k_u1 _ _ K); exact U).
  assert (C : forall b, chk_C05_shield_gen b (SW s) (EUser tag a t) = true).
  { intros b. apply (chk_shield_top b _ _ _ _ (e_of d) (map e_of r) HT); [|symmetry; exact N].
    rewrite (Base_stack _ B), U0. reflexivity. }
  destruct (top_tag_cases _ HT) as [->|[->|[->| ->]]];
    (apply Keep_inert; [reflexivity|reflexivity|intros b; apply relax_setup_of, C|intros _; reflexivity]).
Qed.
(* the return of a setup() with commands, and the refresh() of a screen with such a setup(): not checked *)
Lemma Keep_exempt_event s tag a t : tag = T_SETUP \/ tag = T_REFRESH -> has_cmds (specs (nth0 a 1)) = true ->
  Keep s (emit (EUser tag a t) s).
Proof.
  intros HT HC. apply Keep_inert.
  - destruct HT as [->| ->]; reflexivity.
  - destruct HT as [->| ->]; reflexivity.
  - intros b. cbn [relax_setup]. rewrite HC. destruct HT as [->| ->]; reflexivity.
  - intros _. apply chk_input_other. destruct HT as [->| ->]; reflexivity.
Qed.

(* an event that the world's stack and frames ignore; [Q]: what it does to the prompts' layer *)
Lemma Inv_inert_event g s s' tag a t : inert_tag tag = true -> trace s' = EUser tag a t :: trace s ->
  st_stack (ust s') = st_stack (ust s) -> st_next_sd (ust s') = st_next_sd (ust s) -> run_loop s' = run_loop s ->
  force_quit s' = force_quit s -> IQg (hq_step (HQ s) (EUser tag a t)) (st_stack (ust s)) (ihs (ust s')) ->
  InvG g s -> InvG g s' /\ Rel true s s'.
Proof.
  intros N T U1 U2 RL FQ Q HI.
  assert (V : vsame (SW s) (SW s')) by (rewrite (SW_cons _ _ _ T); apply step_inert_vsame, N).
  pose proof (HH_cons_user _ _ _ _ _ T) as Eh.
  split; [|apply Rel_vsame; assumption]. apply (Inv_vsame _ s); auto. rewrite (HQ_cons _ _ _ T). exact Q.
Qed.

Section Progs.
Variable n : nat.
Hypothesis L : LoopOK n.

Lemma std_emit_failed_all reqs : forall s, Inv s -> std n s (emit_failed_all reqs).
Proof. induction reqs as [|r rest IH]; cbn [emit_failed_all]; auto 10 with std. Qed.
Hint Resolve std_emit_failed_all : std.

(* a handler without a callback (blocking requests) *)
Lemma std_new_input_handler s src owner k :
  (forall m s1, Inv s1 -> std n s1 (k m)) -> Inv s -> std n s (new_input_handler src owner false k).
Proof.
  intros Hk HI. unfold new_input_handler. apply std_rd. cbv beta zeta.
  apply run_seq. apply run_wr. set (s1 := s <| ust := _ |>).
  assert (I1 : Inv s1).
  { apply (Inv_ih_weaken true s s1); try reflexivity; [|exact HI]. intros m A. unfold s1, ihs. cbn [ust set st_ih].
    rewrite map_app. cbn [map ih_owner ih_cb]. apply nth_error_snoc_true. discriminate. }
  apply (run_std_post n s s1); [apply Rel_same_trace; reflexivity|]. clearbody s1. auto with std.
Qed.
Hint Resolve std_new_input_handler : std.

Lemma A_user_req a t s : A s -> A (emit (EUser T_REQ a t) s).
Proof. intros HA. apply A_emit; [exact HA|reflexivity|intros _ _; reflexivity|reflexivity|intros _ _; reflexivity]. Qed.

Lemma std_get_input s scr args : Inv s -> std n s (get_input specs scr args).
Proof.
  intros HI. unfold get_input. destruct (sc_prompt_none (specs scr)); [auto with std|].
  apply run_seq. apply run_rd. cbv beta. unfold ev. apply run_emit; [apply A_user_req|]. cbn [user_event].
  apply run_seq. apply run_wr. unfold new_input_handler. apply run_rd. cbv beta zeta.
  apply run_seq. apply run_wr. set (s3 := _ <| ust := _ |>).
  destruct (Inv_inert_event true s s3 T_REQ _ [] eq_refl eq_refl eq_refl eq_refl eq_refl eq_refl) as [I3 R3]; [|exact HI|].
  { replace (ihs (ust s3)) with (ihs (ust s) ++ [(scr, true)]) by (unfold s3, ihs; cbn [ust set st_ih emit upd_scr]; rewrite map_app; reflexivity).
    replace (length (st_ih (ust s))) with (length (ihs (ust s))) by apply map_length. apply IQ_req, HI. }
  clearbody s3. apply (run_std_post n s s3 _ R3). auto 20 with std.
Qed.
Hint Resolve std_get_input : std.

Section Cmds.
Variable cn : sprog.
Hypothesis Hcn : forall s, Inv s -> std n s cn.
Variables self cnt : nat.

(* push_screen and push_screen_modal up to the append; [q] is what follows *)
Lemma run_push_append s k sc a m (q : sdata -> sprog) (Q : outcome -> st -> Prop) :
  (k = O_PUSH /\ m = false) \/ (k = O_PUSH_MODAL /\ m = true) -> Inv s ->
  let d := {| sd_id := st_next_sd (ust s); sd_scr := sc; sd_args := a; sd_modal := m |} in
  (forall s4, InvG (negb m) s4 -> Rel (negb m) s s4 -> sw_modal (SW s4) = (if m then [frame_of d] else []) ++ sw_modal (SW s) ->
              HH s4 = HH s -> run n s4 (q d) Q) ->
  run n s (ev T_OP [k; sc; a] ;;
           new_sd sc a m (fun d => wr (fun u => u <| st_stack := d :: st_stack u |>) ;; ev_stack K_APPEND d ;; q d)) Q.
Proof.
  intros HK HI d Hq.
  assert (EX : forall ne, op_exp k sc a ne = [XAppend sc a (Some m)]) by (destruct HK as [[-> ->]|[-> ->]]; reflexivity).
  eapply run_wev_seq; [exact (Mid_start _ _ HI)|apply wev_op|]. rewrite EX. intros M1.
  unfold new_sd. apply run_rd. cbv beta zeta. apply run_wr_seq. apply run_wr_seq. unfold ev_stack.
  eapply run_wev_seq; [exact M1|apply wev_push; reflexivity|]. intros M2.
  match goal with |- run _ ?x _ _ => set (s4 := x) in * end.
  destruct (Mid_Inv true _ s _ _ _ s4 HI M2 eq_refl eq_refl eq_refl eq_refl (FRel_new (sd_modal d) [frame_of d])) as [I4 R4].
  apply Hq; [exact I4|exact R4|exact (Mid_frames _ _ _ _ _ M2)|exact (Mid_hyp _ _ _ _ _ M2)].
Qed.

Lemma std_push s sc a : Inv s -> std n s (do_scmd specs cn self cnt (SPush sc a)).
Proof.
  intros HI. cbn [do_scmd]. apply (run_push_append s O_PUSH sc a false); [left; split; reflexivity|exact HI|].
  intros s4 I4 R4 _ _. apply (run_std_post n s s4 _ R4). auto with std.
Qed.

Lemma std_push_modal s sc a : Inv s -> std n s (do_scmd specs cn self cnt (SPushModal sc a)).
Proof.
  intros HI. cbn [do_scmd]. apply (run_push_append s O_PUSH_MODAL sc a true); [right; split; reflexivity|exact HI|].
  set (d := {| sd_id := st_next_sd (ust s); sd_scr := sc; sd_args := a; sd_modal := true |}). intros s4 I4 R4 M4 H4.
  cbn [negb] in I4.
  apply run_seq. apply run_newloop; [exact L|exact I4|]. intros o s5 NX (I5 & R5 & SP5).
  cbn [Spec] in SP5. cbn [balc] in R5.
  assert (ABN : bal o = false -> Post s o s5).
  { intros Bo. split; [exact I5|]. rewrite Bo. eapply Rel_trans_false; eauto. }
  destruct o as [|[| |]| |]; try (apply ABN; reflexivity); [|congruence].
  destruct (SP5 eq_refl) as [RA HC]. destruct R5 as [(new & old' & E5 & F5 & Bn) Mono].
  rewrite (Bn eq_refl) in E5. cbn [app] in E5. rewrite M4 in F5. cbn [app] in F5.
  destruct old' as [|f' rest']; [inversion F5|]. assert (F5' : frame_le (frame_of d) f' /\ Forall2 frame_le (sw_modal (SW s)) rest') by (inversion F5; auto).
  clear F5. destruct F5' as [[Of Cf] Fr].
  cbn [frame_of mf_orig] in Of.
  assert (CL : h_ok (HH s5) = true -> mf_closed f' = true) by (intros Hok; specialize (HC Hok); rewrite E5 in HC; exact HC).
  unfold ev. apply run_emit; cbn [user_event].
  - intros HA. eapply A_modal_return; eauto.
  - destruct (Inv_modal_return s5 (sd_id d) sc f' rest' I5 E5 (eq_sym Of) CL RA) as (I6 & M6 & H6).
    split; [exact I6|]. split.
    + apply Relw_modal. rewrite M6. exact Fr.
    + rewrite H6. intros Hok. rewrite <- H4. apply Mono, Hok.
Qed.

Lemma std_replace s sc a : Inv s -> std n s (do_scmd specs cn self cnt (SReplace sc a)).
Proof.
  intros HI. cbn [do_scmd]. eapply run_wev_seq; [exact (Mid_start _ _ HI)|apply wev_op|]. intros M1.
  apply run_rd. cbv beta. rewrite ust_emit. destruct (st_stack (ust s)) as [|top r] eqn:U0.
  - apply run_throw. match goal with |- Post _ _ ?x => set (s1 := x) in * end.
    destruct (Mid_Inv true true s _ _ _ s1 HI M1) as [I1 R1]; [unfold wcfg_of, s1; rewrite !ust_emit, U0; reflexivity|reflexivity..|apply FRel_le, frames_le_refl|].
    split; assumption.
  - apply run_wr_seq. unfold ev_stack. eapply run_wev_seq; [exact M1|apply wev_pop_repl|]. intros M2.
    unfold new_sd. apply run_rd. cbv beta zeta. apply run_wr_seq. apply run_wr_seq.
    eapply run_wev_seq; [exact M2|apply wev_repl; reflexivity|]. intros M3.
    match goal with |- run _ ?x _ _ => set (s4 := x) in * end.
    destruct (Mid_Inv true true s _ _ _ s4 HI M3 eq_refl eq_refl eq_refl eq_refl) as [I4 R4]; [apply FRel_le; intros l; apply frames_le_rename|].
    clearbody s4. apply (run_std_post n s s4 _ R4). auto with std.
Qed.

Lemma std_schedule s sc a : Inv s -> std n s (do_scmd specs cn self cnt (SSchedule sc a)).
Proof.
  intros HI. cbn [do_scmd]. eapply run_wev_seq; [exact (Mid_start _ _ HI)|apply wev_op|]. intros M1.
  unfold new_sd. apply run_rd. cbv beta zeta. apply run_wr_seq. apply run_wr_seq. unfold ev_stack.
  eapply run_wev_seq; [exact M1|apply wev_sched; reflexivity|]. intros M2.
  match goal with |- run _ ?x _ _ => set (s4 := x) in * end.
  destruct (Mid_Inv true true s _ _ _ s4 HI M2 eq_refl eq_refl eq_refl eq_refl) as [I4 R4]; [apply FRel_le, frames_le_refl|].
  clearbody s4. apply (run_std_post n s s4 _ R4). auto 10 with std.
Qed.

End Cmds.

(* SPush, SPushModal, SReplace, SSchedule: the lemmas above.  The code of each other command is an inert event, a write of a
   field the invariant does not read, a simple call of the loop, [cn], a throw, or one of the sub-programs that the hint base
   opens ([get_input_blocking], [handler_ask], [handler_wait], [sched_redraw]): [auto with std].  SIfCount: [do_scmd_closed] *)
Lemma std_do_scmds cn : (forall s, Inv s -> std n s cn) -> forall self cnt l s, Inv s -> std n s (do_scmds specs cn self cnt l).
Proof.
  intros Hcn self cnt l.
  refine (proj2 (do_scmd_closed specs (fun p => forall s, Inv s -> std n s p) (fun _ => true) cn _ _ _ _) l _ self cnt).
  - auto with std.
  - auto with std.
  - intros k t e _. split; apply forallb_forall; reflexivity.
  - intros c NI _ self' cnt' s HI.
    destruct c; [apply std_push; assumption|apply std_push_modal; assumption|apply std_replace; assumption|apply std_schedule; assumption
                |cbn [do_scmd]; auto 30 with std..|destruct NI].
  - apply forallb_forall. reflexivity.
Qed.
Hint Resolve std_do_scmds std_push_modal : std.

Lemma std_close_loop_if s (m : bool) :
  Inv s -> (m = true -> h_ok (HH s) = true -> head_closed (sw_modal (SW s))) -> std n s (if m then PApi ACloseLoop else PRet).
Proof.
  intros HI HC. destruct m; [|auto with std]. apply run_api; [exact L|split; [exact HI|apply HC; reflexivity]|].
  intros o s' (I' & R' & _). split; assumption.
Qed.

Lemma HC_transfer s3 s5 (m : bool) : Rel true s3 s5 ->
  (m = true -> h_ok (HH s3) = true -> head_closed (sw_modal (SW s3))) ->
  (m = true -> h_ok (HH s5) = true -> head_closed (sw_modal (SW s5))).
Proof. intros [Rw Mono] HC M Hok. apply (Relw_head_closed _ _ Rw). apply HC; auto. Qed.

Lemma std_close_screen s cf : Inv s -> std n s (close_screen specs cf).
Proof.
  intros HI. unfold close_screen. eapply run_wev_seq; [exact (Mid_start _ _ HI)|apply wev_op|]. intros M1.
  apply run_rd. cbv beta. rewrite ust_emit. destruct (st_stack (ust s)) as [|top r] eqn:U0.
  - apply run_throw. match goal with |- Post _ _ ?x => set (s1 := x) in * end.
    destruct (Mid_Inv true true s _ _ _ s1 HI M1) as [I1 R1]; [unfold wcfg_of, s1; rewrite !ust_emit, U0; reflexivity|reflexivity..|apply FRel_le, frames_le_refl|].
    split; assumption.
  - apply run_wr_seq. unfold ev_stack. eapply run_wev_seq; [exact M1|apply wev_pop_close; left; reflexivity|]. intros M2.
    match goal with |- run _ ?x _ _ => set (s3 := x) in * end.
    destruct (Mid_Inv true true s _ _ _ s3 HI M2 eq_refl eq_refl eq_refl eq_refl) as [I3 R3]; [apply FRel_le; intros l; apply frames_le_close|].
    pose proof (pop_closes _ _ _ _ _ _ _ _ s3 M1 (Mid_frames _ _ _ _ _ M2) (Mid_hyp _ _ _ _ _ M2)) as HC3.
    clearbody s3. apply (run_std_post n s s3 _ R3).
    apply (run_seq_post n s3 s3 _ _ (Rel_refl _ _)); [auto 20 with std|]. intros s4 I4 R4.
    apply (run_seq_post n s3 s4 _ _ R4); [auto with std|]. intros s5 I5 R5.
    apply (run_seq_post n s3 s5 _ _ R5); [apply std_close_loop_if; [exact I5|apply (HC_transfer s3 s5 _ R5 HC3)]|].
    intros s6 I6 R6. apply (run_std_post n s3 s6 _ R6). auto 10 with std.
Qed.
Hint Resolve std_close_screen : std.

Lemma std_run_cmds s self cnt l : Inv s -> std n s (run_cmds specs self cnt l).
Proof. auto with std. Qed.

(* a callback: its counter is advanced, the call logged (an event the invariant does not see), its commands run *)
Lemma std_callback s sc f tag a t q : Inv s -> (forall s1, Keep s s1 -> Keep s1 (emit (EUser tag a t) s1)) ->
  (forall s2, Inv s2 -> std n s2 q) -> std n s (wr (upd_scr sc f) ;; evt tag a t ;; q).
Proof.
  intros HI HK Hq. apply (run_seq_keep n s); [apply keep_wr; [apply Keep_refl|reflexivity..]|]. intros s1 K1.
  apply (run_seq_keep n s); [apply keep_emit; [exact K1|apply HK, K1]|]. intros s2 K2.
  apply (run_std_post n s s2 _ (Keep_rel _ _ K2)), Hq, (Keep_inv _ _ _ K2 HI).
Qed.
Lemma run_call_setup_plain s d r : Inv s -> st_stack (ust s) = d :: r ->
  run n s (call_setup_plain specs d) (KeepPost s).
Proof.
  intros HI U0. unfold call_setup_plain. apply run_rd. cbv beta zeta.
  apply (run_seq_keep n s); [apply keep_wr; [apply Keep_refl|reflexivity..]|]. intros s1 K1.
  apply (run_seq_keep n s); [apply keep_emit; [exact K1|apply (Keep_top_event s s1 _ _ _ d r); auto]|]. intros s2 K2.
  apply (run_seq_keep n s); [|intros s3 K3; apply keep_wr; [exact K3|reflexivity..]].
  destruct (nth_last (sc_setup (specs (sd_scr d))) (ss_n_setup (scr_of (ust s) (sd_scr d)))); [|apply keep_ret, K2].
  apply (run_seq_keep n s); [apply keep_wr; [exact K2|reflexivity..]|]. intros s3 K3. apply keep_regsource, K3.
Qed.

(* a setup() with commands: entered for the top entry; its commands are a callback like refresh()'s (not in a try
   block); it reports success ([setup_cmds_ok]); the stack is whatever the commands left *)
Definition SetupPost (d : sdata) s (o : outcome) s' : Prop :=
  KeepPost s o s' \/
  (Post s o s' /\ has_cmds (specs (sd_scr d)) = true /\ (o = ONormal -> st_rb (ust s') = true)).

Lemma run_call_setup s d r : Inv s -> st_stack (ust s) = d :: r ->
  run n s (call_setup specs d) (SetupPost d s).
Proof.
  intros HI U0. unfold call_setup. destruct (sc_setup_cmds (specs (sd_scr d))) as [|c0 cs] eqn:EC.
  { eapply run_conseq; [eapply run_call_setup_plain; eauto|]. intros o s' H. left. exact H. }
  assert (HC : has_cmds (specs (sd_scr d)) = true) by (unfold has_cmds; rewrite EC; reflexivity).
  unfold call_setup_cmds. apply run_rd. cbv beta zeta. rewrite (Hcok (sd_scr d) _ HC). cbv iota.
  apply (run_seq_keep n s); [apply keep_wr; [apply Keep_refl|reflexivity..]|]. intros s1 K1.
  apply (run_seq_keep n s); [apply keep_emit; [exact K1|apply (Keep_top_event s s1 _ _ _ d r); auto]|].
  intros s2 K02. pose proof (Keep_inv _ _ _ K02 HI) as I2. pose proof (Keep_rel _ _ K02) as R02.
  apply run_seq_std; [auto with std| |].
  - intros s3 I3 R3.
    apply (run_seq_keep n s3); [apply keep_emit; [apply Keep_refl|apply Keep_exempt_event; [left; reflexivity|exact HC]]|]. intros s4 K4.
    apply (run_seq_keep n s3).
    { apply (run_seq_keep n s3); [apply keep_wr; [exact K4|reflexivity..]|]. intros s5 K5. apply keep_regsource, K5. }
    intros s6 K6. apply run_wr. right. split; [|split; [exact HC|intros _; reflexivity]].
    apply (std_post_l s s3); [eapply Rel_trans_l; eauto|]. apply std_keep; [|exact I3].
    eapply Keep_trans; [exact K6|apply Keep_wr; reflexivity].
  - intros o s3 NO I3 R3. right. split; [|split; [exact HC|intros E; congruence]].
    split; [exact I3|eapply Rel_trans_l; [exact R02|exact R3]].
Qed.

Lemma std_call_refresh s d r : Inv s -> st_stack (ust s) = d :: r -> std n s (call_refresh specs d).
Proof.
  intros HI U0. unfold call_refresh. apply run_rd. cbv beta zeta. apply std_callback; [exact HI| |auto with std].
  intros s1 K1. apply (Keep_top_event s s1 _ _ _ d r); auto.
Qed.

Lemma std_ask_pages scr k : forall s, Inv s -> std n s (ask_pages specs scr k).
Proof.
  induction k as [|k IH]; cbn [ask_pages]; auto 30 with std.
Qed.
Hint Resolve std_ask_pages : std.

Lemma std_call_show_all s d d' r : Inv s -> st_stack (ust s) = d' :: r -> sd_id d' = sd_id d -> std n s (call_show_all specs d).
Proof.
  intros HI U0 E. unfold call_show_all. apply run_rd. cbv beta zeta. apply std_callback; [exact HI| |auto with std].
  intros s1 K1. apply (Keep_top_event s s1 _ _ _ d' r); auto.
Qed.

Lemma std_draw_screen s d d' r : Inv s -> st_stack (ust s) = d' :: r -> sd_id d' = sd_id d -> std n s (draw_screen specs d).
Proof.
  intros HI U0 E. unfold draw_screen. apply std_try; [|auto with std].
  destruct (sc_no_separator (specs (sd_scr d))).
  - apply run_seq, run_ret. eapply std_call_show_all; eauto.
  - pose proof (Keep_user T_SEPARATOR [sd_scr d] [] s eq_refl) as K.
    apply run_seq. unfold ev. apply run_emit; [exact (k_A _ _ K)|]. cbn [user_event].
    apply (run_std_post n s _ _ (Keep_rel _ _ K)).
    eapply std_call_show_all; [eapply Keep_inv; eauto| |exact E]. rewrite (k_u1 _ _ K). exact U0.
Qed.

Lemma stack_sm_split l above A b below : stack_sm l = above ++ (A, b) :: below ->
  exists da x db, l = da ++ x :: db /\ stack_sm da = above /\ sd_scr x = A.
Proof.
  unfold stack_sm. intros H. apply map_eq_app in H. destruct H as (da & r & E & E1 & E2).
  apply map_eq_cons in E2. destruct E2 as (x & db & E3 & E4 & E5). injection E4 as E4 _.
  exists da, x, db. subst r. auto.
Qed.

Lemma visible_of_clear s A : Inv s -> hqok (HQ s) = true -> clear_entry (q_stack (HQ s)) A -> scr_visible (SW s) A = true.
Proof.
  intros [B _] Hok (above & b & below & E & F). destruct (b_iq _ B Hok) as [I1 _ _]. rewrite I1 in E.
  destruct (stack_sm_split _ _ _ _ _ E) as (da & x & db & U0 & Ea & Ex).
  unfold scr_visible. apply orb_true_iff. left. apply existsb_exists. exists (e_of x). split.
  { rewrite (Base_stack _ B), U0, map_app. apply in_or_app. right. left. reflexivity. }
  cbn [e_of en_scr en_id]. rewrite Ex, Nat.eqb_refl. cbn [andb]. apply negb_true_iff, (shielded_clear _ _ _ _ da x db (b_w _ B) U0).
  intros d0 H0. rewrite <- Ea, forallb_forall in F. apply negb_true_iff, (F _ (in_map _ _ _ H0)).
Qed.

Definition CE s (scr : nat) : Prop := hqok (HQ s) = true -> clear_entry (q_stack (HQ s)) scr.
Lemma CE_keep s s' scr : Keep s s' -> CE s scr -> CE s' scr.
Proof. intros K C. unfold CE. rewrite (k_hq _ _ K). exact C. Qed.

Lemma Keep_input s scr a t : Inv s -> CE s scr -> nth0 a 0 = scr -> Keep s (emit (EUser T_INPUT a t) s).
Proof.
  intros HI C N. apply Keep_inert; [reflexivity|reflexivity|intros b; reflexivity|].
  intros Hok. cbn [chk_C05_input]. rewrite Nat.eqb_refl, N. apply visible_of_clear; auto.
Qed.

Lemma std_call_input s scr key : Inv s -> CE s scr -> std n s (call_input specs scr key).
Proof.
  intros HI C. unfold call_input. apply std_rd. cbv beta zeta.
  destruct (match assoc_str key (sc_input (specs scr)) with
            | Some (c, r) => (c, r)
            | None => (fst (sc_input_default (specs scr)),
                       match snd (sc_input_default (specs scr)) with Some r => r | None => RKey key end)
            end) as [cmds rv].
  apply std_callback; [exact HI| |auto with std].
  intros s1 K1. apply (Keep_input s1 scr); [eapply Keep_inv; eauto|eapply CE_keep; eauto|reflexivity].
Qed.

Lemma std_process_input s scr line : Inv s -> CE s scr -> std n s (process_input specs scr line).
Proof.
  intros HI C. unfold process_input.
  apply (run_seq_keep n s); [apply keep_wr; [apply Keep_refl|reflexivity..]|]. intros s1 K1.
  pose proof (Keep_inv _ _ _ K1 HI) as I1. pose proof (CE_keep _ _ _ K1 C) as C1.
  apply (run_std_post n s s1 _ (Keep_rel _ _ K1)). apply std_seq; [|auto 30 with std].
  apply std_try; [|auto with std]. apply std_seq; [apply std_call_input; assumption|auto with std].
Qed.

Lemma ihs_nth u m A c : nth_error (ihs u) m = Some (A, c) -> ih_owner (ih_of u m) = A /\ ih_cb (ih_of u m) = c.
Proof.
  unfold ihs, ih_of. intros H. rewrite nth_error_map in H. destruct (nth_error (st_ih u) m) as [h|] eqn:E; [|discriminate].
  injection H as <- <-. rewrite (nth_error_nth _ _ _ E). auto.
Qed.
Lemma ihs_nth_cb u m : ih_cb (ih_of u m) = true -> nth_error (ihs u) m = Some (ih_owner (ih_of u m), true).
Proof.
  unfold ihs, ih_of. intros H. rewrite nth_error_map. destruct (nth_error (st_ih u) m) as [h|] eqn:E.
  - rewrite (nth_error_nth _ _ _ E) in *. cbn. rewrite H. reflexivity.
  - rewrite (nth_overflow _ _ (proj1 (nth_error_None _ _) E)) in H. discriminate H.
Qed.
Lemma Keep_ready0 s m t : Keep s (emit (EUser T_READY [m; 0] t) s).
Proof. apply Keep_inert; [reflexivity|reflexivity|intros b; reflexivity|intros _; reflexivity]. Qed.
Lemma Inv_ready1 s s' m t :
  trace s' = EUser T_READY [m; 1] t :: trace s -> st_stack (ust s') = st_stack (ust s) ->
  st_next_sd (ust s') = st_next_sd (ust s) -> run_loop s' = run_loop s -> force_quit s' = force_quit s ->
  (forall k A, nth_error (ihs (ust s')) k = Some (A, true) -> k <> m /\ nth_error (ihs (ust s)) k = Some (A, true)) ->
  Inv s -> Inv s' /\ Rel true s s' /\ (ih_cb (ih_of (ust s) m) = true -> CE s' (ih_owner (ih_of (ust s) m))).
Proof.
  intros T U1 U2 RL FQ W HI.
  destruct (Inv_inert_event true s s' T_READY _ _ eq_refl T U1 U2 RL FQ) as [I' R']; [apply (IQ_ready1 _ _ (ihs (ust s))); [exact W|apply HI]|exact HI|].
  split; [exact I'|split; [exact R'|]]. intros Cb. unfold CE. rewrite (HQ_cons _ _ _ T), (proj1 (hq_ready1 _ _ _)). intros Hok.
  destruct (b_iq _ (proj1 HI) (hq_step_mono _ _ Hok)) as [I1 I2 I3]. apply (I3 m), I2, ihs_nth_cb, Cb.
Qed.

Lemma std_input_ready_handler s m sg : Inv s -> std n s (input_ready_handler specs m sg).
Proof.
  intros HI. unfold input_ready_handler. destruct (negb (sg_a sg =? m)%nat); [auto with std|].
  apply (run_seq_keep n s); [apply keep_wr; [apply Keep_refl|reflexivity|reflexivity|apply ihs_upd_ih; intros; split; reflexivity]|].
  intros s1 K1. pose proof (Keep_inv _ _ _ K1 HI) as I1.
  destruct (sg_b sg) eqn:OK; cbn [b2n negb].
  - (* success *)
    apply run_seq. unfold evt. apply run_emit; [apply A_user_plain; reflexivity|]. cbn [user_event].
    apply run_seq. apply run_wr. set (s3 := _ <| ust := _ |>).
    assert (E3 : ihs (ust s3) = ihs (ust s1)) by (unfold s3; cbn [ust set emit]; apply ihs_upd_ih; intros; split; reflexivity).
    apply run_rd. cbv beta.
    assert (C3 : ih_cb (ih_of (ust s3) m) = ih_cb (ih_of (ust s1) m)) by (apply (ih_of_upd_ih ih_cb); reflexivity).
    assert (C3o : ih_owner (ih_of (ust s3) m) = ih_owner (ih_of (ust s1) m)) by (apply (ih_of_upd_ih ih_owner); reflexivity).
    destruct (ih_cb (ih_of (ust s3) m)) eqn:CB.
    + (* the callback: input() of the owner *)
      apply run_seq. apply run_wr. set (s4 := s3 <| ust := _ |>).
      destruct (Inv_ready1 s1 s4 m (sg_data sg)) as (I4 & R4 & C4); try reflexivity; [|exact I1|].
      { intros k A H. unfold s4 in H. cbn [ust set] in H. rewrite ihs_upd_ih_nth in H. destruct (k =? m)%nat eqn:Ek.
        - destruct (nth_error (st_ih (ust s3)) k); discriminate H.
        - apply Nat.eqb_neq in Ek. rewrite <- E3. auto. }
      assert (CE4 : CE s4 (ih_owner (ih_of (ust s3) m))) by (rewrite C3o; apply C4; rewrite <- C3; reflexivity).
      clearbody s4.
      (* the arguments of the answered request are put in place (fix of F15): nothing the invariant looks at *)
      apply (run_seq_keep n s4); [apply keep_wr; [apply Keep_refl|reflexivity..]|]. intros s5 K5.
      eapply run_conseq; [apply std_process_input; [exact (Keep_inv _ _ _ K5 I4)|exact (CE_keep _ _ _ K5 CE4)]|].
      intros o s' P. eapply std_post_l; [|exact P]. eapply Rel_trans_l; [apply Keep_rel, K1|].
      eapply Rel_trans_r; [exact R4|apply Keep_rel, K5].
    + apply run_ret.
      destruct (Inv_ready1 s1 s3 m (sg_data sg)) as (I3 & R3 & _); try reflexivity; [|exact I1|].
      { intros k A H. rewrite E3 in H. split; [|exact H]. intros ->. destruct (ihs_nth _ _ _ _ H) as [_ X]. congruence. }
      split; [exact I3|]. eapply Rel_trans_l; [apply Keep_rel, K1|exact R3].
  - (* failure *)
    apply (run_seq_keep n s); [apply keep_emit; [exact K1|apply Keep_ready0]|]. intros s2 K2.
    apply run_ret, std_keep; assumption.
Qed.

(* refresh() of a screen whose setup() runs commands: the entry need not be the top of the stack *)
Lemma std_call_refresh_cmds s d : Inv s -> has_cmds (specs (sd_scr d)) = true -> std n s (call_refresh specs d).
Proof.
  intros HI HC. unfold call_refresh. apply run_rd. cbv beta zeta. apply std_callback; [exact HI| |auto with std].
  intros s1 _. apply Keep_exempt_event; [right; reflexivity|exact HC].
Qed.

(* the source is registered, refresh() called, and the screen drawn if its entry is still the top one *)
Lemma std_refresh_draw s top : Inv s -> (forall s1, Keep s s1 -> std n s1 (call_refresh specs top)) ->
  std n s (PApi (ARegSource (sd_scr top)) ;;
           PTry (call_refresh specs top ;;
                 with_top (fun top' =>
                   if (sd_id top' =? sd_id top)%nat then
                     draw_screen specs top ;;
                     rd (fun u => if ss_input_required (scr_of u (sd_scr top)) then get_input specs (sd_scr top) (sd_args top) else PRet)
                   else PRet))
                raise_exception_signal).
Proof.
  intros HI HR. apply (run_seq_keep n s); [apply keep_regsource, Keep_refl|]. intros s2 K2.
  apply (run_std_post n s s2); [apply Keep_rel, K2|].
  apply std_try; [|auto with std]. apply std_seq; [apply HR, K2|]. intros s3 I3.
  apply std_rd. cbv beta. destruct (st_stack (ust s3)) as [|top' r'] eqn:U3; [auto with std|].
  destruct (sd_id top' =? sd_id top)%nat eqn:E; [|auto with std]. apply Nat.eqb_eq in E.
  apply std_seq; [eapply std_draw_screen; eauto|auto with std].
Qed.

Lemma std_process_screen s : Inv s -> std n s (process_screen specs).
Proof.
  intros HI. unfold process_screen, with_top. apply std_rd. cbv beta zeta.
  destruct (st_stack (ust s)) as [|top r] eqn:U0; [auto with std|].
  (* first part: ready or setup; the stack is left alone *)
  apply run_seq. apply (run_conseq _ _ _ (SetupPost top s)).
  { apply run_rd. cbv beta. destruct (ss_ready (scr_of (ust s) (sd_scr top))); [|eapply run_call_setup; eauto].
    apply run_wr. left. split; [reflexivity|apply Keep_wr; reflexivity]. }
  intros o s1 [[-> K1]|([I1 R1] & HC & RB)].
  2:{ (* a setup() with commands returned: it succeeded; the stack is whatever it left *)
    destruct o; try (split; assumption). cbn [bal] in R1.
    apply run_rd. cbv beta. rewrite (RB eq_refl). cbn [negb].
    apply (run_std_post n s s1 _ R1), std_refresh_draw; [exact I1|].
    intros s2 K2. apply std_call_refresh_cmds; [eapply Keep_inv; eauto|exact HC]. }
  pose proof (Keep_inv _ _ _ K1 HI) as I1. pose proof (Keep_rel _ _ K1) as R1.
  assert (U1 : st_stack (ust s1) = top :: r) by (rewrite (k_u1 _ _ K1); exact U0).
  apply run_rd. cbv beta. destruct (negb (st_rb (ust s1))).
  - (* the setup failed: discard the entry *)
    apply run_seq. apply run_rd. cbv beta. rewrite U1. apply run_wr_seq. unfold ev_stack.
    pose proof (Mid_start _ _ I1) as M1. rewrite U1 in M1.
    eapply run_wev_last; [exact M1|apply wev_pop_close; right; reflexivity|]. intros M2. set (s3 := emit _ _) in *.
    destruct (Mid_Inv true true s1 _ _ _ s3 I1 M2 eq_refl eq_refl eq_refl eq_refl) as [I3 R3]; [apply FRel_le; intros l; apply frames_le_close|].
    pose proof (pop_closes _ _ _ _ _ _ _ _ s3 M1 (Mid_frames _ _ _ _ _ M2) (Mid_hyp _ _ _ _ _ M2)) as HC3.
    clearbody s3. apply (run_std_post n s s3); [eapply Rel_trans_l; eauto|].
    destruct (sd_modal top) eqn:M.
    + apply (std_close_loop_if s3 true I3). intros _. apply HC3. reflexivity.
    + auto with std.
  - apply (run_std_post n s s1 _ R1), std_refresh_draw; [exact I1|].
    intros s2 K2. apply (std_call_refresh s2 top r); [eapply Keep_inv; eauto|rewrite (k_u1 _ _ K2); exact U1].
Qed.

(* InputThreadManager's handler of InputReceivedSignal: events no acceptor looks at, writes of fields the invariant does not read *)
Lemma std_input_received_handler s sg : Inv s -> std n s (input_received_handler sg).
Proof. intros HI. unfold input_received_handler. auto 20 with std. Qed.

(* a callback connected to one of the application's own signals is a command list, like input()'s *)
Lemma std_custom_handler s k sg scr : Inv s -> std n s (custom_handler specs k sg scr).
Proof. intros HI. unfold custom_handler. auto 20 with std. Qed.

Lemma handlers_ok : HOK n.
Proof.
  intros hid sg data s HI. change (std n s (screen_code specs hid sg data)). unfold screen_code.
  destruct (hid =? H_RENDER)%nat; [apply std_process_screen, HI|].
  destruct (hid =? H_CLOSE)%nat; [apply std_close_screen, HI|].
  destruct (hid =? H_RECEIVED)%nat; [apply std_input_received_handler, HI|].
  destruct (10 <=? hid)%nat; [apply std_input_ready_handler, HI|].
  destruct (3 <=? hid)%nat; [apply std_custom_handler, HI|apply std_ret, HI].
Qed.
End Progs.

Theorem loop_ok : forall n, LoopOK n.
Proof.
  induction n as [|n IH]; intros c s HA HP; (apply hoare_step; [split; [exact HA|congruence]|]); intros f o s' Hf; [lia|].
  exact (call_step n IH f (le_S_n _ _ Hf) c s o s' (handlers_ok n IH) HA HP).
Qed.

Lemma Inv_init u : st_stack u = [] -> st_ih u = [] -> Inv (init_state u) /\ A (init_state u).
Proof.
  intros U Ui. split; [split|].
  - split.
    + unfold wcfg_of. cbn [ust init_state]. rewrite U. split; cbn; repeat constructor. intros f [].
    + intros _. split; [cbn; rewrite U; reflexivity| |intros k A0 []].
      unfold ihs. cbn. rewrite Ui. intros [|k] A0; discriminate.
  - intros _. split; cbn; auto; try discriminate. unfold WJ, vstack, wcfg_of. cbn. rewrite U. reflexivity.
  - split; [reflexivity|split; [intros _; reflexivity|split; [reflexivity|intros _; reflexivity]]].
Qed.

Lemma Keep_top s : Keep s (emit ETop s).
Proof. apply Keep_emit. reflexivity. Qed.

Lemma std_app_initialize n s : Inv s -> std n s app_initialize.
Proof. intros HI. unfold app_initialize. pose proof (loop_ok n) as L. auto with std. Qed.

Lemma app_session_ok fuel acts s : Inv s -> A s -> A (snd (app_session specs fuel acts s)).
Proof.
  intros HI HA.
  refine (proj1 (app_sessions_inv specs fuel A (fun s => Inv s /\ A s) (fun _ => True) goes_on
                   (fun s H => proj2 H) (fun _ G => G) _ acts s _ (conj HI HA)));
    [|apply Forall_forall; auto].
  clear HI HA s. intros a s _ [HI HA].
  pose proof (Keep_top s) as K0. pose proof (Keep_inv _ _ _ K0 HI) as I0. pose proof (k_A _ _ K0 HA) as A0.
  assert (R : forall c, (forall o s1, exec code fuel c (emit ETop s) = (o, s1) -> A s1 /\ (o <> OFuel -> Inv s1)) ->
              A (snd (exec code fuel c (emit ETop s))) /\
              (goes_on (fst (exec code fuel c (emit ETop s))) ->
               Inv (snd (exec code fuel c (emit ETop s))) /\ A (snd (exec code fuel c (emit ETop s))))).
  { intros c H. destruct (exec code fuel c (emit ETop s)) as [o s1]. destruct (H o s1 eq_refl) as [A1 P1].
    split; [exact A1 | intros (_ & NF & _); auto]. }
  destruct a as [l|]; cbn [app_call].
  - apply R. intros o s1 E. destruct (std_run_cmds fuel (loop_ok fuel) _ 0 0 l I0 A0 fuel o s1 (le_n _) E) as [A1 P1].
    split; [exact A1 | intros NF; apply (P1 NF)].
  - destruct (st_stack (ust s)); [destruct (st_run_empty (ust s))|]; cbn [fst snd]; auto;
      apply R; intros o s1 E; destruct (loop_ok fuel CRun _ A0 I0 fuel o s1 (le_n _) E) as [A1 P1];
      (split; [exact A1 | intros NF; apply (P1 NF)]).
Qed.

Lemma app_run_all_ok specl typed' quit run_empty fuel acts :
  A (snd (app_run_all specs specl typed' quit run_empty fuel acts)).
Proof.
  unfold app_run_all. set (u := sstate0 specl typed' quit run_empty).
  destruct (Inv_init u eq_refl eq_refl) as [I0 A0].
  destruct (exec code 20 (CProg app_initialize) (init_state u)) as [o s1] eqn:E.
  destruct (std_app_initialize 20 (init_state u) I0 A0 20 o s1 (le_n _) E) as [A1 P1].
  assert (NF : o <> OFuel).
  { assert (X : fst (exec code 20 (CProg app_initialize) (init_state u)) = ONormal) by reflexivity.
    rewrite E in X. cbn in X. rewrite X. discriminate. }
  apply app_session_ok; [apply (P1 NF)|exact A1].
Qed.
End Screen.

Theorem C05_input_session_cmds specs (Hcok : setup_cmds_ok specs) specl typed quit run_empty fuel acts :
  let t := rev (trace (snd (app_run_all specs specl typed quit run_empty fuel acts))) in
  sok (relax_setup specs chk_C05_shield_partial) typed t = true /\
  (no_f13 t = true -> sok (relax_setup specs chk_C05_shield) typed t = true) /\
  sok chk_C05_below typed t = true /\
  (no_stale_prompt t = true -> no_orphan_prompt t = true -> no_modal_during_prompt t = true ->
   sok chk_C05_input typed t = true).
Proof.
  intros t. destruct (app_run_all_ok specs Hcok typed specl typed quit run_empty fuel acts) as (A1 & A2 & A3 & A4).
  split; [apply sok_iff; exact A1|]. split; [intros H; apply sok_iff, A2, H|]. split; [apply sok_iff; exact A3|].
  intros H1 H2 H3. apply sok_iff, A4. unfold Hqt. fold t. rewrite hqok_split, H1, H2, H3. reflexivity.
Qed.

Theorem C05_input_session specs (Hplain : plain_setup specs) specl typed quit run_empty fuel acts :
  let t := rev (trace (snd (app_run_all specs specl typed quit run_empty fuel acts))) in
  sok chk_C05_shield_partial typed t = true /\ (no_f13 t = true -> sok chk_C05_shield typed t = true) /\
  sok chk_C05_below typed t = true /\
  (no_stale_prompt t = true -> no_orphan_prompt t = true -> no_modal_during_prompt t = true ->
   sok chk_C05_input typed t = true).
Proof.
  intros t.
  destruct (C05_input_session_cmds specs (plain_setup_cmds_ok specs Hplain) specl typed quit run_empty fuel acts) as (H1 & H2 & H3 & H4).
  fold t in H1, H2, H3, H4.
  rewrite (sok_ext _ _ typed t (relax_setup_plain specs chk_C05_shield_partial Hplain)) in H1.
  rewrite (sok_ext _ _ typed t (relax_setup_plain specs chk_C05_shield Hplain)) in H2.
  split; [exact H1|split; [exact H2|split; [exact H3|exact H4]]].
Qed.

(* the monitors of ScreenMon.v on session traces: only the T_INPUT clause is left to be observed *)
Theorem C05_session_modulo_input specs (Hplain : plain_setup specs) specl typed quit run_empty fuel acts :
  let t := rev (trace (snd (app_run_all specs specl typed quit run_empty fuel acts))) in
  sok chk_C05_partial typed t = sok chk_C05_input typed t /\
  (no_f13 t = true -> sok chk_C05 typed t = sok chk_C05_input typed t).
Proof.
  intros t. destruct (C05_input_session specs Hplain specl typed quit run_empty fuel acts) as (H1 & H2 & _). fold t in H1, H2.
  split.
  - unfold chk_C05_partial. rewrite sok_C05_gen_split. fold chk_C05_shield_partial. rewrite H1. reflexivity.
  - intros N. unfold chk_C05. rewrite sok_C05_gen_split. fold chk_C05_shield. rewrite (H2 N). reflexivity.
Qed.

Theorem C05_full_session specs (Hplain : plain_setup specs) specl typed quit run_empty fuel acts :
  let t := rev (trace (snd (app_run_all specs specl typed quit run_empty fuel acts))) in
  no_stale_prompt t = true -> no_orphan_prompt t = true -> no_modal_during_prompt t = true ->
  sok chk_C05_partial typed t = true /\ (no_f13 t = true -> sok chk_C05 typed t = true).
Proof.
  intros t H1 H2 H3.
  destruct (C05_session_modulo_input specs Hplain specl typed quit run_empty fuel acts) as [E1 E2].
  destruct (C05_input_session specs Hplain specl typed quit run_empty fuel acts) as (_ & _ & _ & S4).
  fold t in E1, E2, S4. rewrite (S4 H1 H2 H3) in E1, E2. split; assumption.
Qed.

(* ================================================================ more sessions: finding F16 (cx3 to cx6; cx1, cx2 are in [C05Ex]),
   and setup() with commands of its own (su1, su2: finding F19) *)
Module C05InEx.
Import C05Ex.
(* cx3: the asking entry is closed, its screen is scheduled again beneath the open modal screen *)
Definition cx3_specs := [ scr [] [] [(k1, ([SPushModal 1 0], RProcessed))];
                          quiet [SIfCount 1 [SPush 2 0] [SIfCount 2 [SSchedule 2 0] []]] [];
                          {| sc_setup := []; sc_refresh := []; sc_show := [SIfCount 1 [SCloseSig] []]; sc_closed := []; sc_input := [];
                             sc_input_default := ([], Some RProcessed); sc_prompt_none := false; sc_input_required := true;
                             sc_no_separator := false; sc_skip_check := false; sc_pages := 0; sc_answer0 := AnsNoAttr; sc_custom := []; sc_setup_cmds := [] |} ].
Definition cx3_typed := [Some k1; Some kx].
Definition cx3 := session cx3_specs cx3_typed start.
(* cx4: a prompt for a screen that was never drawn, then a modal screen above it *)
Definition cx4_specs := [ {| sc_setup := []; sc_refresh := [SIfCount 1 [SRedrawSig; SGetUserInput; SPushModal 2 0] []]; sc_show := [];
                             sc_closed := []; sc_input := [(k1, ([SPush 1 0], RDiscarded))];
                             sc_input_default := ([], Some RProcessed); sc_prompt_none := false; sc_input_required := true;
                             sc_no_separator := false; sc_skip_check := true; sc_pages := 0; sc_answer0 := AnsNoAttr; sc_custom := []; sc_setup_cmds := [] |};
                          scr [] [] []; quiet [] [] ].
Definition cx4_typed := [Some k1; Some kx].
Definition cx4 := session cx4_specs cx4_typed start.
(* cx5: _process_screen prompts for a screen whose entry was replaced while it was drawn *)
Definition cx5_specs := [ {| sc_setup := []; sc_refresh := []; sc_show := []; sc_closed := [];
                             sc_input := [(k2, ([SPush 1 0], RDiscarded)); ([51%N], ([SPush 1 7], RDiscarded))];
                             sc_input_default := ([], None); sc_prompt_none := true; sc_input_required := true;
                             sc_no_separator := false; sc_skip_check := false; sc_pages := 0; sc_answer0 := AnsNoAttr; sc_custom := []; sc_setup_cmds := [] |};
                          {| sc_setup := [true; false]; sc_refresh := [];
                             sc_show := [SIfCount 1 [SPushModal 1 0; SPush 0 0] [SIfCount 4 [SReplace 0 0] []]]; sc_closed := [];
                             sc_input := [(k2, ([], RKey [114%N]))];
                             sc_input_default := ([], Some RRedraw); sc_prompt_none := false; sc_input_required := true;
                             sc_no_separator := false; sc_skip_check := false; sc_pages := 0; sc_answer0 := AnsNoAttr; sc_custom := []; sc_setup_cmds := [] |} ].
Definition cx5_typed := [Some [114%N]; Some [114%N]; Some k2].
Definition cx5 := session cx5_specs cx5_typed [SACmds [SSchedule 0 0; SPush 1 0]; SARun].
(* cx6: the only level in which the asking screen is registered is closed while its request is pending *)
Definition cx6_specs := [ scr [] [] [(k1, ([SPush 1 0; SPushModal 2 0; SPushModal 3 0], RProcessed))];
                          scr [] [] [];
                          {| sc_setup := []; sc_refresh := []; sc_show := [SIfCount 1 [SCloseSig] []]; sc_closed := [SSchedRedraw]; sc_input := [];
                             sc_input_default := ([], Some RProcessed); sc_prompt_none := false; sc_input_required := false;
                             sc_no_separator := false; sc_skip_check := false; sc_pages := 0; sc_answer0 := AnsNoAttr; sc_custom := []; sc_setup_cmds := [] |};
                          quiet [] [] ].
Definition cx6_typed := [Some k1; Some kx].
Definition cx6 := session cx6_specs cx6_typed start.
Definition hyps3 (t : list event) := (no_stale_prompt t, no_orphan_prompt t, no_modal_during_prompt t).

Definition setup_scr (res : list bool) (cmds : list scmd) : screen_spec :=
  {| sc_setup := res; sc_refresh := []; sc_show := []; sc_closed := []; sc_input := [];
     sc_input_default := ([], None); sc_prompt_none := false; sc_input_required := true;
     sc_no_separator := false; sc_skip_check := false; sc_pages := 0; sc_answer0 := AnsNoAttr; sc_custom := [];
     sc_setup_cmds := cmds |}.
Definition fspecs (l : list screen_spec) : nat -> screen_spec := fun n => nth n l default_spec.
(* su1: input() of screen 0 opens the modal screen 1; setup() of screen 1 pushes screen 2 and then reports failure:
   the scheduler discards the entry of screen 2 (the top) and, the entry it set up being modal, stops its loop:
   push_screen_modal returns while screen 1 is still on the stack, its frame open *)
Definition su1_specs := [ scr [] [] [(k1, ([SPushModal 1 0], RProcessed))];
                          setup_scr [false; true] [SIfCount 1 [SPush 2 0] []];
                          scr [] [] [] ].
Definition su1_typed := map Some [k1; kc; kc; kc].
Definition su1 := session su1_specs su1_typed start.
(* su2: setup() of screen 0 opens the modal screen 1 (whose refresh() opens the modal screen 2), then pushes screen 2 *)
Definition su2_specs := [ setup_scr [] [SPushModal 1 0; SPush 2 0];
                          scr [SIfCount 1 [SPushModal 2 0] []] [] [];
                          scr [] [] [] ].
Definition su2_typed := map Some [kc; kc; kc; kc; kc].
Definition su2 := session su2_specs su2_typed start.
End C05InEx.

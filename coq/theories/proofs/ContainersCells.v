(* ContainersCells.v — C13, cell level: in the buffer of a list container every item and every label
   is completely visible at its place (nothing drawn later overwrites it): no two stamps share a
   cell, so every stamp is read back whole ([rl_stamp_cell], ContainersBlank.v). *)
From SL Require Import Tac.
From SL Require Import PyInt Widget TextWrap KeyPattern Containers
     proofs.WidgetProofs proofs.ContainersProofs proofs.ContainersLayout proofs.ContainersGeom proofs.ContainersBlank.
Import ListNotations.

(* the source buffer [src] is readable in [b] with its top-left corner at (r0, c0) *)
Definition shows (b src : buffer) (r0 c0 : nat) : Prop :=
  forall y x, y < length src -> x < row_len src y -> cell b (r0 + y) (c0 + x) = cell src y x.

(* label and item of a placement are readable: label at the left edge, item right of it *)
Definition item_shown (rendered : list (buffer * option (buffer * nat))) (b : buffer) (p : nat * (nat * nat)) : Prop :=
  let '(ib, lab) := nth (fst p) rendered ([], None) in
  match lab with
  | Some (lb, lw) => shows b lb (fst (snd p)) (snd (snd p)) /\ shows b ib (fst (snd p)) (snd (snd p) + lw)
  | None => shows b ib (fst (snd p)) (snd (snd p))
  end.

Lemma stamp_shows b s :
  (forall i j, in_stamp s i j = true -> cell b i j = cell (st_src s) (i - st_row s) (j - st_col s)) ->
  shows b (st_src s) (st_row s) (st_col s).
Proof.
  intros H y x Hy Hx. rewrite H by (apply in_stamp_iff; split; [lia|]; replace (st_row s + y - st_row s) with y; lia).
  f_equal; lia.
Qed.

Lemma render_list_cells kind columns items forced spacing kp w b rendered :
  (0 <= spacing)%Z ->
  items_fit items ->
  render_tree (WList kind columns items forced spacing kp) w = ROk b ->
  let cw := list_columns_width columns forced spacing w in
  let omap := ordered_map kind (length items) (Z.to_nat columns) in
  render_all_items render_tree items 0 cw kp = ROk rendered ->
  forall k r i, k < length omap -> nth_error (nth k omap []) r = Some i ->
    item_shown rendered b
      (i, (rowstart (lines_per_every_row omap (map item_height rendered)) r, k * Z.to_nat (cw + spacing))).
Proof.
  intros Hs Hitems H cw omap Hr k r i Hk Hi.
  assert (Hst : forall s, In s (stamps_of rendered (i, (rowstart (lines_per_every_row omap (map item_height rendered)) r,
                                                        k * Z.to_nat (cw + spacing)))) ->
                shows b (st_src s) (st_row s) (st_col s)).
  { intros s Hin. apply stamp_shows. intros y x.
    apply (rl_stamp_cell kind columns items forced spacing kp w b rendered Hs Hitems H Hr), in_list_stamps_grid.
    now exists k, r, i. }
  revert Hst. unfold item_shown, stamps_of. cbn [fst snd].
  destruct (nth i rendered ([], None)) as [ib [[lb lw]|]]; intros Hst.
  - split; [apply (Hst (_, _, lb))|apply (Hst (_, _, ib))]; cbn [In]; auto.
  - apply (Hst (_, _, ib)). now left.
Qed.

(* PromptProofs.v — proofs about Prompt.v (property C12, prompt part). *)
From SL Require Import Tac.
From Coq Require Import Sorting.Permutation Sorting.Sorted.
From SL Require Import PyInt Prompt proofs.ListFacts.
Import ListNotations.
Local Open Scope N_scope.

Lemma str_compare_eq a b : str_compare a b = Eq <-> a = b.
Proof.
  revert b. induction a as [|x a IH]; intros [|y b]; cbn [str_compare]; try (split; congruence).
  destruct (N.compare x y) eqn:E.
  - apply N.compare_eq_iff in E. subst y. rewrite IH. split; congruence.
  - split; [congruence|]. intros Heq. injection Heq as -> _. rewrite N.compare_refl in E. congruence.
  - split; [congruence|]. intros Heq. injection Heq as -> _. rewrite N.compare_refl in E. congruence.
Qed.

Lemma str_compare_refl a : str_compare a a = Eq.
Proof. now apply str_compare_eq. Qed.

Lemma str_compare_antisym a b : str_compare b a = CompOpp (str_compare a b).
Proof.
  revert b. induction a as [|x a IH]; intros [|y b]; cbn [str_compare]; try reflexivity.
  rewrite (N.compare_antisym x y). destruct (N.compare x y); cbn [CompOpp]; [apply IH | reflexivity | reflexivity].
Qed.

Lemma str_lt_trans a b c : str_lt a b -> str_lt b c -> str_lt a c.
Proof.
  unfold str_lt. revert b c. induction a as [|x a IH]; intros [|y b] [|z c]; cbn [str_compare]; try congruence.
  destruct (N.compare x y) eqn:Exy; destruct (N.compare y z) eqn:Eyz; try congruence; intros H1 H2.
  - apply N.compare_eq_iff in Exy, Eyz. subst. rewrite N.compare_refl. eapply IH; eassumption.
  - apply N.compare_eq_iff in Exy. subst. now rewrite Eyz.
  - apply N.compare_eq_iff in Eyz. subst. now rewrite Exy.
  - rewrite N.compare_lt_iff in Exy, Eyz. assert (Hxz : x < z) by lia.
    apply N.compare_lt_iff in Hxz. now rewrite Hxz.
Qed.

Lemma str_lt_irrefl a : ~ str_lt a a.
Proof. unfold str_lt. rewrite str_compare_refl. congruence. Qed.

(* the definition is the usual one: first difference decides, a proper prefix is smaller *)
Lemma str_lt_prefix a c r : str_lt a (a ++ c :: r).
Proof.
  unfold str_lt. induction a as [|x a IH]; cbn [app str_compare]; [reflexivity|]. now rewrite N.compare_refl.
Qed.

Lemma str_lt_diff p x y a' b' : x < y -> str_lt (p ++ x :: a') (p ++ y :: b').
Proof.
  intros H. unfold str_lt. induction p as [|q p IH]; cbn [app str_compare]; [|now rewrite N.compare_refl].
  apply N.compare_lt_iff in H. now rewrite H.
Qed.

Lemma str_lt_spec a b :
  str_lt a b <->
  (exists c r, b = a ++ c :: r) \/
  (exists p x y a' b', a = p ++ x :: a' /\ b = p ++ y :: b' /\ x < y).
Proof.
  split.
  - unfold str_lt. revert b. induction a as [|x a IH]; intros [|y b]; cbn [str_compare]; try discriminate.
    + intros _. left. now exists y, b.
    + destruct (N.compare x y) eqn:E; try discriminate.
      * apply N.compare_eq_iff in E as <-.
        intros [(c & r & ->)|(p & x' & y' & a' & b' & -> & -> & Hlt)]%IH.
        -- left. now exists c, r.
        -- right. now exists (x :: p), x', y', a', b'.
      * intros _. right. exists [], x, y, a, b. apply N.compare_lt_iff in E. now repeat split.
  - intros [(c & r & ->)|(p & x & y & a' & b' & -> & -> & Hlt)]; [apply str_lt_prefix|now apply str_lt_diff].
Qed.

Lemma str_eq_spec a b : reflect (a = b) (str_eq a b).
Proof.
  unfold str_eq. destruct (str_compare a b) eqn:E.
  - constructor. now apply str_compare_eq.
  - constructor. intros ->. rewrite str_compare_refl in E. congruence.
  - constructor. intros ->. rewrite str_compare_refl in E. congruence.
Qed.

Lemma str_eq_refl a : str_eq a a = true.
Proof. destruct (str_eq_spec a a); congruence. Qed.

Definition le_p (a b : str) : Prop := str_le a b = true.

Lemma le_p_total a b : str_le a b = false -> le_p b a.
Proof.
  unfold le_p, str_le. rewrite (str_compare_antisym a b).
  destruct (str_compare a b); cbn [CompOpp]; congruence.
Qed.

Lemma le_p_cases a b : le_p a b <-> a = b \/ str_lt a b.
Proof.
  unfold le_p, str_le, str_lt. destruct (str_compare a b) eqn:E.
  - apply str_compare_eq in E. tauto.
  - tauto.
  - split; [congruence|]. intros [->|H]; [rewrite str_compare_refl in E|]; congruence.
Qed.

Lemma le_p_trans a b c : le_p a b -> le_p b c -> le_p a c.
Proof.
  rewrite !le_p_cases. intros [->|H1] [->|H2]; auto. right. eapply str_lt_trans; eassumption.
Qed.

(* sorted(): [insert_key], [sort_keys] are the insertion sort of ListFacts.v at [str_le] *)
Lemma insert_key_perm k l : Permutation (insert_key k l) (k :: l).
Proof. exact (insert_by_perm str_le k l). Qed.

Lemma sort_keys_perm l : Permutation (sort_keys l) l.
Proof. exact (sort_by_perm str_le l). Qed.

Lemma insert_key_sorted k l : StronglySorted le_p l -> StronglySorted le_p (insert_key k l).
Proof.
  apply (insert_by_sorted str_le le_p k l le_p_trans). intros y _. destruct (str_le k y) eqn:E; [exact E|].
  exact (le_p_total _ _ E).
Qed.

Lemma sort_keys_sorted_le l : StronglySorted le_p (sort_keys l).
Proof.
  induction l as [|k l IH]; [constructor|]. cbn [sort_keys fold_right]. now apply insert_key_sorted.
Qed.

Lemma sorted_le_nodup_lt l : StronglySorted le_p l -> NoDup l -> StronglySorted str_lt l.
Proof.
  induction 1 as [|h t Ht IH Hh]; intros Hnd; [constructor|].
  inversion Hnd as [|? ? Hnotin Hnd']; subst. constructor; [now apply IH|].
  rewrite Forall_forall in *. intros x Hx. destruct (proj1 (le_p_cases h x) (Hh x Hx)) as [->|Hlt]; [contradiction | exact Hlt].
Qed.

Lemma sort_keys_sorted l : NoDup l -> StronglySorted str_lt (sort_keys l).
Proof.
  intros Hnd. apply sorted_le_nodup_lt; [apply sort_keys_sorted_le|].
  eapply Permutation_NoDup; [apply Permutation_sym, sort_keys_perm | exact Hnd].
Qed.

Lemma sort_keys_in l k : In k (sort_keys l) <-> In k l.
Proof.
  split; apply Permutation_in; [apply sort_keys_perm | apply Permutation_sym, sort_keys_perm].
Qed.

Lemma sorted_lt_unique : forall l1 l2,
  StronglySorted str_lt l1 -> StronglySorted str_lt l2 -> (forall k, In k l1 <-> In k l2) -> l1 = l2.
Proof.
  intros l1 l2 H1 H2 Hin.
  apply (sorted_perm_unique str_lt (fun a b Hab Hba => str_lt_irrefl a (str_lt_trans _ _ _ Hab Hba)) l1 l2 H1 H2).
  apply NoDup_Permutation; [exact (StronglySorted_NoDup _ str_lt_irrefl _ H1)|exact (StronglySorted_NoDup _ str_lt_irrefl _ H2)|exact Hin].
Qed.

Lemma dict_get_in d k : dict_get d k <> None <-> In k (dict_keys d).
Proof.
  induction d as [|[k' v] r IH]; cbn [dict_get dict_keys map fst In]; [tauto|].
  destruct (str_eq_spec k k') as [->|Hne].
  - split; [now left | congruence].
  - fold (dict_keys r). rewrite IH. split; [now right|]. intros [Heq|Hin]; [congruence | exact Hin].
Qed.

Lemma dict_get_notin d k : ~ In k (dict_keys d) -> dict_get d k = None.
Proof.
  intros Hn. destruct (dict_get d k) eqn:E; [|reflexivity].
  exfalso. apply Hn, dict_get_in. congruence.
Qed.

Lemma dict_get_set d k v k' :
  dict_get (dict_set d k v) k' = if str_eq k' k then Some v else dict_get d k'.
Proof.
  induction d as [|[k0 v0] r IH]; cbn [dict_set dict_get].
  - reflexivity.
  - destruct (str_eq_spec k k0) as [->|Hne]; cbn [dict_get].
    + destruct (str_eq_spec k' k0); reflexivity.
    + rewrite IH. destruct (str_eq_spec k' k0) as [->|Hne']; [|reflexivity].
      destruct (str_eq_spec k0 k) as [Heq|_]; [congruence | reflexivity].
Qed.

Lemma dict_keys_set d k v :
  dict_keys (dict_set d k v) = if dict_mem d k then dict_keys d else dict_keys d ++ [k].
Proof.
  unfold dict_mem. induction d as [|[k0 v0] r IH]; cbn [dict_set dict_get dict_keys map fst app]; [reflexivity|].
  destruct (str_eq_spec k k0) as [->|Hne]; cbn [map fst]; [reflexivity|].
  fold (dict_keys r) in *. fold (dict_keys (dict_set r k v)). rewrite IH.
  destruct (dict_get r k); reflexivity.
Qed.

Lemma dict_set_nodup d k v : NoDup (dict_keys d) -> NoDup (dict_keys (dict_set d k v)).
Proof.
  intros Hnd. rewrite dict_keys_set. unfold dict_mem. destruct (dict_get d k) eqn:E; [exact Hnd|].
  eapply Permutation_NoDup; [apply Permutation_cons_append|]. constructor; [|exact Hnd].
  intros Hin. apply dict_get_in in Hin. congruence.
Qed.

Lemma dict_keys_pop_incl d k x : In x (dict_keys (dict_pop d k)) -> In x (dict_keys d).
Proof.
  induction d as [|[k0 v0] r IH]; cbn [dict_pop dict_keys map fst In]; [tauto|].
  destruct (str_eq k k0); cbn [map fst In]; [now right|]. intros [H|H]; [now left | right; now apply IH].
Qed.

Lemma dict_pop_nodup d k : NoDup (dict_keys d) -> NoDup (dict_keys (dict_pop d k)).
Proof.
  induction d as [|[k0 v0] r IH]; cbn [dict_pop dict_keys map fst]; [constructor|].
  intros Hnd. inversion Hnd as [|? ? Hnotin Hnd']; subst.
  destruct (str_eq k k0); [exact Hnd'|]. cbn [map fst]. constructor; [|now apply IH].
  intros Hin. apply Hnotin. eapply dict_keys_pop_incl. exact Hin.
Qed.

Lemma dict_get_pop d k k' : NoDup (dict_keys d) ->
  dict_get (dict_pop d k) k' = if str_eq k' k then None else dict_get d k'.
Proof.
  induction d as [|[k0 v0] r IH]; cbn [dict_pop dict_get dict_keys map fst]; intros Hnd.
  - destruct (str_eq k' k); reflexivity.
  - inversion Hnd as [|? ? Hnotin Hnd']; subst.
    destruct (str_eq_spec k k0) as [->|Hne].
    + destruct (str_eq_spec k' k0) as [Heq|Hne']; [rewrite Heq; now apply dict_get_notin | reflexivity].
    + cbn [dict_get]. rewrite (IH Hnd').
      destruct (str_eq_spec k' k0) as [Heq|Hne']; [|reflexivity].
      destruct (str_eq_spec k' k) as [Heq2|_]; [congruence | reflexivity].
Qed.

Definition refines (p : prompt) (m : amap) (msg : option str) : Prop :=
  NoDup (dict_keys (p_options p)) /\ (forall k, dict_get (p_options p) k = m k) /\ p_message p = msg.

Lemma refines_set p m msg k d :
  refines p m msg ->
  refines {| p_message := p_message p; p_options := dict_set (p_options p) k d |} (amap_set m k d) msg.
Proof.
  intros (Hnd & Hget & Hmsg). repeat split; cbn [p_options p_message].
  - now apply dict_set_nodup.
  - intros k'. rewrite dict_get_set. unfold amap_set. now rewrite Hget.
  - exact Hmsg.
Qed.

Lemma refines_special key p m msg d :
  refines p m msg -> refines (add_special key p d) (amap_set m key d) msg.
Proof.
  intros Hr. unfold add_special, update_option, add_option.
  destruct (dict_mem (p_options p) key); now apply refines_set.
Qed.

Lemma refines_step p m msg o :
  refines p m msg -> refines (apply_pop p o) (amap_apply m o) (amsg_apply msg o).
Proof.
  intros Hr. destruct o as [k d|k d|k|m'|d|d|d|d]; cbn [apply_pop amap_apply amsg_apply].
  - now apply refines_set.
  - now apply refines_set.
  - destruct Hr as (Hnd & Hget & Hmsg). repeat split; cbn [remove_option p_options p_message].
    + now apply dict_pop_nodup.
    + intros k'. rewrite dict_get_pop by exact Hnd. unfold amap_del. now rewrite Hget.
    + exact Hmsg.
  - destruct Hr as (Hnd & Hget & Hmsg). repeat split; assumption.
  - now apply refines_special.
  - now apply refines_special.
  - now apply refines_special.
  - now apply refines_special.
Qed.

Lemma refines_run ops : forall p m msg,
  refines p m msg ->
  refines (run_pops p ops) (fold_left amap_apply ops m) (fold_left amsg_apply ops msg).
Proof.
  induction ops as [|o ops IH]; intros p m msg Hr; [exact Hr|].
  cbn [run_pops fold_left]. apply IH. now apply refines_step.
Qed.

Lemma prompt_refines_map m0 ops :
  refines (run_pops (new_prompt m0) ops) (amap_of ops) (amsg_of m0 ops).
Proof.
  apply refines_run. repeat split; cbn [new_prompt p_options p_message dict_keys map dict_get]; constructor.
Qed.

Lemma prompt_sorted m0 ops :
  let p := run_pops (new_prompt m0) ops in
  let ks := sort_keys (dict_keys (p_options p)) in
  StronglySorted str_lt ks /\ Permutation ks (dict_keys (p_options p)) /\
  (forall k, In k ks <-> amap_of ops k <> None).
Proof.
  intros p ks. destruct (prompt_refines_map m0 ops) as (Hnd & Hget & _). fold p in Hnd, Hget.
  split; [now apply sort_keys_sorted|]. split; [apply sort_keys_perm|].
  intros k. unfold ks. rewrite sort_keys_in, <- dict_get_in, Hget. reflexivity.
Qed.

Definition default_desc (o : option str) : str := match o with Some d => d | None => [] end.

Lemma insert_key_not_nil k l : insert_key k l <> [].
Proof. destruct l as [|h t]; cbn [insert_key]; [congruence|]. destruct (str_le k h); congruence. Qed.

(* with at least one option the text is " ".join([message if any, "[...]"]) + ": " *)
Lemma format_prompt_cons m kd l :
  format_prompt m (kd :: l) =
  join [32] (message_part m ++ [[91] ++ join [44; 32] (map (fun kd => opt_item (fst kd) (snd kd)) (kd :: l)) ++ [93]])
  ++ [58; 32].
Proof.
  destruct m as [[|c r]|]; cbn [format_prompt message_part app join]; repeat (rewrite <- app_assoc; cbn [app]);
    reflexivity.
Qed.

Lemma prompt_str_format p :
  prompt_str p =
  format_prompt (p_message p)
    (map (fun k => (k, default_desc (dict_get (p_options p) k))) (sort_keys (dict_keys (p_options p)))).
Proof.
  unfold prompt_str. destruct (p_options p) as [|[k0 v0] r] eqn:Eopts.
  - cbn [dict_keys map sort_keys fold_right format_prompt message_part].
    destruct (p_message p) as [[|c m]|]; cbn [message_part join app]; reflexivity.
  - set (opts := (k0, v0) :: r).
    destruct (sort_keys (dict_keys opts)) as [|k1 ks] eqn:Eks; [exfalso; revert Eks; apply insert_key_not_nil|].
    cbn [map]. rewrite format_prompt_cons. cbn [map fst snd]. rewrite map_map.
    destruct (message_part (p_message p)); reflexivity.
Qed.

Lemma prompt_format m0 ops :
  let p := run_pops (new_prompt m0) ops in
  prompt_str p =
  format_prompt (amsg_of m0 ops)
    (map (fun k => (k, default_desc (amap_of ops k))) (sort_keys (dict_keys (p_options p)))).
Proof.
  intros p. destruct (prompt_refines_map m0 ops) as (_ & Hget & Hmsg). fold p in Hget, Hmsg.
  rewrite prompt_str_format, Hmsg. f_equal. apply map_ext. intros k. now rewrite Hget.
Qed.

(* everything at once, without mentioning the concrete dict *)
Lemma prompt_str_spec m0 ops :
  exists ks,
    StronglySorted str_lt ks /\ (forall k, In k ks <-> amap_of ops k <> None) /\
    prompt_str (run_pops (new_prompt m0) ops)
    = format_prompt (amsg_of m0 ops) (map (fun k => (k, default_desc (amap_of ops k))) ks).
Proof.
  destruct (prompt_sorted m0 ops) as (Hs & _ & Hin).
  eexists. split; [exact Hs|]. split; [exact Hin|]. apply prompt_format.
Qed.

(* LoopFacts.v — facts about LoopSem's functions on states, queues and lists of levels that several files share:
   [set_nth] (the update of one cell of the store of queues), [q_add_source], [route], [do_get], the handlers' state [ust]. *)
From Coq Require Import List Arith Lia.
From RecordUpdate Require Import RecordUpdate.
From SL Require Import LoopSem.
Import ListNotations.

Lemma set_nth_length {A} (l : list A) n x : length (set_nth l n x) = length l.
Proof. revert n; induction l as [|a r IH]; intros [|n]; cbn; auto. Qed.
Lemma nth_set_nth {A} (l : list A) n x d m : n < length l ->
  nth m (set_nth l n x) d = if (m =? n)%nat then x else nth m l d.
Proof.
  revert n m; induction l as [|a r IH]; intros [|n] [|m] H; cbn in *; try lia; auto.
  apply IH. lia.
Qed.
Lemma nth_set_nth_eq {A} (l : list A) q v d : q < length l -> nth q (set_nth l q v) d = v.
Proof. intros H. rewrite nth_set_nth, Nat.eqb_refl by exact H. reflexivity. Qed.
(* true of every position, in range or not *)
Lemma nth_set_nth_neq {A} (l : list A) q q' v d : q <> q' -> nth q' (set_nth l q v) d = nth q' l d.
Proof. revert q q'; induction l as [|a l IH]; intros [|q] [|q'] H; cbn in *; try congruence; auto. Qed.
Lemma set_nth_set_nth {A} (st : list A) l v1 v2 : set_nth (set_nth st l v1) l v2 = set_nth st l v2.
Proof. revert l; induction st as [|a st IH]; intros [|l]; cbn; auto. f_equal. apply IH. Qed.
Lemma set_nth_same {A} (st : list A) l d : set_nth st l (nth l st d) = st.
Proof. revert l; induction st as [|a st IH]; intros [|l]; cbn; auto. f_equal. apply IH. Qed.
(* a field that the update of one cell leaves alone reads the same in every cell *)
Lemma nth_set_nth_proj {A B} (P : A -> B) f (st : list A) l q d :
  (forall v, P (f v) = P v) -> P (nth q (set_nth st l (f (nth l st d))) d) = P (nth q st d).
Proof. intros H. revert l q; induction st as [|a st IH]; intros [|l] [|q]; cbn; auto. Qed.
Lemma set_nth_in {A} (l : list A) : forall n x y, In y (set_nth l n x) -> y = x \/ In y l.
Proof.
  induction l as [|a l IH]; intros n x y; cbn [set_nth]; [destruct n; cbn; tauto|].
  destruct n; cbn [In]; [intuition auto|]. intros [H|H]; [auto|]. apply IH in H. tauto.
Qed.

Lemma set_nth_split {A} (l : list A) d : forall n v, n < length l ->
  exists a b, l = a ++ nth n l d :: b /\ set_nth l n v = a ++ v :: b.
Proof.
  induction l as [|x r IH]; intros [|n] v H; cbn in *; try lia.
  - exists [], r. split; reflexivity.
  - destruct (IH n v ltac:(lia)) as (a & b & E1 & E2). exists (x :: a), b. cbn. split; congruence.
Qed.
Lemma set_nth_out {A} (l : list A) : forall n v, length l <= n -> set_nth l n v = l.
Proof. induction l as [|x r IH]; intros [|n] v H; cbn in *; try lia; auto. f_equal. apply IH. lia. Qed.

(* register_signal_source adds to the sources of a queue, once, and touches nothing else *)
Lemma eq_entries_add_source q o : eq_entries (q_add_source q o) = eq_entries q.
Proof. unfold q_add_source. destruct (existsb _ _); reflexivity. Qed.
Lemma eq_counter_add_source q o : eq_counter (q_add_source q o) = eq_counter q.
Proof. unfold q_add_source. destruct (existsb _ _); reflexivity. Qed.
Lemma eq_sources_add_source q o :
  eq_sources (q_add_source q o) = if existsb (Nat.eqb o) (eq_sources q) then eq_sources q else eq_sources q ++ [o].
Proof. unfold q_add_source. destruct (existsb _ _); reflexivity. Qed.

Lemma route_lt {U} (s : lstate U) l src q :
  Forall (fun q => q < length (qstore s)) l -> route s l src = Some q -> q < length (qstore s).
Proof.
  induction l as [|x r IH]; cbn; intros F H; [discriminate|].
  inversion F; subst. destruct (q_contains_source (get_q s x) src); [inversion H; subst; assumption|auto].
Qed.

Lemma do_get_some {U} (s : lstate U) sg s1 : do_get s = inl (Some (sg, s1)) ->
  exists p c q', q_pop (get_q s (active s)) = Some ((p, c, sg), q') /\ s1 = set_q s (active s) q'.
Proof.
  unfold do_get. destruct (q_pop (get_q s (active s))) as [[[[p c] sg'] q']|].
  - intros H. injection H as <- <-. eauto.
  - destruct (ext s); [discriminate|]. destruct (new_signal _ _). discriminate.
Qed.

Lemma ust_eta {U} (s : lstate U) : s <| ust := ust s |> = s.
Proof. destruct s; reflexivity. Qed.
Lemma ust_emit {U} (e : event) (s : lstate U) : ust (emit e s) = ust s. Proof. reflexivity. Qed.

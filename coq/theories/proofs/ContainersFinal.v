(* ContainersFinal.v — C13, C17: a node whose children stay within the width they are given does so too
   ([within_width]; for a list container from its closed form, ContainersBlank.v), hence every
   [fitting_tree]; so the hypothesis of the _partial theorems about the items holds for trees without a
   forced column width below the list under consideration; labels and texts always render when the
   width is positive, so the refusals of a numbered list are decided by the widths alone. *)
From SL Require Import Tac proofs.ListFacts.
From SL Require Import PyInt Widget TextWrap KeyPattern Containers Prompt Paging ScreenOut
     proofs.WidgetProofs proofs.TextWrapRender proofs.ContainersProofs proofs.ContainersLayout proofs.ContainersBlank.
Import ListNotations.

Lemma quot_bound a c : (0 < c)%Z -> (0 < Z.quot a c)%Z -> (c * Z.quot a c <= a)%Z.
Proof.
  intros Hc Hq. assert (Ha : (0 <= a)%Z).
  { destruct (Z.lt_ge_cases a 0) as [Hneg|Hnn]; [|exact Hnn].
    pose proof (Z.quot_opp_l a c ltac:(lia)) as Ho.
    pose proof (Z.quot_pos (- a) c ltac:(lia) Hc). lia. }
  rewrite Z.quot_div_nonneg by lia. apply Z.mul_div_le. exact Hc.
Qed.

Lemma list_within_width kind columns items spacing kp w b :
  (0 <= spacing)%Z ->
  items_fit items ->
  render_tree (WList kind columns items None spacing kp) w = ROk b ->
  Forall (fun l : line => (Z.of_nat (length l) <= w)%Z) b.
Proof.
  intros Hs Hitems H.
  assert (Hc : (0 < columns)%Z).
  { rewrite render_tree_eq in H. cbn [render_node] in H. destruct (columns <=? 0)%Z eqn:Ec; [discriminate|lia]. }
  apply list_width_bound in H; try assumption. destruct H as [->|[Hcw Hw]]; [constructor|].
  unfold list_columns_width in Hcw, Hw.
  pose proof (quot_bound _ _ Hc Hcw) as Hq.
  assert (H1 : (0 <= (columns - 1) * spacing)%Z) by (apply Z.mul_nonneg_nonneg; lia).
  apply buf_width_le_Z; lia.
Qed.

Definition within_width (t : wtree) : Prop :=
  forall w b, (0 <= w)%Z -> render_tree t w = ROk b -> (Z.of_nat (buf_width b) <= w)%Z.

Lemma sep_within_width n : within_width (WSep n).
Proof.
  intros w b Hw [= <-]. apply buf_width_le_Z; [exact Hw|]. unfold render_sep.
  apply Forall_forall. intros l Hl. apply repeat_spec in Hl. subst l. exact Hw.
Qed.

Lemma center_within_width c : within_width c -> within_width (WCenter c).
Proof.
  intros Hc w b Hw H. rewrite render_tree_eq in H. cbn [render_node] in H.
  destruct (render_tree c w) as [cb| |] eqn:Ecb; cbn [bind] in H; try discriminate.
  pose proof (Hc w cb Hw Ecb) as Hcb.
  unfold nat_of_Z in H. destruct (_ <? 0)%Z eqn:En; cbn [bind] in H; [discriminate|]. injection H as <-.
  assert (Hb : buf_width (fst (draw [] 0 (Z.to_nat ((w - Z.of_nat (buf_width cb)) / 2)) false cb)) <= Z.to_nat w).
  { apply draw_buf_width; [cbn; lia|]. lia. }
  unfold draw in Hb. cbn [fst draw_at] in Hb. lia.
Qed.

Lemma list_tree_within_width kind columns items spacing kp :
  (0 <= spacing)%Z -> (forall it, In it items -> within_width it) ->
  within_width (WList kind columns items None spacing kp).
Proof.
  intros Hs Hitems w b Hw H. apply buf_width_le_Z; [exact Hw|].
  apply (list_within_width kind columns items spacing kp w b Hs); [|exact H].
  intros it w' b' Hin Hw'. apply (Hitems it Hin). lia.
Qed.

(* the lines of a window are those of its title block and of its items *)
Lemma window_within_width title items :
  (forall it, In it items -> within_width it) -> within_width (WWindow title items).
Proof.
  intros Hitems w b Hw H. apply render_window in H. destruct H as (hd & ibs & Hhd & HF & ->).
  apply buf_width_le_Z; [exact Hw|]. apply Forall_app. split.
  - destruct (window_title_cases _ _ _ Hhd) as [->|(t & tb & _ & _ & Etb & ->)]; [constructor|].
    apply Forall_app. split; [|repeat constructor; exact Hw].
    apply buf_width_le_Z; [exact Hw|]. exact (text_within_width t w tb Hw Etb).
  - apply List.Forall_concat, Forall_forall. intros ib Hib.
    destruct (Forall2_In_r _ _ _ ib HF Hib) as (it & Hit & Hr).
    apply buf_width_le_Z; [exact Hw|]. exact (Hitems it Hit w ib Hw Hr).
Qed.

Lemma render_tree_text t w : render_tree (WText t) w = render_text t w.
Proof. reflexivity. Qed.

Lemma draw_items_block_width (r : wtree -> Z -> rres buffer) items wi m col :
  (forall it b, In it items -> r it wi = ROk b -> col + buf_width b <= m) ->
  forall b0 row res, buf_width b0 <= m -> draw_items_block r items wi b0 row col = ROk res -> buf_width (fst res) <= m.
Proof.
  intros Hit b0 row res.
  apply (draw_items_block_inv r (fun b => buf_width b <= m) (fun ib => col + buf_width ib <= m)); [|exact Hit].
  intros b row' ib. apply draw_buf_width.
Qed.

Lemma draw_items_block_all_ok (r : wtree -> Z -> rres buffer) items wi col :
  forall b0 row res, draw_items_block r items wi b0 row col = ROk res ->
  forall it, In it items -> exists b, r it wi = ROk b.
Proof.
  induction items as [|it0 items IH]; intros b0 row res H it Hin; [destruct Hin|].
  cbn [draw_items_block] in H. destruct (r it0 wi) as [ib| |] eqn:Eib; cbn [bind] in H; try discriminate.
  destruct Hin as [<-|Hin]; [now exists ib|].
  destruct (draw b0 row col true ib) as [b' [row' c']]. now apply (IH b' row' res H it).
Qed.

(* CheckboxWidget with a title or a text: "[x] " then the data in a column of width - 4; rendering
   succeeds only for width >= 5 *)
Lemma checkbox_within_width box data :
  Exists (fun d => t_text d <> []) data -> within_width (WCheckbox box data).
Proof.
  intros Hex w b _ H. rewrite render_tree_eq in H. cbn [render_node] in H.
  match type of H with bind ?e _ = _ => destruct e as [cb| |] eqn:Ecb; cbn [bind] in H; try discriminate end.
  injection H as <-. change (fst (draw [] 0 0 false cb)) with (overlay [] 0 cb). rewrite overlay_nil.
  cbn [render_columns] in Ecb. change (nat_of_Z 0) with (ROk 0 : rres nat) in Ecb. cbn [bind] in Ecb.
  destruct (draw_items_block render_tree [WText box] 3 [] 0 0) as [res1| |] eqn:E1; cbn [bind] in Ecb; try discriminate.
  assert (H1 : buf_width (fst res1) <= 3).
  { apply (draw_items_block_width _ _ _ 3 0 ) in E1; [exact E1| |cbn; lia].
    intros it b' [<-|[]] Hr. rewrite render_tree_text in Hr. apply text_within_width in Hr; lia. }
  replace (Z.max (0 + 3) (Z.of_nat (buf_width (fst res1))) + 1)%Z with 4%Z in Ecb by lia.
  change (nat_of_Z 4) with (ROk 4 : rres nat) in Ecb. cbn [bind] in Ecb.
  destruct (draw_items_block render_tree (map WText data) (w - 4) (fst res1) 0 4) as [res2| |] eqn:E2;
    cbn [bind] in Ecb; try discriminate.
  injection Ecb as <-.
  assert (Hw : (5 <= w)%Z).
  { apply Exists_exists in Hex. destruct Hex as (d & Hd & Hne).
    destruct (draw_items_block_all_ok _ _ _ _ _ _ _ E2 (WText d) (in_map WText data d Hd)) as (bd & Hbd).
    rewrite render_tree_text in Hbd. destruct (Z_le_gt_dec (w - 4) 0) as [Hle|Hgt]; [|lia].
    rewrite (render_nonpositive d (w - 4) Hne Hle) in Hbd. discriminate. }
  assert (H2 : buf_width (fst res2) <= Z.to_nat w).
  { apply (draw_items_block_width _ _ _ (Z.to_nat w) 4) in E2; [exact E2| |lia].
    intros it b' Hin Hr. apply in_map_iff in Hin. destruct Hin as (d & <- & _). rewrite render_tree_text in Hr.
    apply text_within_width in Hr; lia. }
  lia.
Qed.

Lemma fitting_tree_width t : fitting_tree t -> within_width t.
Proof.
  induction t as [t IH] using wtree_child_ind. intros Hfit.
  inversion Hfit as [tx|n|c Hc|box data Hex|kind columns items spacing kp Hs Hitems|title items Hitems];
    subst; cbn [children] in IH.
  - intros w b. apply text_within_width.
  - apply sep_within_width.
  - apply center_within_width. apply IH; [now left|exact Hc].
  - now apply checkbox_within_width.
  - rewrite Forall_forall in Hitems. apply list_tree_within_width; [exact Hs|auto].
  - rewrite Forall_forall in Hitems. apply window_within_width. auto.
Qed.

Lemma fitting_tree_within_width t w b :
  fitting_tree t -> (0 <= w)%Z -> render_tree t w = ROk b -> Forall (fun l : line => (Z.of_nat (length l) <= w)%Z) b.
Proof. intros Hfit Hw H. apply buf_width_le_Z; [exact Hw|]. exact (fitting_tree_width t Hfit w b Hw H). Qed.

(* the class of C13 is that of C17 without its checkboxes *)
Lemma fit_fitting text_ok t : fit_tree text_ok t -> fitting_tree t.
Proof.
  induction t as [t IH] using wtree_child_ind. intros Hp.
  inversion Hp as [tx _|n|c Hc|kind columns items spacing kp Hs Hitems _|title items _ Hitems];
    subst; cbn [children] in IH; constructor; try assumption.
  - apply IH; [now left|exact Hc].
  - rewrite Forall_forall in *. auto.
  - rewrite Forall_forall in *. auto.
Qed.

Definition plain_tree : wtree -> Prop := fit_tree (fun _ => True).

Lemma plain_items_width items : Forall plain_tree items -> items_fit items.
Proof.
  intros Hall it w' b' Hin Hw. rewrite Forall_forall in Hall.
  apply (fitting_tree_width it (fit_fitting _ it (Hall it Hin))). lia.
Qed.

Lemma text_renders_positive t w : (0 < w)%Z -> exists b, render_text t w = ROk b.
Proof.
  intros Hw. destruct (render_text_cases t w) as [[H _]|[[_ [_ H]]|[H1 H2]]]; [eauto|lia|].
  rewrite render_text_eq by assumption. eauto.
Qed.

(* labels render: the hypothesis of C13_refused_label holds for every pattern *)
Lemma label_renders kp' j : exists lb, label_buffer kp' j = ROk lb.
Proof.
  unfold label_buffer. cbv zeta. destruct (get_widget_label kp' j) as [|c s]; [now exists []|].
  apply text_renders_positive. cbn [length]. lia.
Qed.

Lemma list_refused_label_total kind columns items forced spacing kp' w i :
  (0 < columns)%Z -> i < length items ->
  let cw := list_columns_width columns forced spacing w in
  (cw - Z.of_nat (length (get_widget_label kp' i)) <= 0)%Z ->
  (forall j it, j < i -> nth_error items j = Some it ->
     exists b, render_tree it (cw - Z.of_nat (length (get_widget_label kp' j)))%Z = ROk b) ->
  render_tree (WList kind columns items forced spacing (Some kp')) w = RValueError.
Proof.
  intros Hc Hi cw Hw Hok. apply (list_refused_label kind columns items forced spacing kp' w i Hc Hi Hw); [|exact Hok].
  intros j _. apply label_renders.
Qed.

Lemma text_items_refused kp' ts : forall id cw,
  (exists i, i < length ts /\ (cw - Z.of_nat (length (get_widget_label kp' (id + i))) <= 0)%Z) ->
  render_all_items render_tree (map WText ts) id cw (Some kp') = RValueError.
Proof.
  induction ts as [|t ts IH]; intros id cw [i [Hi Hw]]; cbn [length] in Hi; [lia|].
  cbn [map render_all_items]. destruct (cw <=? 0)%Z eqn:Ecw; [reflexivity|].
  destruct (label_renders kp' id) as [lb Hlb]. rewrite Hlb. cbn [bind].
  destruct (cw - Z.of_nat (length (get_widget_label kp' id)) <=? 0)%Z eqn:Eiw; [reflexivity|].
  rewrite render_tree_text.
  destruct (text_renders_positive t (cw - Z.of_nat (length (get_widget_label kp' id)))%Z ltac:(lia)) as [b Hb].
  rewrite Hb. cbn [bind]. rewrite IH; [reflexivity|].
  destruct i as [|i]; [rewrite Nat.add_0_r in Hw; lia|].
  exists i. split; [lia|]. replace (S id + i) with (id + S i) by lia. exact Hw.
Qed.

Lemma text_list_refused kind columns ts forced spacing kp' w i :
  (0 < columns)%Z -> i < length ts ->
  (list_columns_width columns forced spacing w - Z.of_nat (length (get_widget_label kp' i)) <= 0)%Z ->
  render_tree (WList kind columns (map WText ts) forced spacing (Some kp')) w = RValueError.
Proof.
  intros Hc Hi Hw. rewrite render_tree_eq. cbn [render_node]. destruct (columns <=? 0)%Z eqn:E; [lia|].
  rewrite text_items_refused; [reflexivity|]. exists i. split; [exact Hi|exact Hw].
Qed.

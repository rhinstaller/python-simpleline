(* C02Proofs.v -- every session trace of the model is accepted by the C02 monitor ([delivery]), from the Hoare form
   [Exec_res] by induction on the derivations of proofs/C09Exec.v; then the one-step facts about the kill, run() and a
   failing handler, the place [stable_insert] gives an entry, and what acceptance means after a kill. *)
From SL Require Import Tac.
From RecordUpdate Require Import RecordUpdate.
From SL Require Import LoopSem Monitors proofs.LoopFacts proofs.MonitorFacts proofs.ExecEqs proofs.LoopLink proofs.C09Exec proofs.C02Link.
From SL Require proofs.C01Proofs.
Import ListNotations.

Section Exec.
  Context {U : Type} (code : nat -> signal -> nat -> prog U).
  Implicit Types s : lstate U.

  Lemma handlers_do_enqueue s sg : handlers (do_enqueue s sg) = handlers s.
  Proof. unfold do_enqueue. destruct (force_quit s); reflexivity. Qed.

  Definition hl (hs : list (nat * list (nat * nat))) (cls : nat) : nat :=
    match option_map snd (find (fun p => (fst p =? cls)%nat) hs) with Some l => length l | None => 0 end.

  Lemma hl_add hs c h d cls : hl hs cls <= hl (add_handler hs c h d) cls.
  Proof.
    unfold hl. induction hs as [|[k l] hs IH]; cbn [add_handler find fst].
    - destruct (c =? cls)%nat; cbn; lia.
    - destruct (k =? c)%nat eqn:E; cbn [find fst].
      + destruct (k =? cls)%nat; cbn [option_map snd]; [rewrite app_length; lia | lia].
      + destruct (k =? cls)%nat; cbn [option_map snd]; [lia | exact IH].
  Qed.

  Lemma Exec_hmono c s o s' cls : Exec code c s o s' -> hlen s cls <= hlen s' cls.
  Proof.
    apply (Exec_frame code (fun a b => hlen a cls <= hlen b cls)).
    - intros a. apply le_n.
    - intros a b c0 H1 H2. exact (Nat.le_trans _ _ _ H1 H2).
    - intros e a. apply le_n.
    - intros a b _ Hh. unfold hlen, handlers_of. rewrite Hh. apply le_n.
    - intros a c0 h d. exact (hl_add (handlers a) c0 h d cls).
  Qed.

  (* _process_signal catches every ordinary exception *)
  Lemma exec_ps_noerr f sg idx s o s' : exec code f (CProcessSignal sg idx) s = (o, s') -> o <> OThrow XError.
  Proof. intros H. exact (no_error_Exec code _ _ _ _ (exec_Exec code _ _ _ _ _ H) eq_refl). Qed.

  Lemma known_step s s' e sg :
    trace s' = e :: trace s -> match e with ESigNew _ _ _ _ => False | _ => True end -> next_sig s' = next_sig s ->
    sig_known (W s) (next_sig s) sg -> sig_known (W s') (next_sig s') sg.
  Proof.
    intros Ht He Hn Hk. rewrite Hn, (W_cons _ _ _ Ht). eapply sig_known_same; [|exact Hk].
    rewrite ws_sig. destruct e; try reflexivity. destruct He.
  Qed.

  Lemma good_put_back F s p cnt sg q' :
    good 0 F s -> q_pop (get_q s (active s)) = Some ((p, cnt, sg), q') ->
    good 0 F (set_q s (active s) (q_put_entry q' (p, cnt, sg))).
  Proof.
    intros G Hp. destruct (pop_known _ _ _ _ _ _ G Hp) as [K1 Ks]. apply good_set_q; [exact G|].
    intros ent He. change (In ent (eq_entries q' ++ [(p, cnt, sg)])) in He.
    apply in_app_or in He as [He|[<-|[]]]; [auto | exact K1].
  Qed.

  Lemma good_new_enqueue F s sp sg s1 : good 0 F s -> new_signal s sp = (sg, s1) -> good 0 F (do_enqueue s1 sg).
  Proof.
    intros G N. destruct (good_fresh_signal _ _ _ _ _ G N) as [G1 K1].
    apply (good_do_enqueue 0); [exact G1 | exact K1 | left; reflexivity].
  Qed.

  Lemma good_nl_enter F s sp sg s1 :
    good 0 F s -> new_signal s sp = (sg, s1) -> good 0 F s1 /\ good 0 F (nl_enter sg s1).
  Proof.
    intros G N. destruct (good_fresh_signal _ _ _ _ _ G N) as [G1 K1]. split; [exact G1|].
    apply (good_do_enqueue 0); [| | left; reflexivity].
    { apply (good_neutral F s1 _ (ENewLoopEnter (length (qstore s1))) G1); [reflexivity | repeat split | reflexivity|].
      apply sigs_ok_app_empty, G1. }
    eapply known_step; [reflexivity | exact I | reflexivity | exact K1].
  Qed.

  Lemma do_get_inr_good F s s1 : good 0 F s -> do_get s = inr s1 -> good 0 F s1.
  Proof.
    intros G H. apply do_get_inr in H as (_ & sp & r & _ & ->). unfold ext_arrival.
    assert (G0 : good 0 F (s <| ext := r |>)) by (eapply good_eq; [exact G | reflexivity ..]).
    destruct (new_signal (s <| ext := r |>) sp) as [sg s2] eqn:N.
    destruct (good_fresh_signal _ _ _ _ _ G0 N) as [G1 K1].
    apply (good_do_enqueue 0); [apply good_passive; [exact G1 | reflexivity] | | left; reflexivity].
    eapply known_step; [reflexivity | exact I | reflexivity | exact K1].
  Qed.

  Definition res (F : list frame) (o : outcome) (s' : lstate U) : Prop :=
    match o with
    | ONormal | OThrow XExit | OThrow XError => good 0 F s'
    | OThrow XSysExit => dead s' \/ good 0 F s'
    | OBlocked | OFuel => acc s'
    end.

  Definition pre (c : call U) (F : list frame) (s : lstate U) : Prop :=
    match c with
    | CProcessSignal sg idx => good 0 (mkframe sg idx false :: F) s /\ idx <= hlen s (sg_cls sg)
    | CRun => good 0 F s /\ F = []
    | _ => good 0 F s
    end.

  Lemma pre_acc c F s : pre c F s -> acc s.
  Proof. destruct c; cbn [pre]; intros H; try apply H. Qed.

  Lemma res_acc F o s : res F o s -> acc s.
  Proof. destruct o as [|[]| |]; cbn [res]; intros H; try apply H. destruct H as [H|H]; apply H. Qed.

  (* pop; EDispatch: the dispatch starts at handler 0 with its own frame open *)
  Lemma pre_pop_disp F s p cnt sg q' :
    good 0 F s -> q_pop (get_q s (active s)) = Some ((p, cnt, sg), q') ->
    pre (CProcessSignal sg 0) F (disp sg s (set_q s (active s) q')).
  Proof.
    intros G Hp. destruct (pop_known _ _ _ _ _ _ G Hp) as [K1 Ks]. split; [|apply Nat.le_0_l].
    apply good_dispatch; [apply good_set_q; assumption | exact K1].
  Qed.

  Lemma pre_get_disp F s sg s1 :
    good 0 F s -> do_get s = inl (Some (sg, s1)) -> pre (CProcessSignal sg 0) F (disp sg s s1).
  Proof. intros G H. apply do_get_some in H as (p & cnt & q' & Hp & ->). exact (pre_pop_disp _ _ _ _ _ _ G Hp). Qed.

  Lemma pre_ps_mark F sg idx s : pre (CProcessSignal sg idx) F s -> pre (CProcessSignal sg idx) F (ps_mark sg idx s).
  Proof.
    unfold ps_mark. destruct (idx =? 0)%nat; [|auto]. intros [G Hi]. split; [|exact Hi].
    eapply good_eq; [exact G | reflexivity ..].
  Qed.

  Lemma pre_handler F sg idx s hs hid data :
    pre (CProcessSignal sg idx) F s ->
    handlers_of (ps_mark sg idx s) (sg_cls sg) = Some hs -> force_quit (ps_mark sg idx s) = false ->
    nth_error hs idx = Some (hid, data) ->
    good 0 (mkframe sg idx true :: F) (emit (EHandler hid (sg_id sg) data) (ps_mark sg idx s)).
  Proof. intros P. exact (good_handler_start _ _ _ _ _ _ _ (proj1 (pre_ps_mark _ _ _ _ P))). Qed.

  Lemma ps_finished F sg idx s :
    pre (CProcessSignal sg idx) F s -> hlen s (sg_cls sg) <= idx -> good 0 F (emit (EDispatchEnd (sg_id sg)) s).
  Proof. intros [G Hi] Hl. eapply good_dispatch_end; [exact G | right; lia]. Qed.

  (* the handler at [idx] has run: [S idx] is within the table, which can only have grown *)
  Lemma ps_next_idx sg idx s hs hd e c o s2 :
    handlers_of s (sg_cls sg) = Some hs -> nth_error hs idx = Some hd ->
    Exec code c (emit e s) o s2 -> S idx <= hlen s2 (sg_cls sg).
  Proof.
    intros Hh Hn X. apply (Nat.le_trans _ (hlen s (sg_cls sg))); [|exact (Exec_hmono _ _ _ _ _ X)].
    unfold hlen. rewrite Hh. apply nth_error_Some. congruence.
  Qed.

  (* a handler failed: the ExceptionSignal is created and enqueued, then the next handler *)
  Lemma ps_after_error F sg idx s xs s4 :
    good 1 (mkframe sg idx false :: F) s -> idx <= hlen s (sg_cls sg) -> new_signal s exception_spec = (xs, s4) ->
    pre (CProcessSignal sg idx) F (do_enqueue s4 xs).
  Proof.
    intros G Hi N. destruct (good_new_signal 1 _ s exception_spec G) as (G4 & K4 & Hx).
    { unfold chk_C02. rewrite (g_nk _ _ _ G), (g_exp _ _ _ G). reflexivity. }
    injection N as <- <-. cbn [new_signal snd Nat.eqb] in G4, K4, Hx. split.
    - apply (good_do_enqueue 2); [exact G4 | exact K4 | right; repeat split]. apply Hx. reflexivity.
    - unfold hlen, handlers_of in *. rewrite handlers_do_enqueue. exact Hi.
  Qed.

  Lemma good_run_return F s : good 0 F s -> good 0 F (emit ERunReturn (quit_call s)).
  Proof.
    intros G. apply good_passive; [|reflexivity]. unfold quit_call.
    destruct (quit_cb s); [apply good_passive; [exact G|reflexivity] | exact G].
  Qed.

  (* process_signals(): EProcEnter, the iteration, EProcReturn *)
  Lemma good_around F s s1 w t w' t' :
    (good 0 F (emit (EProcEnter w t) s) -> good 0 F s1) -> good 0 F s -> good 0 F (emit (EProcReturn w' t') s1).
  Proof. intros Q G. apply good_passive; [apply Q, good_passive; [exact G | reflexivity] | reflexivity]. Qed.

  Lemma good_run_enter s : good 0 [] s -> good 0 [] (run_enter s).
  Proof. intros G. apply (good_neutral [] s _ ERunEnter G); [reflexivity | repeat split | reflexivity | apply G]. Qed.

  Lemma good_ml_exit F s : good 0 F s -> good 0 F (ml_exit s).
  Proof. intros G. unfold ml_exit. destruct (force_quit s); [exact G|]. eapply good_eq; [exact G | reflexivity ..]. Qed.

  Lemma Exec_res c s o s' : Exec code c s o s' -> forall F, pre c F s -> res F o s'.
  Proof.
    induction 1; intros F P; cbn [pre] in P.
    - (* X_fuel *) exact (pre_acc _ _ _ P).
    - (* X_run_stop *)
      destruct P as [G ->]. apply good_run_return.
      pose proof (IHExec [] (good_run_enter _ G)) as R. destruct H0 as [-> | ->]; exact R.
    - (* X_run_abort *) destruct P as [G ->]. exact (IHExec [] (good_run_enter _ G)).
    - (* X_ml_done *) exact (good_ml_exit _ _ P).
    - (* X_ml_iter *) exact (IHExec2 F (IHExec1 F P)).
    - (* X_ml_abort *) exact (IHExec F P).
    - (* X_pl_done *) exact P.
    - (* X_pl_blocked *) exact (g_acc _ _ _ P).
    - (* X_pl_ext *) exact (IHExec F (do_get_inr_good _ _ _ P H0)).
    - (* X_pl_disp *) exact (IHExec2 F (IHExec1 F (pre_get_disp _ _ _ _ P H0))).
    - (* X_pl_abort *) exact (IHExec F (pre_get_disp _ _ _ _ P H0)).
    - (* X_pw_done *) exact P.
    - (* X_pw_blocked *) exact (g_acc _ _ _ P).
    - (* X_pw_ext *) exact (IHExec F (do_get_inr_good _ _ _ P H0)).
    - (* X_pw_abort *) exact (IHExec F (pre_get_disp _ _ _ _ P H0)).
    - (* X_pw_released *) eapply good_eq; [exact (IHExec F (pre_get_disp _ _ _ _ P H0)) | reflexivity ..].
    - (* X_pw_again *) exact (IHExec2 F (IHExec1 F (pre_get_disp _ _ _ _ P H0))).
    - (* X_pw_keyerror *) exact (IHExec F (pre_get_disp _ _ _ _ P H0)).
    - (* X_pi_done *) exact P.
    - (* X_pi_none *) exact P.
    - (* X_pi_go *) exact (IHExec2 F (IHExec1 F (pre_pop_disp _ _ _ _ _ _ P H0))).
    - (* X_pi_abort *) exact (IHExec F (pre_pop_disp _ _ _ _ _ _ P H0)).
    - (* X_pi_requeue *) apply good_passive; [exact (good_put_back _ _ _ _ _ _ P H0) | reflexivity].
    - (* X_ps_kill *)
      destruct (pre_ps_mark _ _ _ _ P) as [G0 Hi]. unfold hlen in Hi. rewrite H in Hi.
      apply Nat.le_0_r in Hi. subst idx. left. apply Nat.eqb_eq in H0.
      eapply dead_kill; [exact G0 | exact H0 | rewrite <- H0; exact H].
    - (* X_ps_nohandler *) apply (ps_finished _ _ idx _ (pre_ps_mark _ _ _ _ P)). unfold hlen. rewrite H. apply Nat.le_0_l.
    - (* X_ps_fq *) eapply good_dispatch_end; [exact (proj1 (pre_ps_mark _ _ _ _ P)) | left; exact H0].
    - (* X_ps_end *) apply (ps_finished _ _ idx _ (pre_ps_mark _ _ _ _ P)). unfold hlen. rewrite H. apply nth_error_None, H1.
    - (* X_ps_ok: the handler returned *)
      pose proof (IHExec1 _ (pre_handler _ _ _ _ _ _ _ P H H0 H1)) as R1.
      apply (IHExec2 F). split; [exact (good_handler_end _ _ _ _ hid None R1)|].
      exact (ps_next_idx sg idx _ _ _ _ _ _ _ H H1 H2).
    - (* X_ps_error: an ordinary exception: one ExceptionSignal, then the remaining handlers *)
      pose proof (IHExec1 _ (pre_handler _ _ _ _ _ _ _ P H H0 H1)) as R1.
      apply (IHExec2 F), (ps_after_error _ _ _ _ _ _ (good_handler_end _ _ _ _ hid (Some XError) R1)); [|exact H3].
      exact (ps_next_idx sg idx _ _ _ _ _ _ _ H H1 H2).
    - (* X_ps_throw: ExitMainLoop and SystemExit pass through *)
      pose proof (IHExec _ (pre_handler _ _ _ _ _ _ _ P H H0 H1)) as R1.
      destruct e; [exact (good_handler_end _ _ sg idx hid (Some XExit) R1) | destruct (H3 eq_refl) |].
      destruct R1 as [D|G2]; [left; apply dead_unwind; exact D|].
      right. exact (good_handler_end _ _ sg idx hid (Some XSysExit) G2).
    - (* X_ps_abort *) pose proof (IHExec _ (pre_handler _ _ _ _ _ _ _ P H H0 H1)) as R1.
      destruct H3 as [-> | ->]; exact R1.
    - (* X_enqueue *) exact (good_new_enqueue _ _ _ _ _ P H).
    - (* X_force_quit *) apply (good_neutral F s _ EForceQuit P); [reflexivity | repeat split | reflexivity | apply P].
    - (* X_nl_fq *) exact (proj1 (good_nl_enter _ _ _ _ _ P H)).
    - (* X_nl_ok *) apply good_passive; [exact (IHExec F (proj2 (good_nl_enter _ _ _ _ _ P H))) | reflexivity].
    - (* X_nl_abort *) exact (IHExec F (proj2 (good_nl_enter _ _ _ _ _ P H))).
    - (* X_cl_abort: close_loop = process_signals(), then the pop *)
      exact (IHExec F (good_passive _ _ (EProcEnter _ _) P eq_refl)).
    - (* X_cl_empty *) exact (good_around _ _ _ _ _ _ _ (IHExec F) P).
    - (* X_cl_last *) eapply good_close_pop; [exact (good_around _ _ _ _ _ None 0 (IHExec F) P) | exact H0 | reflexivity ..].
    - (* X_cl_pop *) eapply good_close_pop; [exact (good_around _ _ _ _ _ None 0 (IHExec F) P) | exact H0 | reflexivity ..].
    - (* X_pn_ok *) exact (good_around _ _ _ _ _ _ _ (IHExec F) P).
    - (* X_pn_abort *) exact (IHExec F (good_passive _ _ (EProcEnter _ _) P eq_refl)).
    - (* X_pt_ok *) apply (good_around _ _ _ _ _ _ _ (IHExec F)). eapply good_eq; [exact P | reflexivity ..].
    - (* X_pt_abort *)
      refine (IHExec F (good_passive _ _ (EProcEnter _ _) _ eq_refl)). eapply good_eq; [exact P | reflexivity ..].
    - (* X_reg_source *)
      apply good_passive; [|reflexivity]. apply good_set_q; [exact P|]. intros ent He.
      rewrite eq_entries_add_source in He. eapply sigs_ok_nth; [apply P | exact He].
    - (* X_reg_handler *)
      apply (good_neutral F s _ (ERegHandler cls hid data) P); [reflexivity | repeat split | reflexivity | apply P].
    - (* X_set_quit *) apply good_passive; [|reflexivity]. eapply good_eq; [exact P | reflexivity ..].
    - (* X_ext_add *) eapply good_eq; [exact P | reflexivity ..].
    - (* X_ret *) exact P.
    - (* X_throw *) destruct e; [exact P | exact P | right; exact P].
    - (* X_seq_ok *) exact (IHExec2 F (IHExec1 F P)).
    - (* X_seq_abort *) exact (IHExec F P).
    - (* X_try_catch *) exact (IHExec2 F (IHExec1 F P)).
    - (* X_try_pass *) exact (IHExec F P).
    - (* X_api *) exact (IHExec F P).
    - (* X_st *) apply (IHExec F). eapply good_eq; [exact P | reflexivity ..].
    - (* X_while_done *) exact P.
    - (* X_while_iter *) exact (IHExec2 F (IHExec1 F P)).
    - (* X_while_abort *) exact (IHExec F P).
    - (* X_emit *) apply good_passive; [exact P | destruct e; reflexivity].
  Qed.

  Lemma exec_res f c s F o s' : pre c F s -> exec code f c s = (o, s') -> res F o s'.
  Proof. intros P H. exact (Exec_res _ _ _ _ (exec_Exec code _ _ _ _ _ H) F P). Qed.

  Lemma good_init (u : U) : good 0 [] (init_state u).
  Proof.
    constructor; try reflexivity.
    intros q ent [<-|[]] [].
  Qed.

  Lemma session_acc : forall acts fuel s os s',
    good 0 [] s -> run_session code fuel acts s = (os, s') -> acc s'.
  Proof.
    induction acts as [|a r IH]; intros fuel s os s' G H; cbn [run_session] in H.
    - inversion H; subst. apply G.
    - pose proof (good_top _ _ G) as G0.
      destruct (exec code fuel match a with TRun => CRun | TProg p => CProg p end (emit ETop s)) as [o s1] eqn:E.
      assert (R : res [] o s1).
      { eapply exec_res; [|exact E]. destruct a; cbn [pre]; auto. }
      destruct o as [|[]| |]; try (inversion H; subst; eapply res_acc; exact R);
        cbn [res] in R; destruct (run_session code fuel r s1) as [os2 s2] eqn:E2;
        inversion H; subst; eapply IH; eauto.
  Qed.

  Lemma delivery fuel acts (u : U) :
    ok_C02 (rev (trace (snd (run_session code fuel acts (init_state u))))) = true.
  Proof.
    destruct (run_session code fuel acts (init_state u)) as [os s'] eqn:E. cbn [snd].
    apply accepted_ok. eapply session_acc; [apply good_init | exact E].
  Qed.

  Definition ps_state (sg : signal) (idx : nat) (s : lstate U) : lstate U :=
    if (idx =? 0)%nat then s <| tickets := mark_line_to_go (tickets s) (sg_cls sg) |> else s.

  Lemma unhandled_kills f sg s :
    handlers_of s CLS_EXCEPTION = None -> sg_cls sg = CLS_EXCEPTION ->
    exec code (S f) (CProcessSignal sg 0) s =
    (OThrow XSysExit, emit EKill (s <| tickets := mark_line_to_go (tickets s) CLS_EXCEPTION |>)).
  Proof.
    intros Hh Hc. cbn [exec Nat.eqb]. rewrite Hc.
    change (handlers_of (s <| tickets := mark_line_to_go (tickets s) CLS_EXCEPTION |>) CLS_EXCEPTION)
      with (handlers_of s CLS_EXCEPTION).
    rewrite Hh. reflexivity.
  Qed.

  Lemma sysexit_through_procloop f s sg s1 s3 :
    run_loop s = true -> do_get s = inl (Some (sg, s1)) ->
    exec code f (CProcessSignal sg 0) (emit (EDispatch (sg_id sg) (active s) (length (levels s))) s1)
      = (OThrow XSysExit, s3) ->
    exec code (S f) CProcLoop s = (OThrow XSysExit, s3).
  Proof. intros Hr Hg He. cbn [exec]. rewrite Hr, Hg, He. reflexivity. Qed.

  Lemma sysexit_through_mainloop f s s1 :
    run_loop s = true -> exec code f CProcLoop s = (OThrow XSysExit, s1) ->
    exec code (S f) CMainloop s = (OThrow XSysExit, s1).
  Proof. intros Hr He. cbn [exec]. rewrite Hr, He. reflexivity. Qed.

  Definition run_entry (s : lstate U) : lstate U := emit ERunEnter (s <| force_quit := false |> <| run_loop := true |>).
  Definition run_exit (s1 : lstate U) : lstate U :=
    emit ERunReturn match quit_cb s1 with Some a => emit (EQuitCb a) s1 | None => s1 end.

  (* run() = the main loop between ERunEnter and (only on a normal end or ExitMainLoop) the quit callback *)
  Lemma run_cases f s :
    exec code (S f) CRun s =
    match exec code f CMainloop (run_entry s) with
    | (ONormal, s1) | (OThrow XExit, s1) => (ONormal, run_exit s1)
    | r => r
    end.
  Proof.
    cbn [exec]. fold (run_entry s). destruct (exec code f CMainloop (run_entry s)) as [o s1].
    destruct o as [|[]| |]; reflexivity.
  Qed.

  Lemma sysexit_through_run f s s' :
    exec code (S f) CRun s = (OThrow XSysExit, s') <-> exec code f CMainloop (run_entry s) = (OThrow XSysExit, s').
  Proof.
    rewrite run_cases. destruct (exec code f CMainloop (run_entry s)) as [o s1].
    destruct o as [|[]| |]; split; intros H; try exact H; discriminate.
  Qed.

  Lemma run_normal_only f s s' :
    exec code (S f) CRun s = (ONormal, s') ->
    exists s1, s' = run_exit s1 /\
               (exec code f CMainloop (run_entry s) = (ONormal, s1) \/
                exec code f CMainloop (run_entry s) = (OThrow XExit, s1)).
  Proof.
    rewrite run_cases. destruct (exec code f CMainloop (run_entry s)) as [o s1].
    destruct o as [|[]| |]; intros H; inversion H; subst; eauto.
  Qed.

  Lemma failure_isolated f sg idx s hs hid data s2 :
    handlers_of (ps_state sg idx s) (sg_cls sg) = Some hs -> force_quit (ps_state sg idx s) = false ->
    nth_error hs idx = Some (hid, data) ->
    exec code f (CProg (code hid sg data)) (emit (EHandler hid (sg_id sg) data) (ps_state sg idx s)) = (OThrow XError, s2) ->
    exec code (S f) (CProcessSignal sg idx) s =
    let s3 := emit (EHandlerEnd hid (sg_id sg) (Some XError)) s2 in
    let '(xs, s4) := new_signal s3 exception_spec in
    exec code f (CProcessSignal sg (S idx)) (do_enqueue s4 xs).
  Proof.
    intros Hh Hf Hn He. rewrite (exec_handler code f sg idx s (ps_state sg idx s) hs hid data eq_refl Hh Hf Hn), He. reflexivity.
  Qed.

  (* the ExceptionSignal has no source: it goes to the active queue (or is dropped after force_quit) *)
  Lemma enqueue_exception s id :
    do_enqueue s (mk_signal id exception_spec) =
    if force_quit s then emit (EDropped id) s
    else emit (EEnq id (active s)) (set_q s (active s) (q_put (get_q s (active s)) (mk_signal id exception_spec))).
  Proof. unfold do_enqueue. cbn [mk_signal sg_src sg_id exception_spec sp_src]. rewrite route_none. reflexivity. Qed.
End Exec.

Local Open Scope Z_scope.

Lemma stable_insert_first p x q :
  (forall p' s, In (p', s) q -> p < p') -> stable_insert p x q = (p, x) :: q.
Proof.
  destruct q as [|[p' s] r]; intros H; cbn [stable_insert]; [reflexivity|].
  assert (Hp : p < p') by (apply (H p' s); now left).
  apply Z.ltb_lt in Hp. rewrite Hp. reflexivity.
Qed.

Lemma stable_insert_split p x q :
  exists l1 l2, q = l1 ++ l2 /\ stable_insert p x q = l1 ++ (p, x) :: l2 /\
                (forall p' s', In (p', s') l1 -> p' <= p) /\
                match l2 with [] => True | (p', _) :: _ => p < p' end.
Proof.
  destruct (C01Proofs.stable_insert_spec p x q) as (l1 & l2 & E1 & E2 & F & H). exists l1, l2.
  repeat split; [exact E1 | exact E2 | | destruct l2 as [|[p' s'] r]; exact H].
  intros p' s' Hin. rewrite Forall_forall in F. exact (F _ Hin).
Qed.

Lemma killed_only_unwind t : forall w i,
  w_killed w = true -> run_mon chk_C02 w t i = None -> forall e, In e t -> is_unwind e = true.
Proof.
  induction t as [|a t IH]; intros w i Hk H e He; [destruct He|]. cbn [run_mon] in H.
  destruct (chk_C02 w a) eqn:Ec; [|discriminate].
  assert (Ha : is_unwind a = true) by (unfold chk_C02 in Ec; now rewrite Hk in Ec).
  destruct He as [<-|He]; [exact Ha|].
  eapply IH; [|exact H|exact He].
  destruct a as [| | | | | | | | |h sid [[]|]| | | | | | | | | | | | | | |]; try discriminate Ha. exact Hk.
Qed.

Lemma after_kill t1 t2 :
  ok_C02 (t1 ++ EKill :: t2) = true -> forall e, In e t2 -> is_unwind e = true.
Proof.
  unfold ok_C02, ok. destruct (run_mon chk_C02 world0 (t1 ++ EKill :: t2) 0) eqn:E; [discriminate|]. intros _.
  apply run_mon_app in E. cbn [run_mon] in E.
  destruct (chk_C02 (fold_left world_step t1 world0) EKill); [|discriminate].
  eapply killed_only_unwind; [|exact E]. reflexivity.
Qed.

Lemma after_kill_shape t1 t2 :
  ok_C02 (t1 ++ EKill :: t2) = true ->
  forall e, In e t2 -> exists h sid, e = EHandlerEnd h sid (Some XSysExit).
Proof.
  intros H e He. pose proof (after_kill t1 t2 H e He) as Hu.
  destruct e as [| | | | | | | | |h sid [[]|]| | | | | | | | | | | | | | |]; try discriminate Hu. eauto.
Qed.

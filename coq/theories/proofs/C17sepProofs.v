(* C17sepProofs.v — the separator clause of C17: every draw of a screen is immediately preceded by
   the separator iff the screen does not disable it.  What chk_C17sep says about one draw, and the example session of
   props/C17sep.v. *)
From SL Require Import Tac.
From SL Require Import PyInt LoopSem ScreenSem ScreenMon proofs.InputLink.
Import ListNotations.

Lemma C17sep_show_meaning nosep w id scr t :
  chk_C17sep nosep w (EUser T_SHOW [id; scr] t) = true ->
  (nth scr nosep false = false <-> exists pa, sw_prev_user w = Some (T_SEPARATOR, pa) /\ nth0 pa 0 = scr).
Proof.
  unfold chk_C17sep. cbn [Nat.eqb T_SHOW nth0 nth]. intros H. apply eqb_prop in H.
  destruct (nth scr nosep false); cbn [negb] in H; split.
  - discriminate.
  - intros (pa & E & X). rewrite E in H. apply andb_false_iff in H. destruct H as [H|H].
    + discriminate H.
    + apply Nat.eqb_neq in H. contradiction.
  - intros _. destruct (sw_prev_user w) as [[tg pa]|]; [|discriminate H]. apply andb_true_iff in H. destruct H as [H1 H2].
    apply Nat.eqb_eq in H1, H2. subst tg. eauto.
  - reflexivity.
Qed.

(* an example session: screen 0 draws with the separator, screen 1 disables it *)
Definition ex17_spec (inp : list (str * (list scmd * ret_val))) (nosep : bool) : screen_spec :=
  {| sc_setup := []; sc_refresh := []; sc_show := []; sc_closed := []; sc_input := inp;
     sc_input_default := ([], None); sc_prompt_none := false; sc_input_required := true;
     sc_no_separator := nosep; sc_skip_check := false; sc_pages := 0; sc_answer0 := AnsNoAttr; sc_custom := []; sc_setup_cmds := [] |}.
Definition ex17_specl : list screen_spec :=
  [ex17_spec [([49%N], ([SPush 1 0], RProcessed))] false; ex17_spec [] true].
Definition ex17_typed : list (option str) := [Some [49%N]; Some [114%N]; Some [99%N]; Some [114%N]].
Definition ex17_acts : list saction := [SACmds [SSchedule 0 0]; SARun].
Definition ex17_trace : list event :=
  rev (trace (snd (app_run_all (fun n => nth n ex17_specl default_spec) ex17_specl ex17_typed None false 400 ex17_acts))).
Definition count_tag (tag : nat) (t : list event) : nat :=
  length (filter (fun e => match e with EUser tg _ _ => (tg =? tag)%nat | _ => false end) t).

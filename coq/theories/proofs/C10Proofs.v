(* C10Proofs.v — "waiting for a signal wakes up for that signal, and only for it".
   The monitor chk_C10 accepts every trace of every session of the model (LoopSem.exec), for every handler code
   ([C10_waiting_proof]): a Hoare-style specification [Before]/[After] of every call, proved by induction on the
   derivations of proofs/C09Exec.v ([Exec_inv]).  What ties a state to the world of its trace is the link of
   proofs/LoopLink.v, kept by every atomic step of the loop; the invariant adds what is C10's own, which reads the
   trace and the ticket machine only ([Held]: the observer's waiters against the tickets).  Then direct statements about
   the non-waiting form. *)
From SL Require Import Tac.
From SL Require Import LoopSem Monitors proofs.ListFacts proofs.LoopFacts proofs.TicketProofs proofs.MonitorFacts proofs.LoopLink proofs.C09Exec proofs.ExecEqs.
From RecordUpdate Require Import RecordUpdate.
Import ListNotations.

Definition world_of (t : list event) : world := fold_left world_step t world0.

(* the observer's waiters against the ticket machine: every waiter holds a ticket in the line of its class whose flag
   says whether it was released.  One lemma per operation of the machine, beside the equations of proofs/TicketProofs.v *)
Definition Held (tm : tmachine) (ws : list waiter) : Prop :=
  (forall x, In x ws -> tflag tm (wt_cls x) (wt_ticket x) = Some (wt_released x)) /\ NoDup (map wt_ticket ws).

Lemma Held_nil tm : Held tm [].
Proof. split; [intros x []|constructor]. Qed.

Lemma Held_tl tm x ws : Held tm (x :: ws) -> Held tm ws.
Proof. intros [Hf Hn]. split; [intros y Hy; apply Hf; right; exact Hy|]. inversion Hn; assumption. Qed.

Lemma Held_lt tm ws x : tm_wf tm -> Held tm ws -> In x ws -> wt_ticket x < tm_counter tm.
Proof. intros Hwf [Hf _] Hx. exact (Hwf _ _ _ (Hf x Hx)). Qed.

Lemma Held_take tm c d ws :
  tm_wf tm -> Held tm ws ->
  Held (snd (take_ticket tm c))
       ({| wt_cls := c; wt_ticket := tm_counter tm; wt_released := false; wt_depth := d |} :: ws).
Proof.
  intros Hwf H. split.
  - intros x Hx. rewrite tflag_take by exact Hwf.
    destruct Hx as [<-|Hx]; [cbn [wt_cls wt_ticket wt_released]; rewrite !Nat.eqb_refl; reflexivity|].
    pose proof (Held_lt _ _ _ Hwf H Hx) as Hlt.
    destruct (wt_ticket x =? tm_counter tm)%nat eqn:E; [apply Nat.eqb_eq in E; lia|].
    rewrite andb_false_r. apply H, Hx.
  - cbn [map wt_ticket]. constructor; [|apply H]. intros (y & Hy & Hyin)%in_map_iff.
    pose proof (Held_lt _ _ _ Hwf H Hyin). lia.
Qed.

(* a dispatch of class [c] marks the line as the observer releases the waiters of that class *)
Lemma Held_mark tm c ws : Held tm ws -> Held (mark_line_to_go tm c) (map (release_cls c) ws).
Proof.
  intros [Hf Hn]. split.
  - intros x (y & <- & Hy)%in_map_iff. rewrite tflag_mark. pose proof (Hf y Hy) as Hty. unfold release_cls.
    destruct (wt_cls y =? c)%nat eqn:E.
    + cbn [wt_cls wt_ticket wt_released set eta_waiter]. cbn. rewrite E, Hty. reflexivity.
    + rewrite E. exact Hty.
  - rewrite map_map, (map_ext _ wt_ticket); [exact Hn|]. intros y. unfold release_cls.
    destruct (wt_cls y =? c)%nat; reflexivity.
Qed.

(* a successful check removes the ticket of the waiter that returns; no other waiter has it *)
Lemma Held_pop tm x ws : Held tm (x :: ws) -> Held (tpop tm (wt_cls x) (wt_ticket x)) ws.
Proof.
  intros H. split; [|apply (Held_tl _ _ _ H)]. intros y Hy. rewrite tflag_pop.
  destruct H as [Hf Hn]. inversion Hn as [|? ? Hni _]; subst.
  destruct (wt_ticket y =? wt_ticket x)%nat eqn:E.
  - apply Nat.eqb_eq in E. destruct Hni. rewrite <- E. apply in_map, Hy.
  - rewrite andb_false_r. apply Hf. right. exact Hy.
Qed.

Section C10.
Context {U : Type}.
Variable code : nat -> signal -> nat -> prog U.
Implicit Types s : lstate U.

Definition wl s := w_waiters (W s).
Definition il s := w_iters (W s).
Definition fl s := map f_sid (w_frames (W s)).
Definition nf s := length (fl s).
Definition wkey (x : waiter) : nat * nat * nat := (wt_cls x, wt_ticket x, wt_depth x).
Definition keys s := map wkey (wl s).
(* the three stacks as the specification sees them: (class, ticket, depth) of the waiters, the iterations, the signals
   being dispatched *)
Definition stacks : Type := list (nat * nat * nat) * list (nat * option Z) * list nat.
Definition view s : stacks := (keys s, il s, fl s).

(* holds at every point of every execution *)
Record Persist s : Prop := {
  p_link : link s;
  p_acc : acc chk_C10 s;
  p_wf : tm_wf (tickets s) }.

(* holds wherever control is not unwinding *)
Record Core s : Prop := {
  c_p : Persist s;
  c_held : Held (tickets s) (wl s) }.

Definition StrictK (n : nat) (ks : list (nat * nat * nat)) : Prop := Forall (fun k => snd k < n) ks.
Definition StrictI (n : nat) (is : list (nat * option Z)) : Prop := Forall (fun i => fst i < n) is.

Definition CoreAt s' (v : stacks) : Prop :=
  Core s' /\ view s' = v.

Lemma CoreAt_refl s : Core s -> CoreAt s (view s).
Proof. intros C. split; [exact C|reflexivity]. Qed.

Lemma view_trace s s' : trace s' = trace s -> view s' = view s.
Proof. intros Ht. unfold view, keys, wl, il, fl. rewrite (W_trace _ _ Ht). reflexivity. Qed.

Lemma view_step e s s' : trace s' = e :: trace s ->
  view s' = (map wkey (w_waiters (world_step (W s) e)), w_iters (world_step (W s) e),
             map f_sid (w_frames (world_step (W s) e))).
Proof. intros Ht. unfold view, keys, wl, il, fl. rewrite (W_cons _ _ _ Ht). reflexivity. Qed.

Lemma view_emit e s :
  view (emit e s) = (map wkey (w_waiters (world_step (W s) e)), w_iters (world_step (W s) e),
                     map f_sid (w_frames (world_step (W s) e))).
Proof. exact (view_step e s (emit e s) eq_refl). Qed.

Lemma wl_step e s s' : trace s' = e :: trace s -> wl s' = w_waiters (world_step (W s) e).
Proof. intros Ht. unfold wl. rewrite (W_cons _ _ _ Ht). reflexivity. Qed.

Lemma nf_frames s : length (w_frames (W s)) = nf s.
Proof. unfold nf, fl. rewrite map_length. reflexivity. Qed.

Lemma view_eq s ks is fs : view s = (ks, is, fs) -> keys s = ks /\ il s = is /\ fl s = fs /\ nf s = length fs.
Proof. unfold view, nf. intros E. injection E as -> -> ->. auto. Qed.

(* Beside the link, the invariant reads the trace and the tickets only: it passes from [s] to any linked [s'] that has
   the same trace or one accepted event more, and whose tickets are accounted for. *)
Lemma Persist_same s s' : Persist s -> link s' -> trace s' = trace s -> tm_wf (tickets s') -> Persist s'.
Proof. intros P L Ht Hwf. constructor; [exact L|exact (acc_trace _ _ _ Ht (p_acc s P))|exact Hwf]. Qed.

Lemma Persist_event e s s' :
  Persist s -> link s' -> trace s' = e :: trace s -> tm_wf (tickets s') -> chk_C10 (W s) e = true -> Persist s'.
Proof.
  intros P L Ht Hwf Hc. constructor; [exact L| |exact Hwf].
  apply (acc_cons chk_C10 s s' e Ht). split; [apply P|exact Hc].
Qed.

Lemma Core_event e s s' :
  Core s -> link s' -> trace s' = e :: trace s -> tickets s' = tickets s -> chk_C10 (W s) e = true ->
  w_waiters (world_step (W s) e) = w_waiters (W s) -> Core s'.
Proof.
  intros C L Ht Hk Hc Hw. constructor.
  - apply (Persist_event e s s' (c_p s C) L Ht); [rewrite Hk; apply C|exact Hc].
  - rewrite (wl_step e s s' Ht), Hw, Hk. apply C.
Qed.

Lemma CoreAt_same s s' : Core s -> link s' -> trace s' = trace s -> tickets s' = tickets s -> CoreAt s' (view s).
Proof.
  intros C L Ht Hk. split; [|exact (view_trace _ _ Ht)]. constructor.
  - apply (Persist_same s s' (c_p s C) L Ht). rewrite Hk. apply C.
  - unfold wl. rewrite (W_trace _ _ Ht), Hk. apply C.
Qed.

Lemma Persist_tickets s tm : Persist s -> tm_wf tm -> Persist (s <| tickets := tm |>).
Proof.
  intros P H. apply (Persist_same s); [exact P| |reflexivity|exact H].
  apply link_set_tickets, P.
Qed.

Lemma Persist_plain e s : plain e = true -> chk_C10 (W s) e = true -> Persist s -> Persist (emit e s).
Proof.
  intros Pl Hc P. apply (Persist_event e s); [exact P| |reflexivity|apply P|exact Hc].
  exact (link_plain e s Pl (p_link s P)).
Qed.

Lemma Core_plain e s :
  plain e = true -> chk_C10 (W s) e = true -> w_waiters (world_step (W s) e) = w_waiters (W s) ->
  Core s -> Core (emit e s).
Proof.
  intros Pl Hc Hw C. apply (Core_event e s); [exact C| |reflexivity|reflexivity|exact Hc|exact Hw].
  exact (link_plain e s Pl (p_link s (c_p s C))).
Qed.

(* events that move none of the monitor's three stacks and that it accepts in any world *)
Definition calm (e : event) : bool :=
  match e with
  | ESigNew _ _ _ _ | ERegHandler _ _ _ | ERegSource _ _ | ESetQuitCb _ | EEnq _ _ | EDropped _ | ERequeue _ _
  | ENewLoopEnter _ | ENewLoopReturn _ | EClosePop _ | EForceQuit | EQuitCb _ | ERunReturn | EKill | EExt _
  | EMark _ | EUser _ _ _ => true
  | _ => false
  end.

Lemma calm_step e w : calm e = true ->
  w_frames (world_step w e) = w_frames w /\ w_waiters (world_step w e) = w_waiters w /\
  w_iters (world_step w e) = w_iters w /\ chk_C10 w e = true.
Proof. intros N. rewrite ws_frames, ws_waiters, ws_iters. destruct e; try discriminate N; repeat split. Qed.

Lemma user_event_calm e : calm (user_event e) = true /\ plain (user_event e) = true.
Proof. destruct e; split; reflexivity. Qed.

Lemma CoreAt_calm e s s' :
  calm e = true -> Core s -> link s' -> trace s' = e :: trace s -> tickets s' = tickets s -> CoreAt s' (view s).
Proof.
  intros N C L Ht Hk. destruct (calm_step e (W s) N) as (Vf & Vw & Vi & Hc). split.
  - exact (Core_event e s s' C L Ht Hk Hc Vw).
  - rewrite (view_step e s s' Ht), Vw, Vi, Vf. reflexivity.
Qed.

Lemma CoreAt_astep e s s' :
  Core s -> astep s s' -> trace s' = e :: trace s -> calm e = true -> tickets s' = tickets s -> CoreAt s' (view s).
Proof. intros C A Ht N Hk. exact (CoreAt_calm e s s' N C (astep_link _ _ (p_link s (c_p s C)) A) Ht Hk). Qed.

Lemma q_pop_nonempty q : q_empty q = false -> q_pop q <> None.
Proof. unfold q_empty, q_pop. destruct (eq_entries q); [discriminate|discriminate]. Qed.
Lemma q_pop_not_empty q e q' : q_pop q = Some (e, q') -> q_empty q = false.
Proof. unfold q_pop, q_empty. destruct (eq_entries q); [discriminate|reflexivity]. Qed.

Lemma CoreAt_new_signal s sp sg s1 : Core s -> new_signal s sp = (sg, s1) -> CoreAt s1 (view s).
Proof.
  intros C N. pose proof (A_newsig s sp) as A. rewrite N in A. injection N as _ <-.
  exact (CoreAt_astep _ s _ C A eq_refl eq_refl eq_refl).
Qed.

Lemma do_enqueue_tickets s sg : tickets (do_enqueue s sg) = tickets s.
Proof. unfold do_enqueue. destruct (force_quit s); reflexivity. Qed.

Lemma CoreAt_enqueue s sg : Core s -> astep s (do_enqueue s sg) -> CoreAt (do_enqueue s sg) (view s).
Proof.
  intros C A. pose proof (do_enqueue_tickets s sg) as Hk. revert A Hk.
  unfold do_enqueue. destruct (force_quit s); intros A Hk; exact (CoreAt_astep _ s _ C A eq_refl eq_refl Hk).
Qed.

(* enqueue_signal(), and the ExceptionSignal of a failed handler *)
Lemma enqueue_new s sp sg s1 : Core s -> new_signal s sp = (sg, s1) -> CoreAt (do_enqueue s1 sg) (view s).
Proof.
  intros C N. destruct (link_new_signal s sp (p_link s (c_p s C))) as (_ & R & F). rewrite N in R, F.
  destruct (CoreAt_new_signal s sp sg s1 C N) as [C1 <-]. exact (CoreAt_enqueue s1 sg C1 (A_enq _ _ R F)).
Qed.

(* the iteration stack after a dispatch of priority p: an iteration at this depth learns its batch priority *)
Definition il_disp s (p : Z) : list (nat * option Z) :=
  match il s with
  | (dp, None) :: r => if (dp =? nf s)%nat then (dp, Some p) :: r else il s
  | _ => il s
  end.

(* an iteration open at this depth that has a batch priority has [p] *)
Definition batch_ok s (p : Z) : Prop :=
  match il s with (dp, Some p0) :: _ => dp = nf s -> p = p0 | _ => True end.

Lemma handler_start s hid sid data : Core s -> CoreAt (emit (EHandler hid sid data) s) (view s).
Proof.
  intros C. split; [apply Core_plain; auto|].
  rewrite view_emit, ws_waiters, ws_iters, ws_frames. cbn [frames_step].
  unfold view, keys, wl, il, fl. destruct (w_frames (W s)); reflexivity.
Qed.

Lemma handler_end s hid sid how r :
  how = None \/ how = Some XError -> Core s -> fl s = sid :: r ->
  CoreAt (emit (EHandlerEnd hid sid how) s) (view s).
Proof.
  intros Hh C Hfl. split; [destruct Hh; subst how; apply Core_plain; auto|].
  rewrite view_emit, ws_waiters, ws_iters, ws_frames.
  unfold view, keys, wl, il, fl in *. destruct (w_frames (W s)) as [|f fr]; [discriminate Hfl|].
  cbn [map] in Hfl. injection Hfl as H1 _.
  destruct Hh; subst how; cbn [frames_step unwind_to]; rewrite H1, Nat.eqb_refl; reflexivity.
Qed.

Lemma handler_end_exn s hid sid x : Persist s -> Persist (emit (EHandlerEnd hid sid (Some x)) s).
Proof. apply Persist_plain; reflexivity. Qed.

Lemma dispatch_end s sid : Core s -> CoreAt (emit (EDispatchEnd sid) s) (keys s, il s, tl (fl s)).
Proof.
  intros C. split; [apply Core_plain; auto|].
  rewrite view_emit, ws_waiters, ws_iters, ws_frames. cbn [frames_step].
  unfold keys, wl, il, fl. destruct (w_frames (W s)); reflexivity.
Qed.

Lemma wait_return s cls t x rest :
  Persist s -> wl s = x :: rest -> wt_cls x = cls -> wt_ticket x = t ->
  (wt_released x = true \/ w_runloop (W s) = false) ->
  NoDup (map wt_ticket (x :: rest)) -> Held (tickets s) rest ->
  CoreAt (emit (EProcReturn (Some cls) t) s) (map wkey rest, il s, fl s).
Proof.
  intros P Hwl Hc Ht Hrel Hnd Hrest. set (e := EProcReturn (Some cls) t).
  assert (Hf : w_waiters (world_step (W s) e) = rest).
  { unfold e. rewrite ws_waiters. fold (wl s). rewrite Hwl. cbn [filter]. rewrite Ht, Nat.eqb_refl. cbn [negb].
    apply filter_all. intros y Hy. inversion Hnd as [|? ? Hni _]; subst.
    destruct (wt_ticket y =? wt_ticket x)%nat eqn:E; [|reflexivity]. apply Nat.eqb_eq in E.
    exfalso. apply Hni. rewrite <- E. apply in_map. exact Hy. }
  split; [|rewrite view_emit, Hf; unfold e; rewrite ws_iters, ws_frames; reflexivity].
  constructor.
  - apply Persist_plain; [reflexivity| |exact P].
    unfold e. cbn [chk_C10]. fold (wl s). rewrite Hwl. cbn [find]. rewrite Ht, Nat.eqb_refl, Hc, Nat.eqb_refl.
    destruct Hrel as [H|H]; rewrite H; [reflexivity|apply orb_true_r].
  - rewrite (wl_step e s (emit e s) eq_refl), Hf. exact Hrest.
Qed.

Lemma force_quit_step s :
  Core s ->
  CoreAt (emit EForceQuit (s <| force_quit := true |> <| levels := [] |> <| run_loop := false |>)) (view s).
Proof. intros C. exact (CoreAt_astep _ s _ C (A_forcequit s) eq_refl eq_refl eq_refl). Qed.

(* close_loop pops the top level; if one remains below, it becomes the active one and the loops are told to stop *)
Lemma close_pop_step s top rest_rev :
  Core s -> rev (levels s) = top :: rest_rev ->
  CoreAt (match rest_rev with
       | [] => emit (EClosePop top) (s <| levels := rev rest_rev |>)
       | q :: _ => emit (EClosePop top) (s <| levels := rev rest_rev |>) <| active := q |> <| run_loop := false |>
       end) (view s).
Proof.
  intros C R. pose proof (A_closepop s top rest_rev R) as A. revert A.
  destruct rest_rev; intros A; exact (CoreAt_astep _ s _ C A eq_refl eq_refl eq_refl).
Qed.

(* ETop and ERunEnter reset the observer's stacks *)
Lemma fresh_start e s s' :
  e = ETop \/ e = ERunEnter -> Persist s -> link s' -> trace s' = e :: trace s -> tickets s' = tickets s ->
  CoreAt s' ([], [], []).
Proof.
  intros He P L Ht Hk.
  assert (Hw : w_waiters (world_step (W s) e) = []) by (rewrite ws_waiters; destruct He; subst e; reflexivity).
  split; [|rewrite (view_step e s s' Ht), Hw, ws_iters, ws_frames; destruct He; subst e; reflexivity].
  constructor.
  - apply (Persist_event e s s' P L Ht); [rewrite Hk; apply P|destruct He; subst e; reflexivity].
  - rewrite (wl_step e s s' Ht), Hw. apply Held_nil.
Qed.

Definition Strict s : Prop := StrictK (nf s) (keys s) /\ StrictI (nf s) (il s).

(* what the calls that neither wait nor iterate need: no waiter and no iteration at the current depth *)
Definition Gen s : Prop := Core s /\ Strict s.

Definition Before (c : call U) s : Prop :=
  match c with
  | CRun => Persist s
  | CProcWait cls t =>
    Core s /\ tflag (tickets s) cls t = Some false /\
    (exists kr, keys s = (cls, t, nf s) :: kr /\ StrictK (nf s) kr) /\ StrictI (nf s) (il s)
  | CProcIter po =>
    Core s /\ StrictK (nf s) (keys s) /\ exists ir, il s = (nf s, po) :: ir /\ StrictI (nf s) ir
  | CProcessSignal sg idx => Persist s /\ Core (ps_mark sg idx s) /\ Strict s /\ exists r, fl s = sg_id sg :: r
  | _ => Gen s
  end.

(* the postcondition speaks of the state before the call only through its view *)
Definition AfterV (c : call U) (v : stacks) (o : outcome) s' : Prop :=
  let '(ks, is, fs) := v in
  Persist s' /\
  match o with
  | ONormal =>
    match c with
    | CRun => True
    | CProcWait cls t => CoreAt (emit (EProcReturn (Some cls) t) s') (tl ks, is, fs)
    | CProcIter _ => exists po, CoreAt s' (ks, (length fs, po) :: tl is, fs)
    | CProcessSignal _ _ => CoreAt s' (ks, is, tl fs)
    | _ => CoreAt s' v
    end
  | OThrow XError =>
    match c with
    | CRun => True
    | CApi _ | CProg _ => CoreAt s' v
    | _ => False
    end
  | _ => True
  end.
Definition After (c : call U) s := AfterV c (view s).

Lemma After_at c s v o s' : view s = v -> After c s o s' -> AfterV c v o s'.
Proof. intros <- H. exact H. Qed.

Lemma After_transfer c s s1 o s' : view s1 = view s -> After c s1 o s' -> After c s o s'.
Proof. intros V. exact (After_at c s1 (view s) o s' V). Qed.

(* an iteration's postcondition forgets the batch priority it started with *)
Lemma After_iter_transfer po po1 x s s1 o s' :
  view s1 = (keys s, x :: tl (il s), fl s) -> After (CProcIter po1) s1 o s' -> After (CProcIter po) s o s'.
Proof. intros V. exact (After_at _ s1 _ o s' V). Qed.

Lemma After_Persist c s o s' : After c s o s' -> Persist s'.
Proof. intros H. apply H. Qed.

Lemma After_weak c s o s' : Persist s' -> o <> ONormal -> o <> OThrow XError -> After c s o s'.
Proof.
  intros P H1 H2. split; [exact P|]. destruct o as [|[| |]| |]; try exact I; congruence.
Qed.

(* the calls for which `After` rules an ordinary exception out *)
Definition catches (c : call U) : bool := match c with CRun | CApi _ | CProg _ => false | _ => true end.

Lemma After_abort c0 s0 c s o s' : After c0 s0 o s' -> o <> ONormal -> catches c0 = true -> After c s o s'.
Proof.
  intros Q Ho Hc. apply After_weak; [exact (After_Persist _ _ _ _ Q)|exact Ho|]. intros ->.
  destruct c0; try discriminate Hc; destruct Q as [_ []].
Qed.

Lemma After_code c s o s' :
  catches c = false -> c <> CRun -> o = ONormal \/ o = OThrow XError -> CoreAt s' (view s) -> After c s o s'.
Proof.
  intros Hc Hr Ho R. destruct c; try discriminate Hc; try congruence; destruct Ho as [-> | ->];
    (split; [apply R|exact R]).
Qed.

Lemma StrictK_depth n ws : StrictK n (map wkey ws) -> forall x, In x ws -> wt_depth x < n.
Proof.
  intros H x Hx. unfold StrictK in H. rewrite Forall_forall in H.
  exact (H (wkey x) (in_map wkey _ _ Hx)).
Qed.

Lemma StrictI_mono n m is : StrictI n is -> n <= m -> StrictI m is.
Proof. intros H L. unfold StrictI in *. eapply Forall_impl; [|exact H]. cbn. intros a Ha. lia. Qed.

Lemma Strict_view s s1 : view s1 = view s -> Strict s -> Strict s1.
Proof.
  intros V ST. destruct (view_eq _ _ _ _ V) as (K & I & _ & N). unfold Strict. rewrite K, I, N. exact ST.
Qed.

Lemma CoreAt_Gen s s1 : Strict s -> CoreAt s1 (view s) -> Gen s1.
Proof. intros ST (C1 & V1). split; [exact C1|exact (Strict_view _ _ V1 ST)]. Qed.

(* sequencing: a step that leaves the view as it was keeps [Gen], and what follows is specified from there *)
Lemma Gen_seq c s s1 o s' : Gen s -> CoreAt s1 (view s) -> (Gen s1 -> After c s1 o s') -> After c s o s'.
Proof. intros G R K. exact (After_transfer _ _ _ _ _ (proj2 R) (K (CoreAt_Gen _ _ (proj2 G) R))). Qed.

Lemma Gen_fresh s : CoreAt s ([], [], []) -> Gen s.
Proof.
  intros (C & V). split; [exact C|]. destruct (view_eq _ _ _ _ V) as (K & I & _ & _). unfold Strict. rewrite K, I.
  split; constructor.
Qed.

Lemma il_strict_same s (p : Z) : StrictI (nf s) (il s) -> il_disp s p = il s.
Proof.
  intros H. unfold il_disp. destruct (il s) as [|[dp [p0|]] r]; auto.
  inversion H; subst. cbn [fst] in *. destruct (dp =? nf s)%nat eqn:E; [apply Nat.eqb_eq in E; lia|reflexivity].
Qed.

Lemma il_strict_noclash s (p : Z) : StrictI (nf s) (il s) -> batch_ok s p.
Proof.
  intros H. unfold batch_ok. destruct (il s) as [|[dp [p0|]] r]; auto.
  inversion H; subst. cbn [fst] in *. intros E. lia.
Qed.

Lemma head_waiter s cls t d kr :
  Core s -> keys s = (cls, t, d) :: kr ->
  exists x rest, wl s = x :: rest /\ wkey x = (cls, t, d) /\ map wkey rest = kr /\
                 tflag (tickets s) cls t = Some (wt_released x) /\ Held (tickets s) (x :: rest).
Proof.
  intros C. pose proof (c_held s C) as H. unfold keys. destruct (wl s) as [|x rest]; cbn [map]; [discriminate|].
  intros E. injection E as <- <- <- <-. exists x, rest. repeat split; try apply H. left. reflexivity.
Qed.

Lemma view_ps_mark sg idx s : view (ps_mark sg idx s) = view s.
Proof. apply view_trace. unfold ps_mark. destruct (idx =? 0)%nat; reflexivity. Qed.

Lemma Before_Persist c s : Before c s -> Persist s.
Proof.
  destruct c; cbn [Before]; intros H; apply H.
Qed.

(* queue.get() when another thread's signal arrives *)
Lemma ext_arrival_step s s1 : do_get s = inr s1 -> Core s -> CoreAt s1 (view s) /\ tickets s1 = tickets s.
Proof.
  intros G C. apply do_get_inr in G as (_ & sp & r & _ & ->). unfold ext_arrival.
  destruct (CoreAt_same s (s <| ext := r |>) C) as [C0 <-]; [|reflexivity|reflexivity|].
  { apply link_set_ext, C. }
  destruct (new_signal (s <| ext := r |>) sp) as [sg sN] eqn:N.
  destruct (link_new_signal _ sp (p_link _ (c_p _ C0))) as (_ & R & F). rewrite N in R, F. cbn [fst snd] in R, F.
  assert (TN : tickets sN = tickets s) by (injection N as _ <-; reflexivity).
  destruct (CoreAt_new_signal _ sp sg sN C0 N) as [C1 <-].
  destruct (CoreAt_astep _ sN _ C1 (A_emit sN (EExt (sg_id sg)) eq_refl) eq_refl eq_refl eq_refl) as [C2 <-].
  split; [|rewrite do_enqueue_tickets; exact TN].
  apply (CoreAt_enqueue _ sg C2), A_enq; [unfold sig_rec; rewrite W_emit, ws_sig; exact R|exact F].
Qed.

(* pop; EDispatch: the precondition of _process_signal, and what the caller resumes with when it returns *)
Lemma dispatch_pre s p cnt sg q' :
  Core s -> q_pop (get_q s (active s)) = Some ((p, cnt, sg), q') ->
  (forall x, In x (wl s) -> wt_depth x < nf s \/ (wt_depth x = nf s /\ wt_released x = false)) ->
  StrictI (S (nf s)) (il s) -> batch_ok s p ->
  let s2 := disp sg s (set_q s (active s) q') in
  Before (CProcessSignal sg 0) s2 /\
  forall s3, After (CProcessSignal sg 0) s2 ONormal s3 -> CoreAt s3 (keys s, il_disp s p, fl s).
Proof.
  intros C Hpop Hb SI Hc s2. pose proof (p_link s (c_p s C)) as L.
  (* the link: the world has recorded the class and the priority of the entry that is popped *)
  destruct (link_pop_sig_rec _ _ _ _ _ _ L Hpop) as (Hok & Hp & _).
  pose proof (sig_rec_cls _ _ Hok) as Hcls.
  assert (Hprio : sig_prio (W s) (sg_id sg) = p) by (rewrite Hp; exact (sig_rec_prio _ _ Hok)).
  assert (P2 : Persist s2).
  { apply (Persist_event _ s s2 (c_p s C) (astep_link _ _ L (A_dispatch _ _ _ _ _ Hpop)) eq_refl); [apply C|].
    cbn [chk_C10]. apply andb_true_iff. split.
    - apply forallb_forall. intros x Hx. rewrite nf_frames. destruct (Hb x Hx) as [H|[H1 H2]].
      + destruct (wt_depth x =? nf s)%nat eqn:E; [apply Nat.eqb_eq in E; lia|].
        rewrite andb_false_r. reflexivity.
      + rewrite H2. reflexivity.
    - fold (il s). rewrite nf_frames, Hprio. unfold batch_ok in Hc. destruct (il s) as [|[dp [p0|]] r]; auto.
      destruct (dp =? nf s)%nat eqn:E; [|reflexivity]. apply Nat.eqb_eq in E. rewrite (Hc E).
      cbn [negb orb]. apply Z.eqb_refl. }
  assert (V2 : view s2 = (keys s, il_disp s p, sg_id sg :: fl s)).
  { rewrite (view_step _ s s2 eq_refl), ws_waiters, ws_iters, ws_frames, Hcls, Hprio, nf_frames. cbn [frames_step map f_sid].
    unfold keys. rewrite map_map. f_equal. f_equal. apply map_ext. intros y. unfold release_cls.
    destruct (wt_cls y =? sg_cls sg)%nat; reflexivity. }
  assert (Hwl : wl s2 = map (release_cls (sg_cls sg)) (wl s)).
  { rewrite (wl_step _ s s2 eq_refl), ws_waiters, Hcls. reflexivity. }
  split; [|intros s3 Q; apply (After_at _ _ _ _ _ V2 Q)].
  destruct (view_eq _ _ _ _ V2) as (K2 & I2 & F2 & N2). cbn [length] in N2. fold (nf s) in N2.
  split; [exact P2|]. split; [|unfold Strict; rewrite K2, I2, N2; split; [split|exists (fl s); exact F2]].
  - (* the tickets of the signal's class are marked as the waiters of that class were released *)
    constructor.
    + apply Persist_tickets; [exact P2|apply wf_mark; apply C].
    + change (Held (mark_line_to_go (tickets s) (sg_cls sg)) (wl s2)). rewrite Hwl. apply Held_mark, C.
  - apply Forall_forall. intros k Hk. apply in_map_iff in Hk as (x & <- & Hx).
    destruct (Hb x Hx) as [H|[H _]]; cbn; lia.
  - unfold il_disp. destruct (il s) as [|[dp [p0|]] r]; auto.
    destruct (dp =? nf s)%nat; auto. inversion SI; subst. constructor; auto.
Qed.

(* ... from a state where no iteration is open at this depth: the iteration stack stays as it is *)
Lemma strict_dispatch s sg s1 :
  Core s -> (forall x, In x (wl s) -> wt_depth x < nf s \/ (wt_depth x = nf s /\ wt_released x = false)) ->
  StrictI (nf s) (il s) -> do_get s = inl (Some (sg, s1)) ->
  Before (CProcessSignal sg 0) (disp sg s s1) /\
  forall s3, After (CProcessSignal sg 0) (disp sg s s1) ONormal s3 -> CoreAt s3 (view s).
Proof.
  intros C Hb SI G. apply do_get_some in G as (p & cnt & q' & Hpop & ->).
  destruct (dispatch_pre s p cnt sg q' C Hpop Hb) as [P2 K2].
  - exact (StrictI_mono _ _ _ SI (Nat.le_succ_diag_r _)).
  - apply il_strict_noclash; exact SI.
  - rewrite (il_strict_same s p SI) in K2. exact (conj P2 K2).
Qed.

Lemma gen_dispatch s sg s1 :
  Gen s -> do_get s = inl (Some (sg, s1)) ->
  Before (CProcessSignal sg 0) (disp sg s s1) /\
  forall s3, After (CProcessSignal sg 0) (disp sg s s1) ONormal s3 -> CoreAt s3 (view s).
Proof.
  intros (C & SK & SI). apply (strict_dispatch s sg s1 C); [|exact SI].
  intros x Hx. left. exact (StrictK_depth _ _ SK x Hx).
Qed.

(* the waiter of a pending process_signals(return_after=cls) is the innermost one, not yet released *)
Lemma wait_dispatch cls t s sg s1 :
  Before (CProcWait cls t) s -> do_get s = inl (Some (sg, s1)) ->
  Before (CProcessSignal sg 0) (disp sg s s1) /\
  forall s3, After (CProcessSignal sg 0) (disp sg s s1) ONormal s3 -> CoreAt s3 (view s).
Proof.
  intros (C & Hfl0 & (kr & Hk & SKr) & SI).
  destruct (head_waiter s _ _ _ _ C Hk) as (x & rest & Hwl & Hx & <- & Hc & _).
  apply (strict_dispatch s sg s1 C); [|exact SI]. intros y Hy. rewrite Hwl in Hy. destruct Hy as [<-|Hy].
  - right. unfold wkey in Hx. injection Hx as _ _ Hd. split; [exact Hd|congruence].
  - left. exact (StrictK_depth _ _ SKr y Hy).
Qed.

Lemma wait_stopped cls t s :
  Before (CProcWait cls t) s -> run_loop s = false -> After (CProcWait cls t) s ONormal s.
Proof.
  intros (C & _ & (kr & Hk & _) & _) RL.
  destruct (head_waiter s _ _ _ _ C Hk) as (x & rest & Hwl & Hx & <- & _ & Hh).
  unfold wkey in Hx. injection Hx as Hc Ht _. split; [apply C|]. rewrite Hk. cbn [tl].
  apply (wait_return s cls t x rest); auto.
  - apply C.
  - right. exact (link_runloop s (p_link s (c_p s C)) RL).
  - apply Hh.
  - exact (Held_tl _ _ _ Hh).
Qed.

Lemma wait_keep cls t s s1 :
  Before (CProcWait cls t) s -> CoreAt s1 (view s) -> tflag (tickets s1) cls t = Some false ->
  Before (CProcWait cls t) s1.
Proof.
  intros (_ & _ & SK & SI) (C1 & V1) F1. destruct (view_eq _ _ _ _ V1) as (K1 & I1 & _ & N1). fold (nf s) in N1.
  split; [exact C1|]. rewrite K1, I1, N1. auto.
Qed.

(* after a dispatch: the ticket check either ends the wait, or it goes on *)
Lemma wait_checked cls t s s3 :
  Before (CProcWait cls t) s -> CoreAt s3 (view s) ->
  match check_ticket (tickets s3) cls t with
  | Some (true, t') => After (CProcWait cls t) s ONormal (s3 <| tickets := t' |>)
  | Some (false, _) => Before (CProcWait cls t) s3
  | None => False
  end.
Proof.
  intros P Q3. pose proof P as (_ & _ & (kr & Hk & _) & _). pose proof Q3 as (C3 & V3).
  destruct (view_eq _ _ _ _ V3) as (K3 & I3 & F3 & _).
  rewrite Hk in K3. destruct (head_waiter s3 _ _ _ _ C3 K3) as (x3 & rest3 & Hwl3 & Hx3 & Hrest3 & Hc3 & Hh3).
  unfold wkey in Hx3. injection Hx3 as Hx3c Hx3t _.
  rewrite check_ticket_flag, Hc3. destruct (wt_released x3) eqn:R3.
  - set (s' := s3 <| tickets := tpop (tickets s3) cls t |>).
    assert (P' : Persist s') by (apply Persist_tickets; [apply C3|apply wf_pop; apply C3]).
    split; [exact P'|]. rewrite Hk. cbn [tl]. rewrite <- Hrest3, <- I3, <- F3.
    apply (wait_return s' cls t x3 rest3); auto; [apply Hh3|].
    change (Held (tpop (tickets s3) cls t) rest3). rewrite <- Hx3c, <- Hx3t. exact (Held_pop _ _ _ Hh3).
  - exact (wait_keep cls t s s3 P Q3 Hc3).
Qed.

(* the non-waiting form dispatches a head that has the batch priority, and goes on with that priority *)
Lemma iter_dispatch prio s p cnt sg q' :
  Before (CProcIter prio) s -> q_pop (get_q s (active s)) = Some ((p, cnt, sg), q') -> go_ok prio p = true ->
  let s2 := disp sg s (set_q s (active s) q') in
  Before (CProcessSignal sg 0) s2 /\
  forall s3, After (CProcessSignal sg 0) s2 ONormal s3 ->
    Before (CProcIter (Some p)) s3 /\ view s3 = (keys s, (nf s, Some p) :: tl (il s), fl s).
Proof.
  intros (C & SK & (ir & Hi & SIr)) Hpop Hgo s2.
  assert (Hpo : prio = None \/ prio = Some p).
  { destruct prio as [p0|]; [right|left; reflexivity]. apply Z.eqb_eq in Hgo. congruence. }
  destruct (dispatch_pre s p cnt sg q' C Hpop) as [P2 K2].
  - intros x Hx. left. exact (StrictK_depth _ _ SK x Hx).
  - rewrite Hi. constructor; [cbn; lia|]. apply (StrictI_mono _ _ _ SIr). lia.
  - unfold batch_ok. rewrite Hi. destruct Hpo as [->| ->]; [exact I|auto].
  - split; [exact P2|]. intros s3 Q. rewrite Hi. cbn [tl].
    assert (R3 : CoreAt s3 (keys s, (nf s, Some p) :: ir, fl s)).
    { specialize (K2 s3 Q). unfold il_disp in K2. rewrite Hi in K2.
      destruct Hpo as [->| ->]; [rewrite Nat.eqb_refl in K2|]; exact K2. }
    destruct R3 as (C3 & V3). split; [|exact V3].
    destruct (view_eq _ _ _ _ V3) as (K3 & I3 & _ & N3). fold (nf s) in N3.
    split; [exact C3|]. rewrite K3, I3, N3. split; [exact SK|]. exists ir. auto.
Qed.

Lemma iter_end po s s' : Before (CProcIter po) s -> CoreAt s' (view s) -> After (CProcIter po) s ONormal s'.
Proof.
  intros (_ & _ & (ir & Hi & _)) R. split; [apply R|]. exists po. change (CoreAt s' (keys s, (nf s, po) :: tl (il s), fl s)).
  rewrite Hi. cbn [tl]. rewrite <- Hi. exact R.
Qed.

Lemma ps_end sg idx s :
  Before (CProcessSignal sg idx) s ->
  After (CProcessSignal sg idx) s ONormal (emit (EDispatchEnd (sg_id sg)) (ps_mark sg idx s)).
Proof.
  intros (_ & C0 & _). destruct (dispatch_end _ (sg_id sg) C0) as (Ce & Ve).
  destruct (view_eq _ _ _ _ (view_ps_mark sg idx s)) as (K0 & I0 & F0 & _).
  rewrite K0, I0, F0 in Ve. split; [apply Ce|]. split; [exact Ce|exact Ve].
Qed.

Lemma ps_handler sg idx s hid data :
  Before (CProcessSignal sg idx) s ->
  let s1 := emit (EHandler hid (sg_id sg) data) (ps_mark sg idx s) in Gen s1 /\ view s1 = view s.
Proof.
  intros (_ & C0 & ST & _) s1. assert (R : CoreAt s1 (view s)); [|exact (conj (CoreAt_Gen _ _ ST R) (proj2 R))].
  rewrite <- (view_ps_mark sg idx s). apply handler_start, C0.
Qed.

Lemma ps_next sg idx s s3 :
  Before (CProcessSignal sg idx) s -> CoreAt s3 (view s) -> Before (CProcessSignal sg (S idx)) s3.
Proof.
  intros (_ & _ & ST & r & Hfl) (C3 & V3). split; [apply C3|]. split; [exact C3|]. split; [exact (Strict_view _ _ V3 ST)|].
  exists r. destruct (view_eq _ _ _ _ V3) as (_ & _ & F3 & _). congruence.
Qed.

Lemma ps_handler_end sg idx s hid how s2 :
  how = None \/ how = Some XError -> Before (CProcessSignal sg idx) s -> CoreAt s2 (view s) ->
  CoreAt (emit (EHandlerEnd hid (sg_id sg) how) s2) (view s).
Proof.
  intros Hh (_ & _ & _ & r & Hfl) (C2 & V2). rewrite <- V2.
  apply (handler_end s2 hid (sg_id sg) how r Hh C2). destruct (view_eq _ _ _ _ V2) as (_ & _ & F2 & _). congruence.
Qed.

(* process_signals() and close_loop(), which starts with one *)
Lemma iter_call s :
  Gen s -> let se := emit (EProcEnter None 0) s in
  Before (CProcIter None) se /\
  forall s1, After (CProcIter None) se ONormal s1 -> CoreAt (emit (EProcReturn None 0) s1) (view s).
Proof.
  intros (C & SK & SI) se.
  assert (Ve : view se = (keys s, (nf s, None) :: il s, fl s)).
  { unfold se. rewrite view_emit, ws_waiters, ws_iters, ws_frames, nf_frames. reflexivity. }
  split.
  - destruct (view_eq _ _ _ _ Ve) as (Ke & Ie & _ & Ne). fold (nf s) in Ne.
    split; [apply Core_plain; auto|]. rewrite Ke, Ie, Ne. split; [exact SK|]. exists (il s). auto.
  - intros s1 Q. destruct (After_at _ _ _ _ _ Ve Q) as (_ & po & C1 & V1).
    split; [apply Core_plain; auto|]. destruct (view_eq _ _ _ _ V1) as (K1 & I1 & F1 & _).
    rewrite view_emit, ws_waiters, ws_iters, ws_frames.
    transitivity (keys s1, tl (il s1), fl s1); [reflexivity|rewrite K1, I1, F1; reflexivity].
Qed.

(* process_signals(return_after=cls) takes a ticket and becomes the innermost waiter *)
Lemma wait_pre s cls t tm :
  Gen s -> take_ticket (tickets s) cls = (t, tm) ->
  let s1 := emit (EProcEnter (Some cls) t) (s <| tickets := tm |>) in
  Before (CProcWait cls t) s1 /\
  forall s2, After (CProcWait cls t) s1 ONormal s2 -> CoreAt (emit (EProcReturn (Some cls) t) s2) (view s).
Proof.
  intros (C & SK & SI) T.
  assert (Ht : t = tm_counter (tickets s)) by (unfold take_ticket in T; inversion T; reflexivity).
  assert (Htm : tm = snd (take_ticket (tickets s) cls)) by (rewrite T; reflexivity).
  subst tm. intros s1.
  assert (V1 : view s1 = ((cls, t, nf s) :: keys s, il s, fl s)).
  { rewrite (view_step _ s s1 eq_refl), ws_waiters, ws_iters, ws_frames, nf_frames. reflexivity. }
  assert (Hwl : wl s1 = {| wt_cls := cls; wt_ticket := t; wt_released := false; wt_depth := nf s |} :: wl s).
  { rewrite (wl_step _ s s1 eq_refl), ws_waiters, nf_frames. reflexivity. }
  assert (Hh : Held (tickets s1) (wl s1)) by (rewrite Hwl, Ht; apply (Held_take (tickets s)); apply C).
  assert (Hnew : tflag (tickets s1) cls t = Some false) by (rewrite Hwl in Hh; exact (proj1 Hh _ (or_introl eq_refl))).
  split; [|intros s2 Q; apply (After_at _ _ _ _ _ V1 Q)].
  destruct (view_eq _ _ _ _ V1) as (K1 & I1 & _ & N1). fold (nf s) in N1.
  split; [|split; [exact Hnew|rewrite K1, I1, N1; split; [exists (keys s); auto|exact SI]]].
  constructor; [|exact Hh].
  apply (Persist_event (EProcEnter (Some cls) t) s s1 (c_p s C)); [|reflexivity|apply wf_take; apply C|reflexivity].
  apply link_plain; [reflexivity|]. apply link_set_tickets, C.
Qed.

(* execute_new_loop opens a level and enqueues its first signal there *)
Lemma newloop_pre s sp sg s1 :
  Core s -> new_signal s sp = (sg, s1) -> force_quit s1 = false -> CoreAt (nl_enter sg s1) (view s).
Proof.
  intros C N FQ. pose proof (p_link s (c_p s C)) as L.
  destruct (reach_nl_enter s s sp sg s1 N FQ (reach_refl s L)) as [_ A3].
  destruct (CoreAt_new_signal s sp sg s1 C N) as [C1 <-].
  destruct (CoreAt_astep _ s1 _ C1 (A_newlevel s1 FQ) eq_refl eq_refl eq_refl) as [C2 <-].
  (* the state is named: compared as written out, its two occurrences are slow to check *)
  revert A3. unfold nl_enter. set (s2 := emit (ENewLoopEnter _) _) in *. exact (CoreAt_enqueue s2 sg C2).
Qed.

Lemma run_pre s : Persist s -> Gen (run_enter s).
Proof.
  intros P. apply Gen_fresh, (fresh_start ERunEnter s); auto.
  exact (astep_link _ _ (p_link s P) (A_runenter s)).
Qed.

Lemma Exec_inv c s o s' : Exec code c s o s' -> Before c s -> After c s o s'.
Proof.
  induction 1; intros P.
  - (* X_fuel *)
    apply After_weak; [exact (Before_Persist _ _ P)|discriminate|discriminate].
  - (* X_run_stop *) pose proof (After_Persist _ _ _ _ (IHExec (run_pre s P))) as P1.
    split; [|exact I]. apply Persist_plain; [reflexivity|reflexivity|]. unfold quit_call.
    destruct (quit_cb s1); [apply Persist_plain; [reflexivity|reflexivity|]|]; exact P1.
  - (* X_run_abort *) pose proof (After_Persist _ _ _ _ (IHExec (run_pre s P))) as P1.
    split; [exact P1|]. destruct o as [|[]| |]; exact I.
  - (* X_ml_done *)
    destruct P as (C & ST). assert (R : CoreAt (ml_exit s) (view s)); [|split; [apply R|exact R]].
    unfold ml_exit. destruct (force_quit s); [exact (CoreAt_refl s C)|].
    exact (CoreAt_same s _ C (astep_link _ _ (p_link s (c_p s C)) (A_rearm s)) eq_refl eq_refl).
  - (* X_ml_iter *) exact (Gen_seq _ _ _ _ _ P (proj2 (IHExec1 P)) IHExec2).
  - (* X_ml_abort *) exact (After_abort _ _ _ _ _ _ (IHExec P) H1 eq_refl).
  - (* X_pl_done *)
    split; [apply P|apply CoreAt_refl, P].
  - (* X_pl_blocked *) apply After_weak; [apply P|discriminate|discriminate].
  - (* X_pl_ext *)
    exact (Gen_seq _ _ _ _ _ P (proj1 (ext_arrival_step s s1 H0 (proj1 P))) IHExec).
  - (* X_pl_disp *) destruct (gen_dispatch s sg s1 P H0) as (P2 & K2).
    exact (Gen_seq _ _ _ _ _ P (K2 _ (IHExec1 P2)) IHExec2).
  - (* X_pl_abort *)
    destruct (gen_dispatch s sg s1 P H0) as (P2 & _). exact (After_abort _ _ _ _ _ _ (IHExec P2) H2 eq_refl).
  - (* X_pw_done *)
    exact (wait_stopped cls t s P H).
  - (* X_pw_blocked *) apply After_weak; [apply P|discriminate|discriminate].
  - (* X_pw_ext *) destruct (ext_arrival_step s s1 H0 (proj1 P)) as (R1 & T1).
    apply (After_transfer _ _ s1 _ _ (proj2 R1)), IHExec, (wait_keep cls t s s1 P R1). rewrite T1. apply P.
  - (* X_pw_abort *)
    destruct (wait_dispatch cls t s sg s1 P H0) as (P2 & _). exact (After_abort _ _ _ _ _ _ (IHExec P2) H2 eq_refl).
  - (* X_pw_released *) destruct (wait_dispatch cls t s sg s1 P H0) as (P2 & K2).
    pose proof (wait_checked cls t s s3 P (K2 _ (IHExec P2))) as K. rewrite H2 in K. exact K.
  - (* X_pw_again *) destruct (wait_dispatch cls t s sg s1 P H0) as (P2 & K2). pose proof (K2 _ (IHExec1 P2)) as R3.
    pose proof (wait_checked cls t s s3 P R3) as K. rewrite H2 in K.
    apply (After_transfer _ _ s3); [apply R3|]. exact (IHExec2 K).
  - (* X_pw_keyerror *) destruct (wait_dispatch cls t s sg s1 P H0) as (P2 & K2).
    pose proof (wait_checked cls t s s3 P (K2 _ (IHExec P2))) as K. rewrite H2 in K. destruct K.
  - (* X_pi_done *)
    exact (iter_end prio s s P (CoreAt_refl s (proj1 P))).
  - (* X_pi_none *) exact (iter_end prio s s P (CoreAt_refl s (proj1 P))).
  - (* X_pi_go *) destruct (iter_dispatch prio s p cnt sg q' P H0 H1) as (P2 & K2).
    destruct (K2 _ (IHExec1 P2)) as (P3 & V3).
    exact (After_iter_transfer prio (Some p) _ s s3 _ _ V3 (IHExec2 P3)).
  - (* X_pi_abort *) destruct (iter_dispatch prio s p cnt sg q' P H0 H1) as (P2 & _).
    exact (After_abort _ _ _ _ _ _ (IHExec P2) H3 eq_refl).
  - (* X_pi_requeue: the entry goes back *)
    exact (iter_end prio s _ P (CoreAt_astep _ s _ (proj1 P) (A_requeue _ _ _ _ _ H0) eq_refl eq_refl eq_refl)).
  - (* X_ps_kill *)
    apply After_weak; [|discriminate|discriminate]. apply Persist_plain; [reflexivity|reflexivity|apply P].
  - (* X_ps_nohandler *) exact (ps_end sg idx s P).
  - (* X_ps_fq *) exact (ps_end sg idx s P).
  - (* X_ps_end *) exact (ps_end sg idx s P).
  - (* X_ps_ok *)
    destruct (ps_handler sg idx s hid data P) as (G1 & V1). destruct (IHExec1 G1) as (_ & R2). rewrite V1 in R2.
    pose proof (ps_handler_end sg idx s hid None s2 (or_introl eq_refl) P R2) as R3.
    apply (After_transfer _ _ _ _ _ (proj2 R3)). exact (IHExec2 (ps_next sg idx s _ P R3)).
  - (* X_ps_error: an ExceptionSignal is enqueued, the next handler runs *)
    destruct (ps_handler sg idx s hid data P) as (G1 & V1). destruct (IHExec1 G1) as (_ & R2). rewrite V1 in R2.
    pose proof (ps_handler_end sg idx s hid (Some XError) s2 (or_intror eq_refl) P R2) as (C3 & V3).
    pose proof (enqueue_new _ _ _ _ C3 H3) as R5. rewrite V3 in R5.
    apply (After_transfer _ _ _ _ _ (proj2 R5)). exact (IHExec2 (ps_next sg idx s _ P R5)).
  - (* X_ps_throw *) pose proof (After_Persist _ _ _ _ (IHExec (proj1 (ps_handler sg idx s hid data P)))) as P2.
    apply After_weak; [apply handler_end_exn; exact P2|discriminate|congruence].
  - (* X_ps_abort *) pose proof (After_Persist _ _ _ _ (IHExec (proj1 (ps_handler sg idx s hid data P)))) as P2.
    apply After_weak; [exact P2|..]; destruct H3 as [-> | ->]; discriminate.
  - (* X_enqueue *)
    apply After_code; auto; try discriminate. exact (enqueue_new s sp sg s1 (proj1 P) H).
  - (* X_force_quit *)
    apply After_code; auto; try discriminate. apply force_quit_step, P.
  - (* X_nl_fq *)
    apply After_code; auto; try discriminate. exact (CoreAt_new_signal s sp sg s1 (proj1 P) H).
  - (* X_nl_ok: its main loop has returned.  The link after ENewLoopReturn is taken from the whole derivation: that
       the event is honest is what proofs/LoopLink.v draws from the counting argument [C09Exec.count_Exec] *)
    pose proof (newloop_pre s sp sg s1 (proj1 P) H H0) as R2.
    destruct (IHExec (CoreAt_Gen _ _ (proj2 P) R2)) as (_ & C4 & V4). rewrite (proj2 R2) in V4.
    apply After_code; auto; try discriminate. rewrite <- V4.
    apply (CoreAt_calm (ENewLoopReturn (length (qstore s1))) s4); [reflexivity|exact C4| |reflexivity|reflexivity].
    exact (link_Exec code _ _ _ _ (X_nl_ok code _ _ _ _ _ H H0 H1) (p_link s (c_p s (proj1 P)))).
  - (* X_nl_abort *) pose proof (newloop_pre s sp sg s1 (proj1 P) H H0) as R2.
    exact (After_abort _ _ _ _ _ _ (IHExec (CoreAt_Gen _ _ (proj2 P) R2)) H2 eq_refl).
  - (* X_cl_abort *)
    exact (After_abort _ _ _ _ _ _ (IHExec (proj1 (iter_call s P))) H0 eq_refl).
  - (* X_cl_empty *) destruct (iter_call s P) as (P1 & K1).
    apply After_code; [reflexivity|discriminate|auto|exact (K1 _ (IHExec P1))].
  - (* X_cl_last *) destruct (iter_call s P) as (P1 & K1). destruct (K1 _ (IHExec P1)) as (C2 & _).
    apply After_weak; [|discriminate|discriminate].
    exact (c_p _ (proj1 (close_pop_step (emit (EProcReturn None 0) s0) top [] C2 H0))).
  - (* X_cl_pop *) destruct (iter_call s P) as (P1 & K1). destruct (K1 _ (IHExec P1)) as (C2 & V2).
    destruct (close_pop_step (emit (EProcReturn None 0) s0) top (q :: rest) C2 H0) as (C3 & V3).
    apply After_code; auto; try discriminate. split; [exact C3|rewrite V3; exact V2].
  - (* X_pn_ok *) destruct (iter_call s P) as (P1 & K1).
    apply After_code; [reflexivity|discriminate|auto|exact (K1 _ (IHExec P1))].
  - (* X_pn_abort *) exact (After_abort _ _ _ _ _ _ (IHExec (proj1 (iter_call s P))) H0 eq_refl).
  - (* X_pt_ok *)
    destruct (wait_pre s cls t tm P H) as (P1 & K1).
    apply After_code; [reflexivity|discriminate|auto|exact (K1 _ (IHExec P1))].
  - (* X_pt_abort *) exact (After_abort _ _ _ _ _ _ (IHExec (proj1 (wait_pre s cls t tm P H))) H1 eq_refl).
  - (* X_reg_source *)
    apply After_code; auto; try discriminate. exact (CoreAt_astep _ s _ (proj1 P) (A_regsource s o) eq_refl eq_refl eq_refl).
  - (* X_reg_handler *)
    apply After_code; auto; try discriminate.
    exact (CoreAt_astep _ s _ (proj1 P) (A_reghandler s cls hid data) eq_refl eq_refl eq_refl).
  - (* X_set_quit *)
    apply After_code; auto; try discriminate. exact (CoreAt_astep _ s _ (proj1 P) (A_setquit s arg) eq_refl eq_refl eq_refl).
  - (* X_ext_add: ghost: another thread's future submission *)
    apply After_code; auto; try discriminate. apply (CoreAt_same s); [apply P| |reflexivity|reflexivity].
    apply link_set_ext, P.
  - (* X_ret *)
    apply After_code; auto; try discriminate. apply CoreAt_refl, P.
  - (* X_throw *)
    destruct e; [apply After_weak; [apply P|discriminate|discriminate]| |apply After_weak; [apply P|discriminate|discriminate]].
    apply After_code; auto; try discriminate. apply CoreAt_refl, P.
  - (* X_seq_ok *) exact (Gen_seq _ _ _ _ _ P (proj2 (IHExec1 P)) IHExec2).
  - (* X_seq_abort *) exact (IHExec P).
  - (* X_try_catch *) exact (Gen_seq _ _ _ _ _ P (proj2 (IHExec1 P)) IHExec2).
  - (* X_try_pass *) exact (IHExec P).
  - (* X_api *) exact (IHExec P).
  - (* X_st *)
    apply IHExec, (CoreAt_Gen s _ (proj2 P)), (CoreAt_same s); [apply P| |reflexivity|reflexivity].
    apply link_set_ust, P.
  - (* X_while_done *) apply After_code; auto; try discriminate. apply CoreAt_refl, P.
  - (* X_while_iter *) exact (Gen_seq _ _ _ _ _ P (proj2 (IHExec1 P)) IHExec2).
  - (* X_while_abort *) exact (IHExec P).
  - (* X_emit *) apply After_code; auto; try discriminate. destruct (user_event_calm e) as [N Pl].
    exact (CoreAt_astep _ s _ (proj1 P) (A_emit s _ Pl) eq_refl N eq_refl).
Qed.

Lemma exec_inv f c s o s' : Before c s -> exec code f c s = (o, s') -> After c s o s'.
Proof. intros P H. exact (Exec_inv _ _ _ _ (exec_Exec code _ _ _ _ _ H) P). Qed.

Lemma Persist_init u : Persist (init_state u).
Proof. constructor; [apply link_init|apply acc_init|exact wf_empty]. Qed.

Lemma session_inv fuel acts s : Persist s -> Persist (snd (run_session code fuel acts s)).
Proof.
  intros P. apply (run_sessions_keep code fuel Persist (fun _ => True)); [|apply Forall_forall; auto|exact P].
  clear. intros a s _ P. unfold run_call.
  pose proof (fresh_start ETop s _ (or_introl eq_refl) P (link_top s (p_link s P)) eq_refl eq_refl) as R0.
  destruct (exec code fuel _ (emit ETop s)) as [o s1] eqn:E.
  apply exec_inv in E; [exact (After_Persist _ _ _ _ E)|]. destruct a as [|p]; [apply R0|exact (Gen_fresh _ R0)].
Qed.

Theorem C10_waiting_proof fuel acts (u : U) :
  ok_C10 (rev (trace (snd (run_session code fuel acts (init_state u))))) = true.
Proof.
  exact (p_acc _ (session_inv fuel acts _ (Persist_init u))).
Qed.

(* process_signals() on an empty queue returns at once, having done nothing *)
Lemma iteration_nonblocking f s :
  q_empty (get_q s (active s)) = true ->
  exec code (S (S f)) (CApi (AProcess None)) s =
  (ONormal, emit (EProcReturn None 0) (emit (EProcEnter None 0) s)).
Proof.
  intros H. cbn [exec].
  change (get_q (emit (EProcEnter None 0) s) (active (emit (EProcEnter None 0) s))) with (get_q s (active s)).
  rewrite H. reflexivity.
Qed.

(* the same for the process_signals() that close_loop() starts with *)
Lemma iter_empty f po s :
  q_empty (get_q s (active s)) = true -> exec code (S f) (CProcIter po) s = (ONormal, s).
Proof. intros H. cbn [exec]. rewrite H. reflexivity. Qed.

(* a handler was started between s and s' *)
Definition hgrow s s' : Prop :=
  exists tr h sid d, trace s' = tr ++ trace s /\ In (EHandler h sid d) tr.

Lemma hgrow_l a b c : trace_grows a b -> hgrow b c -> hgrow a c.
Proof.
  intros [t1 H1] (t2 & h & sid & d & H2 & Hin). exists (t2 ++ t1), h, sid, d.
  rewrite H2, H1, app_assoc. split; [reflexivity|apply in_or_app; left; exact Hin].
Qed.
Lemma hgrow_r a b c : hgrow a b -> trace_grows b c -> hgrow a c.
Proof.
  intros (t1 & h & sid & d & H1 & Hin) [t2 H2]. exists (t2 ++ t1), h, sid, d.
  rewrite H2, H1, app_assoc. split; [reflexivity|apply in_or_app; right; exact Hin].
Qed.
Lemma hgrow_handler sg idx s h sid d : hgrow s (emit (EHandler h sid d) (ps_mark sg idx s)).
Proof.
  exists [EHandler h sid d], h, sid, d. split; [|left; reflexivity].
  unfold ps_mark. destruct (idx =? 0)%nat; reflexivity.
Qed.

(* _process_signal and process_signals() never wait themselves: they are blocked only if a handler
   they ran was *)
Lemma blocked_in_handler c s o s' :
  Exec code c s o s' -> o = OBlocked ->
  match c with CProcessSignal _ _ | CProcIter _ => hgrow s s' | _ => True end.
Proof.
  induction 1; intros Eo; try exact I; try discriminate Eo.
  - apply (hgrow_l _ s3); [|exact (IHExec2 Eo)].
    eapply tg_trans; [|exact (Exec_trace_grows code _ _ _ _ H2)]. apply tg_emit, (tg_same _ s); [reflexivity|apply tg_refl].
  - apply (hgrow_l _ (disp sg s (set_q s (active s) q'))); [|exact (IHExec Eo)].
    apply tg_emit, (tg_same _ s); [reflexivity|apply tg_refl].
  - eapply hgrow_r; [eapply hgrow_r; [apply hgrow_handler|exact (Exec_trace_grows code _ _ _ _ H2)]|].
    eapply tg_trans; [apply tg_emit, tg_refl|exact (Exec_trace_grows code _ _ _ _ H3)].
  - eapply hgrow_r; [eapply hgrow_r; [apply hgrow_handler|exact (Exec_trace_grows code _ _ _ _ H2)]|].
    eapply tg_trans; [|exact (Exec_trace_grows code _ _ _ _ H4)]. injection H3 as _ <-.
    apply tg_do_enqueue, tg_emit, (tg_same _ (emit (EHandlerEnd hid (sg_id sg) (Some XError)) s2)); [reflexivity|].
    apply tg_emit, tg_refl.
  - eapply hgrow_r; [apply hgrow_handler|exact (Exec_trace_grows code _ _ _ _ H2)].
Qed.

Lemma iter_blocked f po s s' : exec code f (CProcIter po) s = (OBlocked, s') -> hgrow s s'.
Proof. intros H. exact (blocked_in_handler _ _ _ _ (exec_Exec code _ _ _ _ _ H) eq_refl). Qed.

(* one batch: at the first head of another priority the entry goes back and the call returns *)
Lemma iteration_stops_at_other_priority f s p0 p cnt sg q' :
  q_pop (get_q s (active s)) = Some ((p, cnt, sg), q') -> run_loop s = true -> p <> p0 ->
  exec code (S f) (CProcIter (Some p0)) s =
  (ONormal, emit (ERequeue (sg_id sg) (active s)) (set_q s (active s) (q_put_entry q' (p, cnt, sg)))).
Proof.
  intros Hpop RL Hne. cbn [exec]. rewrite (q_pop_not_empty _ _ _ Hpop), RL, Hpop. cbn [negb andb].
  destruct (p =? p0)%Z eqn:E; [apply Z.eqb_eq in E; congruence|reflexivity].
Qed.

(* ... and a head of the batch priority is dispatched, the batch priority being that of the first signal taken *)
Lemma iteration_dispatches_batch_priority f s po p cnt sg q' :
  q_pop (get_q s (active s)) = Some ((p, cnt, sg), q') -> run_loop s = true ->
  po = None \/ po = Some p ->
  exec code (S f) (CProcIter po) s =
  (let '(o, s3) := exec code f (CProcessSignal sg 0)
                     (emit (EDispatch (sg_id sg) (active s) (length (levels s))) (set_q s (active s) q')) in
   match o with ONormal => exec code f (CProcIter (Some p)) s3 | _ => (o, s3) end).
Proof.
  intros Hpop RL Hpo. cbn [exec]. rewrite (q_pop_not_empty _ _ _ Hpop), RL, Hpop. cbn [negb andb].
  destruct Hpo as [-> | ->]; [reflexivity|]. rewrite Z.eqb_refl. reflexivity.
Qed.

(* two fields of the link of proofs/LoopLink.v, at the end of every session *)
Lemma stop_flag_link fuel acts (u : U) :
  let s := snd (run_session code fuel acts (init_state u)) in
  let w := world_of (rev (trace s)) in
  force_quit s = w_fq w /\ (run_loop s = false -> w_runloop w = false).
Proof.
  intros s w. pose proof (link_session code fuel acts u) as L.
  split; [symmetry; exact (link_fq _ L)|exact (link_runloop _ L)].
Qed.

End C10.

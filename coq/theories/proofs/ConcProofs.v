(* ConcProofs.v — proofs about the interleaving semantics Conc.v (property C19). *)
From SL Require Import Tac.
From Coq Require Import Permutation.
From RecordUpdate Require Import RecordUpdate.
From SL Require Import Conc.
Import ListNotations.

Lemma steps_app : forall a b st, steps (a ++ b) st = steps b (steps a st).
Proof. intros; unfold steps; apply fold_left_app. Qed.

Fixpoint effective (sch : list nat) (st : cstate) : list nat :=
  match sch with
  | [] => []
  | t :: r => if enabled t st then t :: effective r (step t st) else effective r st
  end.

Lemma step_disabled : forall t st, enabled t st = false -> step t st = st.
Proof.
  intros t st; unfold enabled, step.
  destruct (nth_error (c_thr st) t) as [th|]; [|reflexivity].
  destruct (tstep t th (c_sh st)) as [[th' h']|]; [discriminate|reflexivity].
Qed.

Lemma steps_stutter_free : forall sch st, steps (effective sch st) st = steps sch st.
Proof.
  induction sch as [|t r IH]; intros st; [reflexivity|].
  cbn [effective]. destruct (enabled t st) eqn:E; cbn [steps fold_left].
  - apply IH.
  - rewrite (step_disabled _ _ E). apply IH.
Qed.

(* induction over the states reachable from st0; in the step, what is known of every such state can be used *)
Lemma reach_ind : forall st0 (P : cstate -> Prop), P st0 ->
  (forall sch t, P (steps sch st0) -> P (step t (steps sch st0))) ->
  forall sch, P (steps sch st0).
Proof.
  intros st0 P H0 HS sch. induction sch as [|t sch IH] using rev_ind; [exact H0|].
  rewrite steps_app. apply HS, IH.
Qed.

Lemma steps_inv : forall (P : cstate -> Prop),
  (forall t st, P st -> P (step t st)) -> forall sch st, P st -> P (steps sch st).
Proof. intros P HP sch st H. apply reach_ind; [exact H|]. intros sch0 t. apply HP. Qed.

Lemma upd_split : forall {A} (l1 : list A) x y l2, upd (length l1) y (l1 ++ x :: l2) = l1 ++ y :: l2.
Proof. induction l1 as [|a l1 IH]; intros; cbn; [reflexivity|]. now rewrite IH. Qed.

Lemma nth_error_mid : forall {A} (l1 : list A) x l2, nth_error (l1 ++ x :: l2) (length l1) = Some x.
Proof. induction l1; cbn; auto. Qed.

Lemma mid_cases : forall {A} (l1 : list A) x y l2 n a, nth_error (l1 ++ y :: l2) n = Some a ->
  (n = length l1 /\ a = y) \/ (n <> length l1 /\ nth_error (l1 ++ x :: l2) n = Some a).
Proof.
  induction l1 as [|b l1 IH]; intros x y l2 [|n] a H; cbn in *.
  - left. split; congruence.
  - right. split; [discriminate|exact H].
  - right. split; [discriminate|exact H].
  - destruct (IH x y l2 n a H) as [[-> ->]|[Ne H']]; [left|right]; auto.
Qed.

Lemma mid_lift : forall {A} (P Q : nat -> A -> Prop) l1 x y l2,
  (forall n a, nth_error (l1 ++ x :: l2) n = Some a -> P n a) ->
  (P (length l1) x -> Q (length l1) y) -> (forall n a, n <> length l1 -> P n a -> Q n a) ->
  forall n a, nth_error (l1 ++ y :: l2) n = Some a -> Q n a.
Proof.
  intros A P Q l1 x y l2 HP Hy Ho n a H. destruct (mid_cases l1 x _ _ _ _ H) as [[-> ->]|[Ne H']].
  - apply Hy, HP, nth_error_mid.
  - apply Ho; [exact Ne|]. apply HP, H'.
Qed.

Inductive step_to : nat -> cstate -> cstate -> Prop :=
| step_stutter t st : step_to t st st
| step_move l1 th l2 h th' h' : tstep (length l1) th h = Some (th', h') ->
    step_to (length l1) {| c_thr := l1 ++ th :: l2; c_sh := h |} {| c_thr := l1 ++ th' :: l2; c_sh := h' |}.

Lemma stepP : forall t st, step_to t st (step t st).
Proof.
  intros t [thr h]. unfold step. cbn [c_thr c_sh].
  destruct (nth_error thr t) as [th|] eqn:E; [|constructor].
  destruct (tstep t th h) as [[th' h']|] eqn:T; [|constructor].
  destruct (nth_error_split _ _ E) as (l1 & l2 & -> & Hn). subst t. rewrite upd_split. now constructor.
Qed.

(* split a hypothesis into one goal per inner [match] *)
Ltac open_match H :=
  repeat match type of H with
         | context [match ?x with _ => _ end] =>
           match x with
           | context [match _ with _ => _ end] => fail 1
           | _ => destruct x eqn:?
           end
         end.

(* [move u h th th' h0]: one constructor per program point and outcome of what it reads; the store is given before the
   trace label is added, which nothing below reads.  [move] says what a step CAN do ([tstep_spec]), not which steps
   exist: where no proof depends on a value the constructor leaves it open (p_pop: the list after the pop; p_rel,
   p_ret: the run flag; s_close, p_empty: which way `while not empty()` goes; p_get: the batch priority; p_take
   forgets that the priorities differ).  What blocks a thread is read off [tstep] itself (ConcLocks.tstep_none). *)
Definition after (s : sig) (oe : option epc) : pc := match oe with Some e => PE s e | None => P0 end.
Definition got (e : entry) (pend' : list (nat * entry)) (h : shared) : shared :=
  h <| h_pend := pend' |> <| h_disp := h_disp h ++ [e_sid e] |>.

Section Move.
  Variables (u : nat) (h : shared).

  (* inside enqueue_signal(s): [estep] *)
  Inductive emove (s : sig) : epc -> option epc -> shared -> Prop :=
  | em_drop : h_fq h = true -> emove s EFq None (h <| h_drop := h_drop h ++ [s_id s] |>)
  | em_pass : h_fq h = false -> emove s EFq (Some EAcqM) h
  | em_acqm : h_mlock h = 0 -> emove s EAcqM (Some EMkIter) (h <| h_mlock := S u |>)
  | em_iter : emove s EMkIter (Some (ENext (length (h_evq h)))) h
  | em_next i q : nth_error (h_evq h) i = Some q -> emove s (ENext (S i)) (Some (EAcqQ q i)) h
  | em_last k : (forall i, k = S i -> nth_error (h_evq h) i = None) -> emove s (ENext k) (Some ERelMFb) h
  | em_acqq q i : aget (h_qlock h) q = 0 ->
      emove s (EAcqQ q i) (Some (ETest q i)) (h <| h_qlock := aset (h_qlock h) q (S u) |>)
  | em_test q i : emove s (ETest q i) (Some (ERelQ q i (has_src (h_src h) q (s_src s)))) h
  | em_relq q i (b : bool) :
      emove s (ERelQ q i b) (Some (if b then ECnt q true else ENext i)) (h <| h_qlock := aset (h_qlock h) q 0 |>)
  | em_cnt q lk :
      emove s (ECnt q lk) (Some (EPut q (aget (h_cnt h) q) lk)) (h <| h_cnt := aset (h_cnt h) q (S (aget (h_cnt h) q)) |>)
  | em_put q c (lk : bool) :
      emove s (EPut q c lk) (if lk then Some ERelMDone else None)
            (h <| h_pend := h_pend h ++ [(q, (s_prio s, c, s_id s))] |>
               <| h_putlog := (u, (q, (s_prio s, c, s_id s))) :: h_putlog h |>)
  | em_done : emove s ERelMDone None (h <| h_mlock := 0 |>)
  | em_fb : emove s ERelMFb (Some ELoadAct) (h <| h_mlock := 0 |>)
  | em_load : emove s ELoadAct (Some (ECnt (h_active h) false)) h.

  (* the first access of an action: [start] *)
  Inductive smove : action -> pc -> shared -> Prop :=
  | s_submit s oe h0 : emove s EFq oe h0 -> smove (ASubmit s) (after s oe) h0
  | s_disp e pend' : h_run h = true -> pop_min (h_active h) (h_pend h) = Some (e, pend') ->
      smove ADispatch P0 (got e pend' h)
  | s_skip : h_run h = false -> smove ADispatch P0 h
  | s_reg o : aget (h_qlock h) (h_active h) = 0 ->
      smove (ARegister o) (PRAdd (h_active h) o) (h <| h_qlock := aset (h_qlock h) (h_active h) (S u) |>)
  | s_open_fq s : h_fq h = true -> smove (AOpen s) P0 (h <| h_drop := h_drop h ++ [s_id s] |>)
  | s_open s : h_fq h = false -> smove (AOpen s) (POAcq s) (h <| h_active := h_nq h |> <| h_nq := S (h_nq h) |>)
  | s_close (b : bool) : smove AClose (if b then PCAcq else PCGet None) h
  | s_fq : smove AForceQuit PFClear (h <| h_fq := true |>).

  (* a step at a program point inside an action: [cont] *)
  Inductive pmove : pc -> pc -> shared -> Prop :=
  | p_enq s e oe h0 : emove s e oe h0 -> pmove (PE s e) (after s oe) h0
  | p_add q o : pmove (PRAdd q o) (PRRel q) (h <| h_src := add_src (h_src h) q o |>)
  | p_relq q : pmove (PRRel q) P0 (h <| h_qlock := aset (h_qlock h) q 0 |>)
  | p_oacq s : h_mlock h = 0 -> pmove (POAcq s) (POApp s) (h <| h_mlock := S u |>)
  | p_app s : pmove (POApp s) (PORel s) (h <| h_evq := h_evq h ++ [h_active h] |>)
  | p_orel s : pmove (PORel s) (PE s EFq) (h <| h_mlock := 0 |>)
  | p_empty p (b : bool) : pmove (PCEmpty p) (if b then PCAcq else PCGet (Some p)) h
  | p_get p e pend' p' : pop_min (h_active h) (h_pend h) = Some (e, pend') ->
      pmove (PCGet p) (PCEmpty p') (got e pend' h)
  | p_take p e pend' : pop_min (h_active h) (h_pend h) = Some (e, pend') ->
      pmove (PCGet (Some p)) (PCPutBack e) (h <| h_pend := pend' |>)
  | p_back e : pmove (PCPutBack e) PCAcq (h <| h_pend := h_pend h ++ [(h_active h, e)] |>)
  | p_cacq : h_mlock h = 0 -> pmove PCAcq PCPop (h <| h_mlock := S u |>)
  | p_pop_none : h_evq h = [] -> pmove PCPop (PCRel HExn) h
  | p_pop (b : bool) evq : pmove PCPop (if b then PCRel HExit else PCRepoint) (h <| h_evq := evq |>)
  | p_repoint : pmove PCRepoint (PCRel HOk) (h <| h_active := last (h_evq h) 0 |>)
  | p_rel hw b :
      pmove (PCRel hw) (match hw with HOk => PCRet | HExit => PDead | HExn => P0 end)
            (h <| h_mlock := 0 |> <| h_run := b |>)
  | p_ret b : pmove PCRet P0 (h <| h_run := b |>)
  | p_clear : pmove PFClear P0 (h <| h_evq := [] |> <| h_run := false |>).

  Inductive move : thread -> thread -> shared -> Prop :=
  | m_start a r p h0 : smove a p h0 -> move (mk (a :: r) P0) (mk r p) h0
  | m_cont prog p p' h0 : pmove p p' h0 -> move (mk prog p) (mk prog p') h0.
End Move.

Lemma estep_spec : forall u s e h oe h', estep u s e h = Some (oe, h') ->
  exists l h0, h' = lbl u l h0 /\ emove u h s e oe h0.
Proof.
  intros u s e h oe h' H. destruct e; cbn [estep] in H; open_match H; try discriminate H; inversion H; subst.
  all: eexists _, _; (split; [reflexivity|]); try (constructor; assumption).
  all: apply em_last; intros i X; try discriminate X; inversion X; subst; assumption.
Qed.

Lemma enq_spec : forall u s e prog h th' h', enq u s e prog h = Some (th', h') ->
  exists l oe h0, h' = lbl u l h0 /\ th' = mk prog (after s oe) /\ emove u h s e oe h0.
Proof.
  intros u s e prog h th' h' H. unfold enq in H. destruct (estep u s e h) as [[oe h1]|] eqn:E; [|discriminate H].
  destruct (estep_spec _ _ _ _ _ _ E) as (l & h0 & -> & M). exists l, oe, h0.
  destruct oe; inversion H; auto.
Qed.

Lemma tstep_spec : forall u th h th' h', tstep u th h = Some (th', h') ->
  exists l h0, h' = lbl u l h0 /\ move u h th th' h0.
Proof.
  intros u [prog p] h th' h' H. unfold tstep in H; cbn [t_pc t_prog] in H.
  unfold start, cont in H. open_match H; try discriminate H.
  all: try (apply enq_spec in H; destruct H as (? & ? & ? & -> & -> & ?); eexists _, _; split; [reflexivity|];
            do 2 constructor; assumption).
  all: unfold close_empty in H; inversion H; subst; clear H; eexists _, _.
  all: try (split; [reflexivity|]; do 2 econstructor; eassumption).
  - split; [reflexivity|]. constructor. apply (p_pop _ _ true).
  - split; [reflexivity|]. constructor. apply (p_pop _ _ false).
  - split; [|constructor; apply (p_rel _ _ HOk false)]. reflexivity.
Qed.

(* case analysis on a [move]; the first access of a submission can only be the read of _force_quit *)
Ltac open_move M :=
  destruct M as [? ? ? ? M|? ? ? ? M]; destruct M;
  try match goal with
      | E : emove _ _ _ EFq _ _ |- _ => inversion E; subst; clear E
      | E : emove _ _ _ _ _ _ |- _ => destruct E
      end;
  repeat match goal with b : bool |- _ => destruct b | w : how |- _ => destruct w end.

Lemma entry_le_total : forall a b, entry_le a b = false -> entry_le b a = true.
Proof.
  intros [[pa ca] sa] [[pb cb] sb]. unfold entry_le, e_prio, e_cnt. cbn [fst snd]. intros H.
  apply orb_false_iff in H. destruct H as [H1 H2]. apply Z.ltb_ge in H1.
  destruct (pb <? pa)%Z eqn:E; [reflexivity|]. apply Z.ltb_ge in E. cbn [orb].
  assert (pa = pb) by lia. subst. rewrite Z.eqb_refl in *. cbn [andb] in *.
  apply Nat.leb_gt in H2. apply Nat.leb_le. lia.
Qed.
Lemma entry_le_refl : forall a, entry_le a a = true.
Proof. intros a. destruct (entry_le a a) eqn:E; [reflexivity|]. apply entry_le_total in E as E'. congruence. Qed.
Lemma entry_le_trans : forall a b c, entry_le a b = true -> entry_le b c = true -> entry_le a c = true.
Proof.
  intros [[pa ca] sa] [[pb cb] sb] [[pc cc] sc]. unfold entry_le, e_prio, e_cnt. cbn [fst snd]. intros H1 H2.
  apply orb_true_iff in H1. apply orb_true_iff in H2. apply orb_true_iff.
  rewrite !andb_true_iff, !Z.ltb_lt, !Z.eqb_eq, !Nat.leb_le in *. lia.
Qed.

Lemma q_empty_in : forall q l e, q_empty q l = true -> ~ In (q, e) l.
Proof.
  intros q l e H X. apply negb_true_iff, not_true_iff_false in H. apply H, existsb_exists.
  exists (q, e). split; [exact X|apply Nat.eqb_refl].
Qed.

Lemma pop_min_spec : forall q l,
  match pop_min q l with
  | Some (m, l') => exists l1 l2, l = l1 ++ (q, m) :: l2 /\ l' = l1 ++ l2 /\
                                  forall e, In (q, e) l -> entry_le m e = true
  | None => q_empty q l = true
  end.
Proof.
  induction l as [|[q' e'] r IH]; [reflexivity|]. cbn [pop_min]. destruct (q' =? q) eqn:Eq.
  - apply Nat.eqb_eq in Eq. subst q'. destruct (pop_min q r) as [[m r']|].
    + destruct IH as (l1 & l2 & -> & -> & Hm). destruct (entry_le e' m) eqn:El.
      * exists [], (l1 ++ (q, m) :: l2). repeat split. intros e [X|X].
        -- inversion X. apply entry_le_refl.
        -- eapply entry_le_trans; [exact El|apply Hm, X].
      * exists ((q, e') :: l1), l2. repeat split. intros e [X|X].
        -- inversion X; subst. apply entry_le_total, El.
        -- apply Hm, X.
    + exists [], r. repeat split. intros e [X|X].
      * inversion X. apply entry_le_refl.
      * destruct (q_empty_in _ _ _ IH X).
  - destruct (pop_min q r) as [[m r']|].
    + destruct IH as (l1 & l2 & -> & -> & Hm). exists ((q', e') :: l1), l2. repeat split. intros e [X|X].
      * inversion X; subst. rewrite Nat.eqb_refl in Eq. discriminate.
      * apply Hm, X.
    + unfold q_empty in *. cbn [existsb fst]. rewrite Eq. exact IH.
Qed.

Lemma pop_min_some : forall q l m l', pop_min q l = Some (m, l') ->
  exists l1 l2, l = l1 ++ (q, m) :: l2 /\ l' = l1 ++ l2 /\ forall e, In (q, e) l -> entry_le m e = true.
Proof. intros q l m l' H. pose proof (pop_min_spec q l) as S. rewrite H in S. exact S. Qed.
Lemma pop_min_in : forall q l m l', pop_min q l = Some (m, l') -> forall x, In x l <-> x = (q, m) \/ In x l'.
Proof.
  intros q l m l' H x. destruct (pop_min_some _ _ _ _ H) as (l1 & l2 & -> & -> & _).
  rewrite !in_app_iff. cbn [In]. intuition congruence.
Qed.
Lemma pop_min_none : forall q l, pop_min q l = None -> q_empty q l = true.
Proof. intros q l H. pose proof (pop_min_spec q l) as S. rewrite H in S. exact S. Qed.

Definition cnt (l : list nat) (x : nat) : nat := count_occ Nat.eq_dec l x.
Definition one (a x : nat) : nat := if Nat.eq_dec a x then 1 else 0.
Definition sidof (x : nat * entry) : nat := e_sid (snd x).

Lemma cnt_nil : forall x, cnt [] x = 0. Proof. reflexivity. Qed.
Lemma cnt_cons : forall a l x, cnt (a :: l) x = one a x + cnt l x.
Proof. intros; unfold cnt, one; cbn. destruct (Nat.eq_dec a x); lia. Qed.
Lemma cnt_app : forall l1 l2 x, cnt (l1 ++ l2) x = cnt l1 x + cnt l2 x.
Proof. intros; apply count_occ_app. Qed.
Lemma cnt_in : forall l x, In x l <-> cnt l x > 0.
Proof. intros; unfold cnt; apply count_occ_In. Qed.
Lemma cnt_flat_map_app : forall {A} (f : A -> list nat) l1 l2 x,
  cnt (flat_map f (l1 ++ l2)) x = cnt (flat_map f l1) x + cnt (flat_map f l2) x.
Proof. intros; rewrite flat_map_app; apply cnt_app. Qed.

#[global] Hint Rewrite cnt_nil cnt_cons cnt_app map_app : cntdb.

Definition sh_places (h : shared) : list nat := map sidof (h_pend h) ++ h_disp h ++ h_drop h.

Lemma tstep_places : forall t th h th' h', tstep t th h = Some (th', h') ->
  forall x, cnt (thr_unput th ++ thr_held th ++ sh_places h) x
          = cnt (thr_unput th' ++ thr_held th' ++ sh_places h') x.
Proof.
  intros u th h th' h' H x. destruct (tstep_spec _ _ _ _ _ H) as (l & h0 & -> & M). open_move M.
  all: try reflexivity.
  all: try match goal with Hp : pop_min _ _ = Some _ |- _ =>
             destruct (pop_min_some _ _ _ _ Hp) as (k1 & k2 & Ep & -> & _) end.
  all: unfold thr_unput, thr_held, sh_places, got, lbl, mk, after;
       cbn [t_pc t_prog pc_unput pc_held prog_sids flat_map act_sids app h_pend h_disp h_drop set];
       rewrite ?Ep; autorewrite with cntdb; cbn [map sidof snd e_sid]; autorewrite with cntdb; unfold sidof; cbn [snd]; lia.
Qed.

Definition all_sids (progs : list (list action)) : list nat := flat_map prog_sids progs.

Lemma places_split : forall l1 th l2 h x,
  cnt (places {| c_thr := l1 ++ th :: l2; c_sh := h |}) x =
  cnt (flat_map thr_unput l1) x + cnt (flat_map thr_unput l2) x +
  cnt (flat_map thr_held l1) x + cnt (flat_map thr_held l2) x +
  cnt (thr_unput th ++ thr_held th ++ sh_places h) x.
Proof.
  intros. unfold places, unput, held, pending, sh_places. cbn [c_thr c_sh].
  rewrite !flat_map_app. cbn [flat_map].
  change (map (fun x0 : nat * entry => e_sid (snd x0)) (h_pend h)) with (map sidof (h_pend h)).
  autorewrite with cntdb. lia.
Qed.

Lemma step_places : forall t st x, cnt (places (step t st)) x = cnt (places st) x.
Proof.
  intros t st x. destruct (stepP t st) as [t st|l1 th l2 h th' h' Ht]; [reflexivity|].
  rewrite !places_split, (tstep_places _ _ _ _ _ Ht x). reflexivity.
Qed.

Lemma init_places : forall progs, places (init progs) = all_sids progs.
Proof.
  intros. unfold places, unput, held, pending, init, all_sids. cbn [c_thr c_sh h0 h_pend h_disp h_drop map app].
  assert (H1 : forall l, flat_map thr_unput (map (fun p => mk p P0) l) = flat_map prog_sids l).
  { induction l as [|p l IH]; cbn; [reflexivity|]. now rewrite IH. }
  assert (H2 : forall l : list (list action), flat_map thr_held (map (fun p => mk p P0) l) = []).
  { induction l as [|p l IH]; cbn; auto. }
  rewrite H1, H2. apply app_nil_r.
Qed.

Lemma init_nth : forall progs t th, nth_error (c_thr (init progs)) t = Some th ->
  exists p, nth_error progs t = Some p /\ th = mk p P0.
Proof.
  intros progs t th H. cbn [init c_thr] in H. rewrite nth_error_map in H.
  destruct (nth_error progs t) as [p|]; inversion H. eauto.
Qed.

Lemma places_steps : forall sch st, Permutation (places (steps sch st)) (places st).
Proof.
  intros sch st. apply (Permutation_count_occ Nat.eq_dec). intros x. revert x.
  apply (steps_inv (fun s => forall x, cnt (places s) x = cnt (places st) x)); [|reflexivity].
  intros t s H x. rewrite step_places. apply H.
Qed.

Theorem conservation : forall progs sch, Permutation (places (steps sch (init progs))) (all_sids progs).
Proof.
  intros. etransitivity; [apply places_steps|]. rewrite init_places. reflexivity.
Qed.

Theorem no_duplication : forall progs sch, NoDup (all_sids progs) -> NoDup (places (steps sch (init progs))).
Proof. intros progs sch H. eapply Permutation_NoDup; [|exact H]. symmetry. apply conservation. Qed.


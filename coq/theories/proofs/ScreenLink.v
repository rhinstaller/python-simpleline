(* ScreenLink.v -- the link between the screen-layer world [sworld] (rebuilt from the events, ScreenMon.v)
   and the concrete screen-layer state [sstate] (ScreenSem.v), and the proof machinery to carry it
   through [exec (screen_code specs)].

   Part A (generic, any user state U / handler table):
     - [acc_tr]: a trace all of whose events are accepted by a screen-layer acceptor; [acc_sok];
     - [wp n p s Q]: a weakest-precondition style statement about [exec code f (CProg p) s] for every
       fuel f <= n: LoopHoare's [hoare] at the post-condition that asks only [Acc] of a run cut short ([wp_hoare]),
       with that file's rules for every constructor of [prog];
     - [loop_inv]: a predicate J on [lstate U] that depends on the trace and the user state only, is kept
       by the loop's own events and by every handler body (for fuel <= n), is kept by every
       loop-level call (for fuel <= S n): the instance of LoopHoare's [loop_step] in which the loop-level
       part of the state evolves independently of [ust].
   Part B (screen layer): [SW], the core of the world ([cw], [core], [cstep]), the invariant [Inv]
     (ideal stack = concrete stack, ...), one lemma per method of the screen layer, [exec_inv]; for whole
     sessions [app_accepted], and the link [slink] ([app_slink]) that C04 / C08 state. *)
From SL Require Import Tac.
From RecordUpdate Require Import RecordUpdate.
From SL Require Import PyInt LoopSem ScreenSem ScreenMon proofs.ListFacts proofs.ExecEqs proofs.ScreenFacts proofs.LoopHoare.
Import ListNotations.

Definition world_of (typed : list (option str)) (t : list event) : sworld :=
  fold_left sworld_step t (sworld0 typed).

(* [tr] is newest first, like [trace s] *)
Fixpoint acc_tr (chk : sworld -> event -> bool) (typed : list (option str)) (tr : list event) : Prop :=
  match tr with
  | [] => True
  | e :: r => acc_tr chk typed r /\ chk (world_of typed (rev r)) e = true
  end.

Lemma acc_run chk typed tr : acc_tr chk typed tr -> srun_mon chk (sworld0 typed) (rev tr) 0 = None.
Proof.
  induction tr as [|e r IH]; cbn [acc_tr rev]; [reflexivity|].
  intros [Hr He]. rewrite srun_mon_snoc, (IH Hr). unfold world_of in He. rewrite He. reflexivity.
Qed.

Lemma acc_sok chk typed tr : acc_tr chk typed tr -> sok chk typed (rev tr) = true.
Proof. intros H. unfold sok. rewrite (acc_run _ _ _ H). reflexivity. Qed.

Lemma acc_weaken (chk chk' : sworld -> event -> bool) typed tr :
  (forall w e, chk w e = true -> chk' w e = true) -> acc_tr chk typed tr -> acc_tr chk' typed tr.
Proof. intros Hw. induction tr as [|e r IH]; cbn [acc_tr]; [auto|]. intros [Hr He]. split; auto. Qed.

(* Part A *)
(* events the loop itself emits apart from EHandler / EHandlerEnd *)
Definition loop_event (e : event) : bool :=
  match e with
  | EHandler _ _ _ | EHandlerEnd _ _ _ | ETop | EUser _ _ _ | EMark _ => false
  | _ => true
  end.

(* the API calls that never run a handler *)
Definition simple_api (a : api) : bool :=
  match a with ANewLoop _ | ACloseLoop | AProcess _ => false | _ => true end.

Section Generic.
  Context {U : Type} (code : nat -> signal -> nat -> prog U).
  Implicit Types s : lstate U.

  Variable Acc : lstate U -> Prop.
  Hypothesis Acc_same : forall s s', trace s' = trace s -> Acc s -> Acc s'.

  Definition post (Q : outcome -> lstate U -> Prop) (o : outcome) (s' : lstate U) : Prop :=
    match o with OFuel | OBlocked => Acc s' | _ => Q o s' end.

  Lemma post_imp (Q Q' : outcome -> lstate U -> Prop) o s' :
    (forall o s', o <> OFuel -> o <> OBlocked -> Q o s' -> Q' o s') -> post Q o s' -> post Q' o s'.
  Proof. intros H. destruct o; cbn [post]; auto; apply H; discriminate. Qed.

  Definition wp (n : nat) (p : prog U) (s : lstate U) (Q : outcome -> lstate U -> Prop) : Prop :=
    Acc s /\ forall f, f <= n -> forall o s', exec code f (CProg p) s = (o, s') -> post Q o s'.

  Definition K (n : nat) (q : prog U) (Q : outcome -> lstate U -> Prop) : outcome -> lstate U -> Prop :=
    fun o s1 => match o with ONormal => wp n q s1 Q | _ => Q o s1 end.
  Definition KT (n : nat) (h : prog U) (Q : outcome -> lstate U -> Prop) : outcome -> lstate U -> Prop :=
    fun o s1 => match o with OThrow XError => wp n h s1 Q | _ => Q o s1 end.

  Lemma wp_hoare n p s Q : wp n p s Q <-> hoare code n (CProg p) s (post Q).
  Proof.
    split; [intros [_ H] f o s' Hf E; exact (H f Hf o s' E)|].
    intros H. split; [exact (hoare_fuel _ _ _ _ _ H)|]. intros f Hf o s' E. exact (H f o s' Hf E).
  Qed.

  Lemma wp_acc n p s Q : wp n p s Q -> Acc s.
  Proof using Acc_same. intros [H _]; exact H. Qed.

  Lemma wp_conseq n p s (Q Q' : outcome -> lstate U -> Prop) :
    wp n p s Q -> (forall o s', o <> OFuel -> o <> OBlocked -> Q o s' -> Q' o s') -> wp n p s Q'.
  Proof using Acc_same.
    intros H Himp. apply wp_hoare. apply wp_hoare in H. eapply hoare_conseq; [exact H|]. intros o s'. apply post_imp, Himp.
  Qed.

  Lemma wp_mono n m p s Q : m <= n -> wp n p s Q -> wp m p s Q.
  Proof using Acc_same. intros Hm H. apply wp_hoare. apply wp_hoare in H. exact (hoare_mono _ _ _ _ _ _ Hm H). Qed.

  Lemma wp_ret n s (Q : outcome -> lstate U -> Prop) : Acc s -> Q ONormal s -> wp n PRet s Q.
  Proof using Acc_same. intros HA HQ. apply wp_hoare, hoare_ret; assumption. Qed.

  Lemma wp_throw n x s (Q : outcome -> lstate U -> Prop) : Acc s -> Q (OThrow x) s -> wp n (PThrow x) s Q.
  Proof using Acc_same. intros HA HQ. apply wp_hoare, hoare_throw; assumption. Qed.

  (* [K], [KT]: the continuation of [hoare_seq], [hoare_try], seen through [post] *)
  Lemma wp_seq n p q s Q : wp n p s (K n q Q) -> wp n (PSeq p q) s Q.
  Proof using Acc_same.
    intros H. apply wp_hoare, hoare_seq. apply wp_hoare in H. eapply hoare_conseq; [exact H|].
    intros [] s1 H1; try exact H1. apply wp_hoare, H1.
  Qed.

  Lemma wp_try n p h s Q : wp n p s (KT n h Q) -> wp n (PTry p h) s Q.
  Proof using Acc_same.
    intros H. apply wp_hoare, hoare_try. apply wp_hoare in H. eapply hoare_conseq; [exact H|].
    intros [|[]| |] s1 H1; try exact H1. apply wp_hoare, H1.
  Qed.

  Lemma wp_st n (g : U -> U * prog U) s Q :
    wp n (snd (g (ust s))) (s <| ust := fst (g (ust s)) |>) Q -> wp n (PSt g) s Q.
  Proof using Acc_same.
    intros H. apply wp_hoare in H. apply wp_hoare, hoare_st; [|exact H].
    eapply Acc_same; [|exact (hoare_fuel _ _ _ _ _ H)]. reflexivity.
  Qed.

  Lemma wp_emit n e s (Q : outcome -> lstate U -> Prop) :
    Acc s -> Q ONormal (emit (user_event e) s) -> wp n (PEmit e) s Q.
  Proof using Acc_same. intros HA HQ. apply wp_hoare, hoare_emit; assumption. Qed.

  Lemma wp_while n c b s (Q : outcome -> lstate U -> Prop) (Iv : lstate U -> Prop) :
    Iv s -> (forall s1, Iv s1 -> Acc s1) ->
    (forall s1, Iv s1 -> c (ust s1) = true ->
                wp n b s1 (fun o s2 => match o with ONormal => Iv s2 | _ => Q o s2 end)) ->
    (forall s1, Iv s1 -> c (ust s1) = false -> Q ONormal s1) ->
    wp n (PWhile c b) s Q.
  Proof using Acc_same.
    intros HI HIA Hb Hex. apply wp_hoare, (hoare_while code n c b s (post Q) Iv HI HIA); [|exact Hex].
    intros s1 H1 Ec. eapply hoare_conseq; [apply wp_hoare, (Hb s1 H1 Ec)|]. intros [] s2 H2; exact H2.
  Qed.

  Lemma wp_api n a s Q : hoare code n (CApi a) s (post Q) -> wp n (PApi a) s Q.
  Proof using Acc_same. intros H. apply wp_hoare, hoare_api, H. Qed.

  Definition is_prog (c : call U) : bool := match c with CProg _ => true | _ => false end.

  (* The loop rule for an invariant J that depends on the trace and the user state only and is kept by the loop's own
     events: the loop-level part of the state evolves independently of [ust], so no relation between states, no side
     condition on signals is needed, and J survives SystemExit. *)
  Section LoopInv.
    Variable J : lstate U -> Prop.
    Hypothesis J_acc : forall s, J s -> Acc s.
    Hypothesis J_same : forall s s', trace s' = trace s -> ust s' = ust s -> J s -> J s'.
    Hypothesis J_ev : forall e s, loop_event e = true -> J s -> J (emit e s).

    Ltac ev := apply J_ev; [reflexivity|].
    Ltac same HJ := eapply J_same; [| |exact HJ]; reflexivity.

    Lemma J_do_enqueue s sg : J s -> J (do_enqueue s sg).
    Proof. intros H. unfold do_enqueue. destruct (force_quit s); ev; [exact H | same H]. Qed.

    Lemma J_new_signal s sp : J s -> J (snd (new_signal s sp)).
    Proof. intros H. cbn [new_signal snd]. ev. same H. Qed.

    Lemma simple_api_inv n a s :
      simple_api a = true -> J s -> hoare code n (CApi a) s (post (fun o s' => o = ONormal /\ J s')).
    Proof.
      intros Hs HJ. destruct (api_exact a s) as [s1|] eqn:X; [|destruct a; discriminate].
      apply (hoare_api_exact code n a s s1 _ X); [exact (J_acc s HJ)|]. split; [reflexivity|].
      destruct a; try discriminate Hs; injection X as <-.
      2-5: ev; same HJ.
      - apply J_do_enqueue, J_new_signal, HJ.
      - same HJ.
    Qed.

    Definition calls_keep (n : nat) : Prop :=
      forall c s, is_prog c = false -> J s -> hoare code n c s (post (fun _ => J)).

    Variable n : nat.
    Hypothesis L : calls_keep n.
    Hypothesis J_handler : forall hid sg data s, J s ->
      hoare code n (CProg (code hid sg data)) (emit (EHandler hid (sg_id sg) data) s)
            (post (fun o s' => J (emit (EHandlerEnd hid (sg_id sg) (how_of o)) s'))).

    Lemma loop_inv : calls_keep (S n).
    Proof.
      intros c s Hc HJ.
      destruct (match c with CApi a => simple_api a | _ => false end) eqn:Es.
      { destruct c as [| | | | | |a|]; try discriminate Es.
        eapply hoare_conseq; [exact (simple_api_inv (S n) a s Es HJ)|]. intros o s'. apply post_imp. intros o1 s1 _ _ [_ H]; exact H. }
      assert (LS : LoopSpec code Acc (fun _ => J) J (fun _ _ => True) (fun _ _ _ => True) (fun _ => True) (S n)).
      { apply loop_step; auto.   (* the rule's other hypotheses ask [True], or are [J_acc] *)
        - (* G_step *) intros s0 s1 Q ST H. split; [|split; [exact I|destruct ST; auto]].
          destruct ST as [s0 s1 (T & Us & _)|s0 e N|s0 p c0 sg q' _|s0 p c0 sg q' _|s0 sp r _ _|s0|s0 sp _|s0 sp _ _].
          + exact (J_same _ _ T Us H).
          + apply J_ev; [destruct e; try discriminate N; reflexivity|exact H].
          + ev. same H.
          + ev. same H.
          + apply J_do_enqueue. ev. ev. same H.
          + apply J_do_enqueue, J_new_signal, H.
          + apply J_new_signal, H.
          + apply J_do_enqueue. ev. eapply J_same; [| |exact (J_new_signal s0 sp H)]; reflexivity.
        - (* L *) intros c0 s0 LC H _. eapply hoare_conseq; [apply (L c0 s0); [destruct c0; try reflexivity; destruct LC|exact H]|].
          intros [|[]| |] s1 H1; cbn [ends post] in *; auto.
        - (* HK *) intros s0 sg idx hs hid data H _ _ _ _. eapply hoare_conseq; [exact (J_handler hid sg data s0 H)|].
          intros [|[]| |] s2 H2; cbn [post how_of] in *; auto. }
      eapply hoare_conseq; [apply (LS c s); [|exact HJ|destruct c; exact I]|].
      - destruct c as [| | | | | |a|]; try exact I; [destruct a; try discriminate Es; exact I|discriminate Hc].
      - intros [|[]| |] s1 H1; cbn [ends post] in *; tauto.
    Qed.
  End LoopInv.
End Generic.

(* Part B *)
Definition SW (typed : list (option str)) (s : lstate sstate) : sworld :=
  fold_left sworld_step (rev (trace s)) (sworld0 typed).

Lemma SW_emit typed e s : SW typed (emit e s) = sworld_step (SW typed s) e.
Proof. unfold SW, emit. cbn [trace set rev]. rewrite fold_left_app. reflexivity. Qed.

Lemma SW_same typed (s s' : lstate sstate) : trace s' = trace s -> SW typed s' = SW typed s.
Proof. unfold SW. intros ->. reflexivity. Qed.

(* the part of [sworld] that C04 / C08 read, and that evolves on its own *)
Record cw := mkc {
  c_stack : list entry; c_expect : list sexp; c_popped : bool; c_failed : option nat;
  c_ready : list nat; c_cpend : option nat; c_pframes : list pframe }.

Definition core (w : sworld) : cw :=
  mkc (sw_stack w) (sw_expect w) (sw_popped_modal w) (sw_failed w) (sw_ready w) (sw_closed_pending w) (sw_pframes w).

(* what one event does to each field of the core (to the stack: [stack_after] of proofs/ScreenFacts.v); a T_STACK event that
   is neither append nor add_first is a pop *)
Definition is_pop (tag : nat) (a : list nat) : bool :=
  (tag =? T_STACK)%nat && negb ((nth0 a 0 =? K_APPEND)%nat || (nth0 a 0 =? K_ADD_FIRST)%nat).

Definition expect_after (c : cw) (e : event) : list sexp :=
  match e with
  | EUser tag a _ =>
    if (tag =? T_OP)%nat then
      op_exp (nth0 a 0) (nth0 a 1) (nth0 a 2) match c_stack c with [] => false | _ => true end
    else if is_pop tag a then match c_expect c with XPop _ :: r => r | ex => ex end
    else if (tag =? T_STACK)%nat then tl (c_expect c) else c_expect c
  | EHandlerEnd _ _ _ | ETop => []
  | _ => c_expect c
  end.

Definition popped_after (c : cw) (e : event) : bool :=
  match e with EUser tag a _ => if is_pop tag a then (nth0 a 4 =? 1)%nat else c_popped c | _ => c_popped c end.

Definition failed_after (c : cw) (e : event) : option nat :=
  match e with
  | EUser tag a _ =>
    if is_pop tag a then None
    else if (tag =? T_SETUP)%nat && negb (nth0 a 3 =? 1)%nat then Some (nth0 a 0) else c_failed c
  | _ => c_failed c
  end.

Definition ready_after (c : cw) (e : event) : list nat :=
  match e with
  | EUser tag a _ => if (tag =? T_SETUP)%nat && (nth0 a 3 =? 1)%nat then nth0 a 1 :: c_ready c else c_ready c
  | _ => c_ready c
  end.

Definition cpend_after (c : cw) (e : event) : option nat :=
  match e with
  | EUser tag a _ =>
    if is_pop tag a then match c_expect c with XPop true :: _ => Some (nth0 a 1) | _ => c_cpend c end
    else if (tag =? T_CLOSED)%nat then None else c_cpend c
  | EHandlerEnd _ _ _ | ETop => None
  | _ => c_cpend c
  end.

Definition pframes_after (c : cw) (e : event) : list pframe :=
  let upd st id := match c_pframes c with _ :: r => {| pf_state := st; pf_id := id |} :: r | [] => [] end in
  match e with
  | EUser tag a _ =>
    if (tag =? T_REFRESH)%nat then upd 1 (nth0 a 0)
    else if (tag =? T_SHOW)%nat then upd 2 (nth0 a 0)
    else if (tag =? T_SETUP_BEGIN)%nat then upd 0 (S (nth0 a 0)) else c_pframes c
  | EHandler h _ _ => if (h =? H_RENDER)%nat then {| pf_state := 0; pf_id := 0 |} :: c_pframes c else c_pframes c
  | EHandlerEnd h _ _ => if (h =? H_RENDER)%nat then tl (c_pframes c) else c_pframes c
  | ETop => []
  | _ => c_pframes c
  end.

Definition cstep (c : cw) (e : event) : cw :=
  mkc (stack_after (c_stack c) e) (expect_after c e) (popped_after c e) (failed_after c e) (ready_after c e) (cpend_after c e)
      (pframes_after c e).
Arguments cstep _ _ /.

Lemma core_eta c : mkc (c_stack c) (c_expect c) (c_popped c) (c_failed c) (c_ready c) (c_cpend c) (c_pframes c) = c.
Proof. destruct c; reflexivity. Qed.

(* [user_step] is a cascade over the tag: in each branch the tag is known and both sides compute; below the cascade
   every test of the field functions fails *)
Lemma core_user w tag a text : core (user_step w tag a text) = cstep (core w) (EUser tag a text).
Proof.
  destruct w as [stk ex pm fl rdy cp pfs md rp rq bl ty ln ist pr ho rc fi mi er fo pu la].
  unfold user_step, cstep, stack_after, expect_after, popped_after, failed_after, ready_after, cpend_after, pframes_after,
    is_pop, entry_of_args.
  destruct (Nat.eqb_spec tag T_OP) as [->|_]; [reflexivity|].
  destruct (Nat.eqb_spec tag T_STACK) as [->|_].
  { destruct (nth0 a 0 =? K_APPEND)%nat; [destruct rp, (nth0 a 4 =? 1)%nat; reflexivity|].
    destruct (nth0 a 0 =? K_ADD_FIRST)%nat; [reflexivity|].
    destruct ex as [|[[]| |] r]; reflexivity. }
  destruct (Nat.eqb_spec tag T_SETUP) as [->|_]; [destruct pfs, (nth0 a 3 =? 1)%nat; reflexivity|].
  destruct (Nat.eqb_spec tag T_REFRESH) as [->|_]; [reflexivity|].
  destruct (Nat.eqb_spec tag T_SHOW) as [->|_]; [reflexivity|].
  destruct (Nat.eqb_spec tag T_CLOSED) as [->|_]; [reflexivity|].
  destruct (Nat.eqb_spec tag T_SETUP_BEGIN) as [->|_]; [reflexivity|].
  do 3 (destruct (tag =? _)%nat; [reflexivity|]).
  destruct (tag =? T_PROMPT)%nat; [destruct (nth0 a 1 =? 0)%nat; reflexivity|].
  destruct (tag =? T_READY)%nat.
  { cbv zeta. destruct (_ && negb _); [|reflexivity]. destruct (alookup _ _) as [[]|]; reflexivity. }
  do 2 (destruct (tag =? _)%nat; [reflexivity|]). reflexivity.
Qed.

Lemma core_step w e : core (sworld_step w e) = cstep (core w) e.
Proof.
  destruct e; cbn [sworld_step]; try reflexivity.
  - destruct (sw_follow w) as [[| [|[|?]] | | | | |]|]; try reflexivity; destruct (cls =? CLS_RENDER)%nat; reflexivity.
  - destruct (sw_follow w) as [[| [|[|?]] | | | | |]|]; reflexivity.
  - destruct (sw_follow w) as [[| [|[|?]] | | | | |]|]; reflexivity.
  - unfold cstep, pframes_after. destruct (hid =? H_RENDER)%nat; [reflexivity|]. destruct (hid =? H_RECEIVED)%nat; [|reflexivity].
    destruct (sw_istack w); reflexivity.
  - unfold cstep, pframes_after. destruct (hid =? H_RENDER)%nat; reflexivity.
  - apply core_user.
Qed.

Lemma stack_step w e : sw_stack (sworld_step w e) = stack_after (sw_stack w) e.
Proof. exact (f_equal c_stack (core_step w e)). Qed.
Lemma expect_step w e : sw_expect (sworld_step w e) = expect_after (core w) e.
Proof. exact (f_equal c_expect (core_step w e)). Qed.
Lemma popped_step w e : sw_popped_modal (sworld_step w e) = popped_after (core w) e.
Proof. exact (f_equal c_popped (core_step w e)). Qed.
Lemma failed_step w e : sw_failed (sworld_step w e) = failed_after (core w) e.
Proof. exact (f_equal c_failed (core_step w e)). Qed.
Lemma ready_step w e : sw_ready (sworld_step w e) = ready_after (core w) e.
Proof. exact (f_equal c_ready (core_step w e)). Qed.
Lemma cpend_step w e : sw_closed_pending (sworld_step w e) = cpend_after (core w) e.
Proof. exact (f_equal c_cpend (core_step w e)). Qed.
Lemma pframes_step w e : sw_pframes (sworld_step w e) = pframes_after (core w) e.
Proof. exact (f_equal c_pframes (core_step w e)). Qed.

Definition ctop (c : cw) : option entry := match c_stack c with e :: _ => Some e | [] => None end.
Definition cin_setup_of (c : cw) (id : nat) : bool :=
  match c_pframes c with f :: _ => (pf_state f =? 0)%nat && (pf_id f =? S id)%nat | [] => false end.

(* [chk_C04], [chk_C08] on the core, copied line for line ([chk04_core], [chk08_core]: by computation): the symbolic walk
   knows the core of the world and nothing else of it, so the acceptors must be functions of the core *)
Definition cchk04 (c : cw) (e : event) : bool :=
  match e with
  | EUser tag a _ =>
    if (tag =? T_STACK)%nat then
      let kind := nth0 a 0 in
      if (kind =? K_APPEND)%nat then
        match c_expect c with
        | XAppend s ar m :: _ =>
          (nth0 a 2 =? s)%nat && (nth0 a 3 =? ar)%nat &&
          Bool.eqb (nth0 a 4 =? 1)%nat (match m with Some b => b | None => c_popped c end) &&
          negb (existsb (fun x => (en_id x =? nth0 a 1)%nat) (c_stack c))
        | _ => false
        end
      else if (kind =? K_ADD_FIRST)%nat then
        match c_expect c with
        | XAddFirst s ar :: _ => (nth0 a 2 =? s)%nat && (nth0 a 3 =? ar)%nat && (nth0 a 4 =? 0)%nat
        | _ => false
        end
      else
        match ctop c with
        | Some t =>
          (en_id t =? nth0 a 1)%nat &&
          match c_expect c with
          | XPop _ :: _ => true
          | [] => match c_failed c with Some f => (f =? en_id t)%nat | None => false end
          | _ => false
          end
        | None => false
        end
    else if (tag =? T_OP)%nat then match c_expect c with [] => true | _ => false end
    else if (tag =? T_SETUP)%nat || (tag =? T_REFRESH)%nat || (tag =? T_SHOW)%nat || (tag =? T_SETUP_BEGIN)%nat then
      match ctop c with
      | Some t => (en_id t =? nth0 a 0)%nat && (en_scr t =? nth0 a 1)%nat
      | None => false
      end || (negb (tag =? T_SHOW)%nat && negb (tag =? T_SETUP_BEGIN)%nat && cin_setup_of c (nth0 a 0))
    else if (tag =? T_SEPARATOR)%nat then
      match ctop c with Some t => (en_scr t =? nth0 a 0)%nat | None => false end
    else true
  | _ => true
  end.

Definition cchk08 (c : cw) (e : event) : bool :=
  (match c_cpend c, e with
   | Some id, EUser tag a _ => (tag =? T_CLOSED)%nat && (nth0 a 0 =? id)%nat
   | _, _ => true end) &&
  match e with
  | EUser tag a _ =>
    let args_ok := match ctop c with Some t => (en_args t =? nth0 a 2)%nat | None => false end in
    if (tag =? T_SETUP)%nat then
      (negb (mem (nth0 a 1) (c_ready c)) && args_ok || cin_setup_of c (nth0 a 0)) &&
      match c_pframes c with f :: _ => (pf_state f =? 0)%nat | [] => false end
    else if (tag =? T_SETUP_BEGIN)%nat then
      negb (mem (nth0 a 1) (c_ready c)) && args_ok &&
      match c_pframes c with f :: _ => (pf_state f =? 0)%nat && (pf_id f =? 0)%nat | [] => false end &&
      match c_failed c with Some _ => false | None => true end
    else if (tag =? T_REFRESH)%nat then
      mem (nth0 a 1) (c_ready c) && (args_ok || cin_setup_of c (nth0 a 0)) &&
      match c_pframes c with f :: _ => (pf_state f =? 0)%nat | [] => false end
    else if (tag =? T_SHOW)%nat then
      match c_pframes c with f :: _ => (pf_state f =? 1)%nat && (pf_id f =? nth0 a 0)%nat | [] => false end
    else if (tag =? T_CLOSED)%nat then
      match c_cpend c with Some id => (id =? nth0 a 0)%nat | None => false end
    else if (tag =? T_STACK)%nat && (nth0 a 0 =? K_POP)%nat then
      match c_failed c with Some f => (f =? nth0 a 1)%nat | None => true end
    else match c_failed c with Some _ => false | None => true end
  | _ => true
  end.

Lemma chk04_core w e : chk_C04 w e = cchk04 (core w) e.
Proof. reflexivity. Qed.
Lemma chk08_core w e : chk_C08 w e = cchk08 (core w) e.
Proof. reflexivity. Qed.

(* both acceptors at once; [b] = with C08 (which needs well-formed screen ids, see [wf_session]) *)
Definition chkb (b : bool) (w : sworld) (e : event) : bool := chk_C04 w e && (if b then chk_C08 w e else true).
Definition cchk (b : bool) (c : cw) (e : event) : bool := cchk04 c e && (if b then cchk08 c e else true).
Lemma chkb_core b w e : chkb b w e = cchk b (core w) e.
Proof. reflexivity. Qed.

Lemma cstep_loop_event c e : loop_event e = true -> cstep c e = c.
Proof. destruct e; try discriminate; intros _; apply core_eta. Qed.
Lemma cchk_not_user b c e : match e with EUser _ _ _ => False | _ => True end -> cchk b c e = true.
Proof. destruct e; intros H; try destruct H; unfold cchk, cchk08; cbn [cchk04]; destruct b, (c_cpend c); reflexivity. Qed.

(* every screen pushed / scheduled has a slot in [st_scr] (in the Python every screen is an object of its own) *)
Fixpoint scmd_wf (n : nat) (c : scmd) : bool :=
  match c with
  | SPush s _ | SPushModal s _ | SReplace s _ | SSchedule s _ => (s <? n)%nat
  | SIfCount _ t e => forallb (scmd_wf n) t && forallb (scmd_wf n) e
  | _ => true
  end.
Definition spec_wf (n : nat) (sp : screen_spec) : bool :=
  forallb (scmd_wf n) (sc_refresh sp) && forallb (scmd_wf n) (sc_show sp) && forallb (scmd_wf n) (sc_closed sp) &&
  forallb (fun kv => forallb (scmd_wf n) (fst (snd kv))) (sc_input sp) &&
  forallb (scmd_wf n) (fst (sc_input_default sp)) &&
  forallb (forallb (scmd_wf n)) (sc_custom sp) &&
  forallb (scmd_wf n) (sc_setup_cmds sp).
Definition saction_wf (n : nat) (a : saction) : bool :=
  match a with SACmds l => forallb (scmd_wf n) l | SARun => true end.
Definition wf_session (specl : list screen_spec) (quit : option nat) (acts : list saction) : bool :=
  forallb (spec_wf (length specl)) specl &&
  match quit with Some q => (q <? length specl)%nat | None => true end &&
  forallb (saction_wf (length specl)) acts.

(* the hypothesis about setup() with commands: a setup() that can report failure does nothing else.  (A setup() that
   changes the stack and then reports failure makes the scheduler discard the wrong entry: C08_failed_setup_after_push_refuted) *)
Definition failing_setup_plain (specs : nat -> screen_spec) : Prop :=
  forall s, In false (sc_setup (specs s)) -> sc_setup_cmds (specs s) = [].

Lemma nth_last_false l n : nth_last l n = false -> In false l.
Proof.
  unfold nth_last. destruct l as [|a l']; [discriminate|]. intros H. rewrite <- H.
  destruct (Nat.lt_ge_cases n (length (a :: l'))) as [Hlt|Hge].
  - apply nth_In. exact Hlt.
  - rewrite nth_overflow by exact Hge. apply last_in. discriminate.
Qed.

Definition ent_of (d : sdata) : entry :=
  {| en_id := sd_id d; en_scr := sd_scr d; en_args := sd_args d; en_modal := sd_modal d |}.

Section Screens.
  Variable typed : list (option str).
  Variable b : bool.                       (* true: C04 and C08; false: C04 only *)
  Variable specs : nat -> screen_spec.
  Hypothesis Hfsp : failing_setup_plain specs.
  Variable nscr : nat.
  Hypothesis Hwf : b = true -> forall x, spec_wf nscr (specs x) = true.

  Notation code := (screen_code specs).
  Implicit Types s : lstate sstate.
  Implicit Types u : sstate.

  Definition Acc (s : lstate sstate) : Prop := acc_tr (chkb b) typed (trace s).

  Lemma Acc_same s s' : trace s' = trace s -> Acc s -> Acc s'.
  Proof. unfold Acc. intros ->. auto. Qed.

  Lemma Acc_emit s e : Acc s -> cchk b (core (SW typed s)) e = true -> Acc (emit e s).
  Proof. intros HA Hc. unfold Acc, emit. cbn [trace set acc_tr]. split; [exact HA|]. rewrite chkb_core. exact Hc. Qed.

  Notation wp := (wp code Acc).
  Notation K := (K code Acc).
  Notation KT := (KT code Acc).

  (* symbolic execution on (core, ust) *)
  Definition at_cu (c : cw) (u : sstate) (s : lstate sstate) : Prop :=
    Acc s /\ core (SW typed s) = c /\ ust s = u.
  Definition wpc (n : nat) (p : sprog) (c : cw) (u : sstate) (Q : outcome -> lstate sstate -> Prop) : Prop :=
    forall s, at_cu c u s -> wp n p s Q.
  Definition Qat (o : outcome) (c : cw) (u : sstate) (Q : outcome -> lstate sstate -> Prop) : Prop :=
    forall s, at_cu c u s -> Q o s.

  Lemma at_cu_same c u s s' : trace s' = trace s -> ust s' = ust s -> at_cu c u s -> at_cu c u s'.
  Proof.
    intros Ht Hu (HA & Hc & Hs). split; [|split].
    - eapply Acc_same; eauto.
    - rewrite (SW_same _ _ _ Ht). exact Hc.
    - congruence.
  Qed.

  Lemma at_cu_emit c u s e : cchk b c e = true -> at_cu c u s -> at_cu (cstep c e) u (emit e s).
  Proof.
    intros Hk (HA & Hc & Hs). split; [|split].
    - apply Acc_emit; [exact HA|]. rewrite Hc. exact Hk.
    - rewrite SW_emit, core_step, Hc. reflexivity.
    - exact Hs.
  Qed.

  Lemma at_cu_loop_event c u s e : loop_event e = true -> at_cu c u s -> at_cu c u (emit e s).
  Proof.
    intros He H. rewrite <- (cstep_loop_event c e He). apply at_cu_emit; [|exact H].
    apply cchk_not_user. destruct e; try discriminate He; exact I.
  Qed.

  Lemma wpc_ret n c u Q : Qat ONormal c u Q -> wpc n PRet c u Q.
  Proof. intros H s Hs. apply (wp_ret code Acc Acc_same); [exact (proj1 Hs) | exact (H s Hs)]. Qed.

  Lemma wpc_throw n x c u Q : Qat (OThrow x) c u Q -> wpc n (PThrow x) c u Q.
  Proof. intros H s Hs. apply (wp_throw code Acc Acc_same); [exact (proj1 Hs) | exact (H s Hs)]. Qed.

  Lemma wpc_seq n p q c u Q : wpc n p c u (K n q Q) -> wpc n (PSeq p q) c u Q.
  Proof. intros H s Hs. apply (wp_seq code Acc Acc_same). exact (H s Hs). Qed.

  Lemma wpc_try n p h c u Q : wpc n p c u (KT n h Q) -> wpc n (PTry p h) c u Q.
  Proof. intros H s Hs. apply (wp_try code Acc Acc_same). exact (H s Hs). Qed.

  Lemma wpc_st n (g : sstate -> sstate * sprog) c u Q :
    wpc n (snd (g u)) c (fst (g u)) Q -> wpc n (PSt g) c u Q.
  Proof.
    intros H s Hs. apply (wp_st code Acc Acc_same).
    assert (Hu : ust s = u) by exact (proj2 (proj2 Hs)). rewrite Hu. apply H.
    destruct Hs as (HA & Hc & _). split; [|split]; [eapply Acc_same; [|exact HA]; reflexivity | exact Hc | reflexivity].
  Qed.

  Lemma wpc_rd n (f : sstate -> sprog) c u Q : wpc n (f u) c u Q -> wpc n (rd f) c u Q.
  Proof. intros H. apply wpc_st. exact H. Qed.

  Lemma wpc_wr n (g : sstate -> sstate) c u Q : Qat ONormal c (g u) Q -> wpc n (wr g) c u Q.
  Proof. intros H. apply wpc_st. cbn [fst snd]. apply wpc_ret. exact H. Qed.

  Lemma wpc_new_sd n sc a m k c u Q :
    wpc n (k {| sd_id := st_next_sd u; sd_scr := sc; sd_args := a; sd_modal := m |}) c (u <| st_next_sd := S (st_next_sd u) |>) Q ->
    wpc n (new_sd sc a m k) c u Q.
  Proof. intros H. apply wpc_rd, wpc_seq, wpc_wr. exact H. Qed.

  Lemma wpc_emit n e c c' u Q :
    cchk b c (user_event e) = true -> cstep c (user_event e) = c' -> Qat ONormal c' u Q -> wpc n (PEmit e) c u Q.
  Proof.
    intros Hk <- H s Hs. apply (wp_emit code Acc Acc_same); [exact (proj1 Hs)|]. apply H. apply at_cu_emit; assumption.
  Qed.

  Lemma wpc_api_simple n a c u Q : simple_api a = true -> Qat ONormal c u Q -> wpc n (PApi a) c u Q.
  Proof.
    intros Ha H s Hs. apply (wp_api code Acc Acc_same).
    eapply hoare_conseq; [exact (simple_api_inv code Acc (at_cu c u) (fun s1 H1 => proj1 H1) (at_cu_same c u)
                                   (fun e s1 He H1 => at_cu_loop_event c u s1 e He H1) n a s Ha Hs)|].
    intros o s'. apply post_imp. intros o1 s1 _ _ [-> H1]. apply H, H1.
  Qed.

  Lemma Qat_wpc n q c u Q : wpc n q c u Q -> Qat ONormal c u (K n q Q).
  Proof. intros H. exact H. Qed.

  Lemma wpc_conseq n p c u (Q Q' : outcome -> lstate sstate -> Prop) :
    wpc n p c u Q -> (forall o s', o <> OFuel -> o <> OBlocked -> Q o s' -> Q' o s') -> wpc n p c u Q'.
  Proof. intros H Hi s Hs. eapply (wp_conseq code Acc Acc_same); [exact (H s Hs) | exact Hi]. Qed.

  (* The invariant.  [Lk]: the ids on the concrete stack are distinct and below the counter, so the id a push takes is not
     on the stack.  [PP N l]: a mark taken when a _process_screen starts ([G_mark]: the counter and the stack then): an entry
     on the stack with an id below N was in l, so after refresh() ran any commands a top entry with the old top's id is the
     old top ([ready_wpc]); [Ps] has one mark, [pf] one frame, per open _process_screen (they nest under a modal push).
     [RD] is what C08 needs, hence under [b = true]: [rdy] lists the screens with [ss_ready], every screen met has one of the
     [nscr] slots of [st_scr] (else setting the flag is lost); under [b = false] it is vacuous and [nscr] unused: C04 takes
     [Inv typed false 0].  [IC]: the core at rest (ideal stack = concrete stack, nothing expected, failed or awaiting
     closed()); [Inv]: and the trace accepted; [QI] / [QF]: [Inv] again, for [QF] with the top frame (its own) changed. *)
  Definition Lk (u : sstate) : Prop :=
    NoDup (map sd_id (st_stack u)) /\ Forall (fun d => sd_id d < st_next_sd u) (st_stack u).
  Definition PP (N : nat) (l : list sdata) (u : sstate) : Prop :=
    N <= st_next_sd u /\ forall d, In d (st_stack u) -> sd_id d < N -> In d l.
  Definition PPs (Ps : list (nat * list sdata)) (u : sstate) : Prop := Forall (fun p => PP (fst p) (snd p) u) Ps.
  Definition RD (rdy : list nat) (u : sstate) : Prop :=
    b = true ->
    (forall x, mem x rdy = ss_ready (scr_of u x)) /\ length (st_scr u) = nscr /\
    Forall (fun d => sd_scr d < nscr) (st_stack u) /\ (forall q, st_quit u = Some q -> q < nscr).

  Definition G (Ps : list (nat * list sdata)) (rdy : list nat) (u : sstate) : Prop := Lk u /\ PPs Ps u /\ RD rdy u.

  Definition IC (Ps : list (nat * list sdata)) (pf : list pframe) (c : cw) (u : sstate) : Prop :=
    exists pm rdy, c = mkc (map ent_of (st_stack u)) [] pm None rdy None pf /\ G Ps rdy u.

  Definition Inv (Ps : list (nat * list sdata)) (pf : list pframe) (s : lstate sstate) : Prop :=
    Acc s /\ IC Ps pf (core (SW typed s)) (ust s).

  Definition QI (Ps : list (nat * list sdata)) (pf : list pframe) : outcome -> lstate sstate -> Prop :=
    fun _ s' => Inv Ps pf s'.

  Lemma Inv_IC Ps pf c u s : at_cu c u s -> IC Ps pf c u -> Inv Ps pf s.
  Proof. intros (HA & Hc & Hu) HI. split; [exact HA|]. rewrite Hc, Hu. exact HI. Qed.

  Lemma Qat_QI o Ps pf c u : IC Ps pf c u -> Qat o c u (QI Ps pf).
  Proof. intros H s Hs. exact (Inv_IC Ps pf c u s Hs H). Qed.

  Definition QF (Ps : list (nat * list sdata)) (pf : list pframe) : outcome -> lstate sstate -> Prop :=
    fun _ s' => exists fr, Inv Ps (fr :: pf) s'.

  Lemma Qat_QF o Ps pf fr c u : IC Ps (fr :: pf) c u -> Qat o c u (QF Ps pf).
  Proof. intros H s Hs. exists fr. apply (Qat_QI o Ps (fr :: pf) c u H s Hs). Qed.

  Lemma Inv_at Ps pf s : Inv Ps pf s -> at_cu (core (SW typed s)) (ust s) s.
  Proof. intros [HA _]. split; [exact HA|]. split; reflexivity. Qed.

  (* the loop's own events and the handler brackets act on the open frames only *)
  Lemma Inv_emit Ps pf pf' e s :
    match e with EUser _ _ _ => False | _ => True end ->
    (forall c, c_pframes c = pf -> c_pframes (cstep c e) = pf') ->
    Inv Ps pf s -> Inv Ps pf' (emit e s).
  Proof.
    intros He Hpf HI. destruct (at_cu_emit _ _ _ e (cchk_not_user b _ e He) (Inv_at Ps pf s HI)) as (HA' & Hc' & Hu').
    split; [exact HA'|]. rewrite Hc', Hu'. destruct HI as [_ (pm & rdy & -> & HG)]. exists pm, rdy. split; [|exact HG].
    rewrite <- (Hpf (mkc (map ent_of (st_stack (ust s))) [] pm None rdy None pf) eq_refl).
    destruct e; try destruct He; cbn [cstep c_pframes]; try reflexivity; destruct (_ =? _)%nat; reflexivity.
  Qed.

  Record spec (n : nat) (p : sprog) : Prop :=
    { spec_wp : forall Ps pf s, Inv Ps pf s -> wp n p s (QI Ps pf) }.

  (* a postcondition that [Inv] implies: what is left to do once the core is at rest again keeps [Inv].  The lemmas about
     the methods that are walked event by event ([push_wpc], [call_refresh_wpc], [call_show_all_wpc], [draw_screen_wpc]) are
     stated for any such postcondition, so that they apply wherever the method is called; a [spec] reaches one by [wp_tail] *)
  Definition tail (Ps : list (nat * list sdata)) (pf : list pframe) (Q : outcome -> lstate sstate -> Prop) : Prop :=
    forall o s, o <> OFuel -> o <> OBlocked -> Inv Ps pf s -> Q o s.

  Lemma tail_QI Ps pf : tail Ps pf (QI Ps pf).
  Proof. intros o s _ _ H. exact H. Qed.

  Lemma tail_QF Ps pf fr : tail Ps (fr :: pf) (QF Ps pf).
  Proof. intros o s _ _ H. exists fr. exact H. Qed.

  Lemma wp_tail n p Ps pf s Q : spec n p -> tail Ps pf Q -> Inv Ps pf s -> wp n p s Q.
  Proof. intros Hp HQ HI. eapply (wp_conseq code Acc Acc_same); [exact (spec_wp _ _ Hp Ps pf s HI) | exact HQ]. Qed.

  Lemma tail_K n q Ps pf Q : spec n q -> tail Ps pf Q -> tail Ps pf (K n q Q).
  Proof. intros Hq HQ o s H1 H2 HI. destruct o; [eapply wp_tail; eassumption | apply HQ; assumption ..]. Qed.

  Lemma tail_KT n h Ps pf Q : spec n h -> tail Ps pf Q -> tail Ps pf (KT n h Q).
  Proof.
    intros Hh HQ o s H1 H2 HI. destruct o as [|[]| |]; try (apply HQ; assumption). eapply wp_tail; eassumption.
  Qed.

  Lemma wpc_tail n p Ps pf c u Q : spec n p -> tail Ps pf Q -> IC Ps pf c u -> wpc n p c u Q.
  Proof. intros Hp HQ HI s Hs. apply (wp_tail n p Ps pf); [assumption..|]. exact (Inv_IC _ _ _ _ _ Hs HI). Qed.

  (* _get_last_screen at rest: on an empty stack ExitMainLoop ends the method, and the invariant still holds *)
  Lemma with_top_wpc n k Ps pf c u Q :
    IC Ps pf c u -> tail Ps pf Q -> (forall top r, st_stack u = top :: r -> wpc n (k top) c u Q) -> wpc n (with_top k) c u Q.
  Proof.
    intros HI HQ Hk. unfold with_top. apply wpc_rd. destruct (st_stack u) as [|top r]; [|exact (Hk top r eq_refl)].
    apply wpc_throw. intros s Hs. apply HQ; [discriminate..|exact (Inv_IC _ _ _ _ _ Hs HI)].
  Qed.

  (* [tail_K] when what follows is walked from the state at rest *)
  Lemma tail_K_wpc n q Ps pf (Q : outcome -> lstate sstate -> Prop) :
    (forall x s, Inv Ps pf s -> Q (OThrow x) s) -> (forall c u, IC Ps pf c u -> wpc n q c u Q) -> tail Ps pf (K n q Q).
  Proof.
    intros HQ Hq o s H1 H2 HI. destruct o; [exact (Hq _ _ (proj2 HI) s (Inv_at Ps pf s HI)) | apply HQ; exact HI | congruence..].
  Qed.

  Lemma spec_intro n p :
    (forall Ps pf c u, IC Ps pf c u -> wpc n p c u (QI Ps pf)) -> spec n p.
  Proof. intros H. split. intros Ps pf s HI. apply (H Ps pf _ _ (proj2 HI)). apply (Inv_at Ps pf). exact HI. Qed.

  Definition quiet_tag (tag : nat) : bool :=
    (tag =? T_PROMPT)%nat || (tag =? T_INPUT)%nat || (tag =? T_MODAL_RETURN)%nat || (tag =? T_REFUSED)%nat ||
    (tag =? T_READY)%nat || (tag =? T_GOT)%nat || (tag =? T_MARK)%nat || (tag =? T_ASK)%nat ||
    (tag =? T_REQ)%nat || (tag =? T_ACTION)%nat || (tag =? T_WAITED)%nat || (tag =? T_CUSTOM)%nat.

  Lemma quiet_tag_cases tag : quiet_tag tag = true ->
    tag = T_PROMPT \/ tag = T_INPUT \/ tag = T_MODAL_RETURN \/ tag = T_REFUSED \/ tag = T_READY \/ tag = T_GOT \/
    tag = T_MARK \/ tag = T_ASK \/ tag = T_REQ \/ tag = T_ACTION \/ tag = T_WAITED \/ tag = T_CUSTOM.
  Proof. unfold quiet_tag. rewrite !orb_true_iff, !Nat.eqb_eq. tauto. Qed.

  Lemma cstep_quiet c tag a t : quiet_tag tag = true -> cstep c (EUser tag a t) = c.
  Proof.
    intros H. apply quiet_tag_cases in H.
    repeat (destruct H as [H|H]; [subst tag; apply core_eta|]). subst tag; apply core_eta.
  Qed.

  Lemma cchk_quiet st pm rdy pf tag a t :
    quiet_tag tag = true -> cchk b (mkc st [] pm None rdy None pf) (EUser tag a t) = true.
  Proof.
    intros H. apply quiet_tag_cases in H.
    repeat (destruct H as [H|H]; [subst tag; destruct b; reflexivity|]). subst tag; destruct b; reflexivity.
  Qed.

  Lemma wpc_emit_quiet n tag a t st pm rdy pf u Q :
    quiet_tag tag = true ->
    Qat ONormal (mkc st [] pm None rdy None pf) u Q ->
    wpc n (PEmit (EUser tag a t)) (mkc st [] pm None rdy None pf) u Q.
  Proof.
    intros Hq H. eapply wpc_emit; [apply cchk_quiet; exact Hq | apply cstep_quiet; exact Hq | exact H].
  Qed.

  (* the view of [ust] the invariant reads *)
  Definition uview_eq (u u' : sstate) : Prop :=
    st_stack u' = st_stack u /\ st_next_sd u' = st_next_sd u /\ st_quit u' = st_quit u /\
    length (st_scr u') = length (st_scr u) /\ forall x, ss_ready (scr_of u' x) = ss_ready (scr_of u x).

  Lemma uview_refl u : uview_eq u u.
  Proof. repeat split. Qed.

  (* what a stack operation leaves alone *)
  Definition same_rest (u u' : sstate) : Prop :=
    st_quit u' = st_quit u /\ length (st_scr u') = length (st_scr u) /\
    forall x, ss_ready (scr_of u' x) = ss_ready (scr_of u x).

  (* of the screens' slots the invariant reads the ready flags only *)
  Lemma same_rest_intro u u' :
    st_quit u' = st_quit u -> map ss_ready (st_scr u') = map ss_ready (st_scr u) -> same_rest u u'.
  Proof.
    intros Eq Er. split; [exact Eq|]. split; [rewrite <- (map_length ss_ready), Er; apply map_length|].
    intros x. unfold scr_of. rewrite <- !(map_nth ss_ready), Er. reflexivity.
  Qed.

  Lemma uview_intro u u' : st_stack u' = st_stack u -> st_next_sd u' = st_next_sd u -> same_rest u u' -> uview_eq u u'.
  Proof. intros Es En Er. split; [exact Es|]. split; [exact En | exact Er]. Qed.

  Lemma Lk_view u u' : uview_eq u u' -> Lk u -> Lk u'.
  Proof. intros (E1 & E2 & _) [H1 H2]. unfold Lk. rewrite E1, E2. split; assumption. Qed.
  Lemma PP_view N l u u' : uview_eq u u' -> PP N l u -> PP N l u'.
  Proof. intros (E1 & E2 & _) [H1 H2]. unfold PP. rewrite E1, E2. split; assumption. Qed.
  Lemma PPs_view Ps u u' : uview_eq u u' -> PPs Ps u -> PPs Ps u'.
  Proof. intros E H. unfold PPs in *. eapply Forall_impl; [|exact H]. intros p. apply PP_view; exact E. Qed.
  Lemma RD_stack rdy u u' :
    same_rest u u' -> (b = true -> Forall (fun d => sd_scr d < nscr) (st_stack u) -> Forall (fun d => sd_scr d < nscr) (st_stack u')) ->
    RD rdy u -> RD rdy u'.
  Proof.
    intros (E3 & E4 & E5) Hs H Hb. destruct (H Hb) as (R1 & R2 & R3 & R4).
    rewrite E3, E4. repeat split; auto. intros x. rewrite E5. apply R1.
  Qed.

  Lemma RD_view rdy u u' : uview_eq u u' -> RD rdy u -> RD rdy u'.
  Proof. intros (E1 & _ & Er). apply (RD_stack rdy u u' Er). intros _. rewrite E1. auto. Qed.

  Lemma G_view Ps rdy u u' : uview_eq u u' -> G Ps rdy u -> G Ps rdy u'.
  Proof.
    intros E (H1 & H2 & H3). split; [|split].
    - eapply Lk_view; eauto.
    - eapply PPs_view; eauto.
    - eapply RD_view; eauto.
  Qed.

  Lemma IC_intro Ps pf st pm rdy u : st = map ent_of (st_stack u) -> G Ps rdy u -> IC Ps pf (mkc st [] pm None rdy None pf) u.
  Proof. intros -> H. exists pm, rdy. split; [reflexivity | exact H]. Qed.

  Lemma IC_view Ps pf st pm rdy u u' :
    uview_eq u u' -> st = map ent_of (st_stack u) -> G Ps rdy u -> IC Ps pf (mkc st [] pm None rdy None pf) u'.
  Proof.
    intros E -> H. apply IC_intro; [destruct E as (-> & _); reflexivity | eapply G_view; eauto].
  Qed.

  Ltac qstep :=
    lazymatch goal with
    | |- Qat ONormal ?c ?u (K ?n ?q ?Q) => change (wpc n q c u Q)
    | |- Qat (OThrow ?x) ?c ?u (K ?n ?q ?Q) => change (Qat (OThrow x) c u Q); qstep
    | |- Qat ONormal ?c ?u (KT ?n ?h ?Q) => change (Qat ONormal c u Q); qstep
    | |- Qat (OThrow XError) ?c ?u (KT ?n ?h ?Q) => change (wpc n h c u Q)
    | |- Qat (OThrow XExit) ?c ?u (KT ?n ?h ?Q) => change (Qat (OThrow XExit) c u Q); qstep
    | |- Qat (OThrow XSysExit) ?c ?u (KT ?n ?h ?Q) => change (Qat (OThrow XSysExit) c u Q); qstep
    | |- Qat _ _ _ (QI _ _) => apply Qat_QI
    | |- Qat _ _ _ (QF _ _) => eapply Qat_QF
    | |- _ => idtac
    end.

  Ltac wstep :=
    lazymatch goal with
    | |- wpc _ (PSeq _ _) _ _ _ => apply wpc_seq
    | |- wpc _ (PTry _ _) _ _ _ => apply wpc_try
    | |- wpc _ (PSt _) _ _ _ => apply wpc_st; cbn [fst snd]
    | |- wpc _ (rd _) _ _ _ => apply wpc_rd
    | |- wpc _ (wr _) _ _ _ => apply wpc_wr; cbv beta; qstep
    | |- wpc _ PRet _ _ _ => apply wpc_ret; qstep
    | |- wpc _ (PThrow _) _ _ _ => apply wpc_throw; qstep
    | |- wpc _ (ev ?t _) _ _ _ => unfold ev at 1; wstep
    | |- wpc _ (evt ?t _ _) _ _ _ => unfold evt at 1; wstep
    | |- wpc _ (PEmit (EUser _ _ _)) _ _ _ => apply wpc_emit_quiet; [reflexivity | qstep]
    | |- wpc _ (PApi _) _ _ _ => apply wpc_api_simple; [reflexivity | qstep]
    | |- wpc _ sched_redraw _ _ _ => unfold sched_redraw; wstep
    | |- wpc _ raise_exception_signal _ _ _ => unfold raise_exception_signal; wstep
    end.

  Ltac ic_open H pm rdy HG := destruct H as (pm & rdy & -> & HG).

  (* [uview_eq] or [same_rest] between a state and the same state with fields set: each field the view reads is untouched,
     or is [st_scr] with slots updated by functions that keep [ss_ready] ([map_upd_nth]) *)
  Ltac view_solve :=
    lazymatch goal with
    | |- uview_eq _ _ => apply uview_intro; [| |apply same_rest_intro]
    | |- same_rest _ _ => apply same_rest_intro
    end; cbn [st_stack st_next_sd st_quit st_scr set upd_ih upd_scr]; rewrite ?map_upd_nth by reflexivity; reflexivity.

  (* ids are never reused: u' extends u *)
  Definition uext (u u' : sstate) : Prop :=
    st_next_sd u <= st_next_sd u' /\ forall d, In d (st_stack u') -> sd_id d < st_next_sd u -> In d (st_stack u).

  Lemma PPs_uext Ps u u' : uext u u' -> PPs Ps u -> PPs Ps u'.
  Proof.
    intros [E1 E2] H. unfold PPs in *. eapply Forall_impl; [|exact H]. intros p [H1 H2]. split; [lia|].
    intros d Hd Hlt. apply H2; [|exact Hlt]. apply E2; [exact Hd | lia].
  Qed.

  Lemma Lk_fb u : Lk u <-> fresh_below (st_next_sd u) (map sd_id (st_stack u)).
  Proof. unfold Lk, fresh_below. rewrite Forall_map. reflexivity. Qed.

  Lemma G_push Ps rdy u u' d :
    G Ps rdy u -> same_rest u u' -> st_stack u' = d :: st_stack u -> sd_id d = st_next_sd u ->
    st_next_sd u' = S (st_next_sd u) -> (b = true -> sd_scr d < nscr) -> G Ps rdy u'.
  Proof.
    intros (HL & HP & HR) Hr Hs Hid Hn Hw. split; [|split].
    - apply Lk_fb. rewrite Hs, Hn. cbn [map]. rewrite Hid. apply fb_cons, Lk_fb, HL.
    - eapply PPs_uext; [|exact HP]. split; [lia|]. rewrite Hs. intros d' [<-|Hin] Hlt; [lia | exact Hin].
    - eapply RD_stack; [exact Hr | | exact HR]. intros Hb F. rewrite Hs. constructor; auto.
  Qed.

  Lemma G_sched Ps rdy u u' d :
    G Ps rdy u -> same_rest u u' -> st_stack u' = st_stack u ++ [d] -> sd_id d = st_next_sd u ->
    st_next_sd u' = S (st_next_sd u) -> (b = true -> sd_scr d < nscr) -> G Ps rdy u'.
  Proof.
    intros (HL & HP & HR) Hr Hs Hid Hn Hw. split; [|split].
    - apply Lk_fb. rewrite Hs, Hn, map_app. cbn [map]. rewrite Hid. apply fb_snoc, Lk_fb, HL.
    - eapply PPs_uext; [|exact HP]. split; [lia|]. rewrite Hs. intros d' Hin Hlt.
      apply in_app_or in Hin as [Hin|[<-|[]]]; [exact Hin | lia].
    - eapply RD_stack; [exact Hr | | exact HR]. intros Hb F. rewrite Hs. apply Forall_app. split; auto.
  Qed.

  Lemma G_pop Ps rdy u u' d r :
    G Ps rdy u -> same_rest u u' -> st_stack u = d :: r -> st_stack u' = r -> st_next_sd u' = st_next_sd u -> G Ps rdy u'.
  Proof.
    intros (HL & HP & HR) Hr Hs Hs' Hn. split; [|split].
    - apply Lk_fb. rewrite Hs', Hn. apply Lk_fb in HL. rewrite Hs in HL. exact (fb_tail _ _ _ HL).
    - eapply PPs_uext; [|exact HP]. split; [lia|]. rewrite Hs', Hs. intros d' Hin _. right. exact Hin.
    - eapply RD_stack; [exact Hr | | exact HR]. intros Hb F. rewrite Hs', Hs in *. inversion F; assumption.
  Qed.

  Lemma fresh_id u : Lk u -> existsb (fun x => (en_id x =? st_next_sd u)%nat) (map ent_of (st_stack u)) = false.
  Proof.
    intros [_ L2]. induction L2 as [|d l Hd Hl IH]; [reflexivity|]. cbn [map existsb ent_of en_id].
    rewrite IH, orb_false_r. apply Nat.eqb_neq. lia.
  Qed.

  Lemma entry_of_sd k d : entry_of_args [k; sd_id d; sd_scr d; sd_args d; b2n (sd_modal d)] = ent_of d.
  Proof. exact (entry_of_sargs k d). Qed.

  (* a user event at a known state: the acceptors' verdict (it may be left to the caller when it rests on a hypothesis)
     and the next state are computed, an id compared with itself rewritten *)
  Ltac wemit :=
    eapply wpc_emit;
    [ unfold cchk, cchk04, cchk08, cin_setup_of; cbn -[mem]; rewrite ?Nat.eqb_refl, ?orb_true_r; try (destruct b; reflexivity)
    | cbn; rewrite ?entry_of_sd, ?b2n_eqb; reflexivity
    | qstep ].

  Lemma wpc_ev_op n k x y st pm rdy pf u Q :
    Qat ONormal (mkc st (op_exp k x y match st with [] => false | _ => true end) pm None rdy None pf) u Q ->
    wpc n (ev T_OP [k; x; y]) (mkc st [] pm None rdy None pf) u Q.
  Proof. intros H. eapply wpc_emit; [destruct b; reflexivity | reflexivity | exact H]. Qed.

  Lemma wpc_ev_append n d m ex st pm rdy pf u Q :
    match m with Some b0 => b0 | None => pm end = sd_modal d ->
    existsb (fun x => (en_id x =? sd_id d)%nat) st = false ->
    Qat ONormal (mkc (ent_of d :: st) ex pm None rdy None pf) u Q ->
    wpc n (ev_stack K_APPEND d) (mkc st (XAppend (sd_scr d) (sd_args d) m :: ex) pm None rdy None pf) u Q.
  Proof.
    intros Hm Hf H. eapply wpc_emit; [| |exact H].
    - unfold cchk, cchk04, cchk08. cbn. rewrite !Nat.eqb_refl, b2n_eqb, Hm, eqb_reflx, Hf. destruct b; reflexivity.
    - cbn. rewrite ?entry_of_sd, ?b2n_eqb. reflexivity.
  Qed.

  (* the refresh: of the top entry, or the one that follows the return of that entry's setup() with commands *)
  Lemma wpc_ev_refresh n d fr st pm rdy pf u Q :
    pf_state fr = 0 -> (b = true -> mem (sd_scr d) rdy = true) ->
    ((exists st', st = ent_of d :: st') \/ pf_id fr = S (sd_id d)) ->
    Qat ONormal (mkc st [] pm None rdy None ({| pf_state := 1; pf_id := sd_id d |} :: pf)) u Q ->
    wpc n (ev T_REFRESH [sd_id d; sd_scr d; sd_args d]) (mkc st [] pm None rdy None (fr :: pf)) u Q.
  Proof.
    intros Hfr Hm Hcase H. destruct fr as [fs fi]. cbn [pf_state pf_id] in Hfr, Hcase. subst fs.
    eapply wpc_emit; [|reflexivity|exact H].
    unfold cchk, cchk04, cchk08, cin_setup_of. destruct Hcase as [[st' ->]| ->]; cbn -[mem];
      rewrite !Nat.eqb_refl, ?orb_true_r; (destruct b; [rewrite (Hm eq_refl)|]; reflexivity).
  Qed.

  (* the hypothesis on the session, list by list; it is there under [b = true] only: for C04 alone any command may run *)
  Lemma wf_lists x : lists_ok (fun l => b = true -> forallb (scmd_wf nscr) l = true) (specs x).
  Proof.
    constructor; [| | | |intros y Iy| |intros y Iy]; intros Hb; pose proof (Hwf Hb x) as H; unfold spec_wf in H;
      rewrite !andb_true_iff in H; destruct H as [[[[[[Hr Hs] Hc] Hi] Hd] Hcu] Hse]; try assumption.
    - exact (proj1 (forallb_forall _ _) Hi y Iy).
    - exact (proj1 (forallb_forall _ _) Hcu y Iy).
  Qed.

  Lemma same_entry u top r d :
    Lk u -> st_stack u = top :: r -> In d (top :: r) -> sd_id d = sd_id top -> d = top.
  Proof.
    intros [L1 _] Hs [<-|Hin] Hid; [reflexivity|]. rewrite Hs in L1. cbn [map] in L1. inversion L1 as [|? ? Hn _]; subst.
    exfalso. apply Hn. rewrite <- Hid. apply in_map. exact Hin.
  Qed.

  Lemma G_drop p Ps rdy u : G (p :: Ps) rdy u -> G Ps rdy u.
  Proof. intros (H1 & H2 & H3). split; [exact H1|]. split; [|exact H3]. inversion H2; assumption. Qed.

  Lemma IC_drop p Ps pf c u : IC (p :: Ps) pf c u -> IC Ps pf c u.
  Proof. intros (pm & rdy & E & HG). exists pm, rdy. split; [exact E | eapply G_drop; exact HG]. Qed.

  Lemma Inv_drop p Ps pf s : Inv (p :: Ps) pf s -> Inv Ps pf s.
  Proof. intros [HA HI]. split; [exact HA | exact (IC_drop _ _ _ _ _ HI)]. Qed.

  Lemma G_mark Ps rdy u : G Ps rdy u -> G ((st_next_sd u, st_stack u) :: Ps) rdy u.
  Proof.
    intros (H1 & H2 & H3). split; [exact H1|]. split; [|exact H3]. constructor; [|exact H2].
    cbn [fst snd]. split; [lia | auto].
  Qed.

  Lemma G_head N l Ps rdy u : G ((N, l) :: Ps) rdy u -> PP N l u.
  Proof. intros (_ & H2 & _). inversion H2; assumption. Qed.

  Lemma G_top Ps rdy u top r :
    G Ps rdy u -> st_stack u = top :: r -> sd_id top < st_next_sd u /\ (b = true -> sd_scr top < nscr).
  Proof.
    intros ([_ L2] & _ & HR) E. rewrite E in L2. split; [exact (Forall_inv L2)|].
    intros Hb. destruct (HR Hb) as (_ & _ & R3 & _). rewrite E in R3. exact (Forall_inv R3).
  Qed.

  Lemma G_rdy Ps rdy u : G Ps rdy u -> b = true -> forall x, mem x rdy = ss_ready (scr_of u x).
  Proof. intros (_ & _ & HR) Hb. apply (HR Hb). Qed.

  Lemma G_quit Ps rdy u q : G Ps rdy u -> b = true -> st_quit u = Some q -> q < nscr.
  Proof. intros (_ & _ & HR) Hb. apply (HR Hb). Qed.

  Lemma G_ready Ps rdy u u' scr :
    G Ps rdy u -> st_stack u' = st_stack u -> st_next_sd u' = st_next_sd u -> st_quit u' = st_quit u ->
    length (st_scr u') = length (st_scr u) ->
    (b = true -> forall x, ss_ready (scr_of u' x) = (x =? scr)%nat || ss_ready (scr_of u x)) ->
    G Ps (scr :: rdy) u'.
  Proof.
    intros (H1 & H2 & H3) E1 E2 E3 E4 E5. split; [|split].
    - unfold Lk. rewrite E1, E2. exact H1.
    - unfold PPs, PP in *. rewrite E1, E2. exact H2.
    - intros Hb. destruct (H3 Hb) as (R1 & R2 & R3 & R4). rewrite E1, E3, E4. repeat split; auto.
      intros x. rewrite (E5 Hb). unfold mem. cbn [existsb]. f_equal. apply R1.
  Qed.

  Lemma Inv_view Ps pf s u' : uview_eq (ust s) u' -> Inv Ps pf s -> Inv Ps pf (s <| ust := u' |>).
  Proof.
    intros E [HA (pm & rdy & Hc & HG)]. split; [eapply Acc_same; [|exact HA]; reflexivity|].
    rewrite (SW_same typed s) by reflexivity. rewrite Hc. eapply IC_view; [exact E | reflexivity | exact HG].
  Qed.

  Lemma spec_ret n : spec n PRet.
  Proof. split. intros Ps pf s HI. apply (wp_ret code Acc Acc_same); [exact (proj1 HI) | exact HI]. Qed.

  Lemma spec_throw n x : spec n (PThrow x).
  Proof. split. intros Ps pf s HI. apply (wp_throw code Acc Acc_same); [exact (proj1 HI) | exact HI]. Qed.

  Lemma spec_seq n p q : spec n p -> spec n q -> spec n (p ;; q).
  Proof.
    intros Hp Hq. split. intros Ps pf s HI. apply (wp_seq code Acc Acc_same).
    exact (wp_tail n p Ps pf s _ Hp (tail_K n q Ps pf _ Hq (tail_QI Ps pf)) HI).
  Qed.

  Lemma spec_try n p h : spec n p -> spec n h -> spec n (PTry p h).
  Proof.
    intros Hp Hh. split. intros Ps pf s HI. apply (wp_try code Acc Acc_same).
    exact (wp_tail n p Ps pf s _ Hp (tail_KT n h Ps pf _ Hh (tail_QI Ps pf)) HI).
  Qed.

  Lemma spec_st n (g : sstate -> sstate * sprog) :
    (forall u, uview_eq u (fst (g u))) -> (forall u, spec n (snd (g u))) -> spec n (PSt g).
  Proof.
    intros Hv Hp. split. intros Ps pf s HI. apply (wp_st code Acc Acc_same). apply Hp. apply Inv_view; [apply Hv | exact HI].
  Qed.

  Lemma spec_rd n (f : sstate -> sprog) : (forall u, spec n (f u)) -> spec n (rd f).
  Proof. intros H. apply spec_st; [intros u; apply uview_refl | exact H]. Qed.

  Lemma spec_wr n (g : sstate -> sstate) : (forall u, uview_eq u (g u)) -> spec n (wr g).
  Proof. intros H. apply spec_st; [exact H | intros u; apply spec_ret]. Qed.

  Lemma spec_with_top n k : (forall d, spec n (k d)) -> spec n (with_top k).
  Proof. intros Hk. apply spec_rd. intros u. destruct (st_stack u); [apply spec_throw | apply Hk]. Qed.

  Lemma spec_evt n tag a t : quiet_tag tag = true -> spec n (evt tag a t).
  Proof.
    intros Hq. apply spec_intro. intros Ps pf c u HI. ic_open HI pm rdy HG.
    apply wpc_emit_quiet; [exact Hq|]. apply Qat_QI. apply IC_intro; [reflexivity | exact HG].
  Qed.

  Lemma spec_ev n tag a : quiet_tag tag = true -> spec n (ev tag a).
  Proof. apply spec_evt. Qed.

  Lemma spec_api_simple n a : simple_api a = true -> spec n (PApi a).
  Proof. intros Ha. apply spec_intro. intros Ps pf c u HI. apply wpc_api_simple; [exact Ha|]. apply Qat_QI. exact HI. Qed.

  Lemma spec_sched_redraw n : spec n sched_redraw.
  Proof. apply spec_api_simple. reflexivity. Qed.

  Lemma spec_raise n : spec n raise_exception_signal.
  Proof. apply spec_api_simple. reflexivity. Qed.

  Lemma spec_while n cnd body : spec n body -> spec n (PWhile cnd body).
  Proof.
    intros Hb. split. intros Ps pf s HI. apply (wp_while code Acc Acc_same n cnd body s (QI Ps pf) (Inv Ps pf)).
    - exact HI.
    - intros s1 H1. exact (proj1 H1).
    - intros s1 H1 _. eapply (wp_conseq code Acc Acc_same); [exact (spec_wp _ _ Hb Ps pf s1 H1)|].
      intros o s2 _ _ H2. destruct o; exact H2.
    - intros s1 H1 _. exact H1.
  Qed.

  Lemma spec_if n (c : bool) p q : spec n p -> spec n q -> spec n (if c then p else q).
  Proof. destruct c; auto. Qed.

  (* [spec] is proved by [auto 15 with spec], syntax-directed: one rule per program former above, [Hint Extern] for a
     program that is a match (destruct the scrutinee) and for the view equations of [spec_st] / [spec_wr]; each method's
     lemma is added once proved, and the section hypothesis [HAPI] below serves the loop-level APIs; a side condition
     [_ = true] ([quiet_tag], [simple_api]) is computed.  The search depth is the nesting depth of the program; 15 suffices
     for every program below.  Database and tactics are local to this Section: the lemma of a new method is written in
     [Section Level]. *)
  Create HintDb spec discriminated.
  Hint Resolve spec_ret spec_throw spec_seq spec_try spec_rd spec_wr spec_with_top spec_ev spec_evt spec_api_simple spec_sched_redraw
    spec_raise spec_while spec_if tail_QI tail_QF tail_K tail_KT : spec.
  Hint Extern 1 (uview_eq _ _) => view_solve : spec.
  Hint Extern 1 (_ = true) => reflexivity : spec.
  Hint Extern 2 (spec _ (match ?x with _ => _ end)) => destruct x : spec.

  Section Level.
    Variable n : nat.

    Ltac wif := match goal with |- wpc _ (if ?x then _ else _) _ _ _ => destruct x eqn:? end.

    Lemma start_thread_spec req : spec n (start_thread req).
    Proof. unfold start_thread. auto 15 with spec. Qed.
    Hint Resolve start_thread_spec : spec.

    Lemma start_input_thread_spec req check : spec n (start_input_thread req check).
    Proof. unfold start_input_thread. auto 15 with spec. Qed.
    Hint Resolve start_input_thread_spec : spec.

    Lemma emit_ready_spec req data ok : spec n (emit_ready req data ok).
    Proof. unfold emit_ready. auto 15 with spec. Qed.
    Hint Resolve emit_ready_spec : spec.

    Lemma emit_failed_all_spec reqs : spec n (emit_failed_all reqs).
    Proof. induction reqs; cbn [emit_failed_all]; auto 15 with spec. Qed.
    Hint Resolve emit_failed_all_spec : spec.

    Lemma input_received_handler_spec sg : spec n (input_received_handler sg).
    Proof. unfold input_received_handler. auto 15 with spec. Qed.

    Lemma handler_get_input_spec m skip : spec n (handler_get_input m skip).
    Proof. unfold handler_get_input. auto 15 with spec. Qed.
    Hint Resolve handler_get_input_spec : spec.

    Lemma new_input_handler_spec src owner cb k :
      (forall m, spec n (k m)) -> spec n (new_input_handler src owner cb k).
    Proof. intros Hk. unfold new_input_handler. cbv zeta. auto 15 with spec. Qed.
    Hint Resolve new_input_handler_spec : spec.

    (* the request's arguments are stored with the handler ([ih_args]), which hands them to the callback; then it asks *)
    Lemma get_input_spec scr args : spec n (get_input specs scr args).
    Proof. unfold get_input. auto 15 with spec. Qed.
    Hint Resolve get_input_spec : spec.

    (* the complex API calls (they run handlers): specified at this level by the outer induction; below, [auto] applies
       this hypothesis wherever a program makes such a call ([spec_api_simple] covers the others) *)
    Hypothesis HAPI : forall a, spec n (PApi a).

    Lemma get_input_blocking_spec scr : spec n (get_input_blocking specs scr).
    Proof. unfold get_input_blocking. auto 15 with spec. Qed.
    Hint Resolve get_input_blocking_spec : spec.

    Lemma push_wpc sc a m mo rest Ps pf st pm rdy u :
      st = map ent_of (st_stack u) -> G Ps rdy u -> (b = true -> (sc <? nscr)%nat = true) ->
      match mo with Some b0 => b0 | None => pm end = m -> (forall d, spec n (rest d)) -> forall Q, tail Ps pf Q ->
      wpc n (new_sd sc a m (fun d => wr (fun u => u <| st_stack := d :: st_stack u |>) ;; ev_stack K_APPEND d ;; rest d))
          (mkc st [XAppend sc a mo] pm None rdy None pf) u Q.
    Proof.
      intros -> HG Hw Hm Hrest Q HQ. apply wpc_new_sd. repeat wstep.
      match goal with |- wpc _ (ev_stack K_APPEND ?d) _ _ _ => apply (wpc_ev_append n d) end;
        [exact Hm | apply fresh_id; apply HG | qstep].
      apply (wpc_tail n _ Ps pf); [apply Hrest | exact HQ|]. apply IC_intro; [reflexivity|].
      eapply G_push; [exact HG | view_solve | reflexivity | reflexivity | reflexivity |].
      intros Hb. apply Nat.ltb_lt. exact (Hw Hb).
    Qed.

    (* the commands a session may issue: any when only C04 is at stake, those whose screens have a slot for C08 *)
    Definition cmd_ok (c : scmd) : bool := negb b || scmd_wf nscr c.

    Lemma cmd_ok_wf c : cmd_ok c = true <-> (b = true -> scmd_wf nscr c = true).
    Proof. unfold cmd_ok. destruct b; cbn [negb orb]; [tauto | split; [discriminate | reflexivity]]. Qed.

    Lemma cmds_ok_wf l : forallb cmd_ok l = true <-> (b = true -> forallb (scmd_wf nscr) l = true).
    Proof.
      unfold cmd_ok. destruct b; cbn [negb orb]; [tauto|]. split; [discriminate|]. intros _. apply forallb_forall. reflexivity.
    Qed.

    (* the stack operations are walked; every other command keeps the view of the state; the conditional is
       [do_scmd_closed]'s *)
    Lemma do_scmd_specs close_now : spec n close_now ->
      (forall c, cmd_ok c = true -> forall self count, spec n (do_scmd specs close_now self count c)) /\
      (forall l, forallb cmd_ok l = true -> forall self count, spec n (do_scmds specs close_now self count l)).
    Proof.
      intros Hclose. apply do_scmd_closed; [apply spec_ret | apply spec_seq | |].
      { intros k t e H. rewrite !cmds_ok_wf. pose proof (proj1 (cmd_ok_wf _) H) as H'. cbn [scmd_wf] in H'.
        split; intros Hb; apply (proj1 (andb_true_iff _ _) (H' Hb)). }
      intros c Hc Hw' self count. pose proof (proj1 (cmd_ok_wf _) Hw') as Hw.
      destruct c as [sc a|sc a|sc a|sc a| | | | | | | | |o|o|cc0 ck|cc0 cp| | |tb|hh sk|hh| | | |k t e]; try destruct Hc; cbn [do_scmd];
        try solve [unfold handler_ask, handler_wait; auto 15 with spec];
        apply spec_intro; intros Ps pf cc u HI.
      - (* push *)
        ic_open HI pm rdy HG. wstep. apply wpc_ev_op; qstep.
        eapply push_wpc; [reflexivity | exact HG | exact Hw | reflexivity | auto 15 with spec | apply tail_QI].
      - (* push modal: a nested loop runs *)
        ic_open HI pm rdy HG. wstep. apply wpc_ev_op; qstep.
        eapply push_wpc; [reflexivity | exact HG | exact Hw | reflexivity | auto 15 with spec | apply tail_QI].
      - (* replace *)
        ic_open HI pm rdy HG. wstep. apply wpc_ev_op; qstep. wstep.
        destruct (st_stack u) as [|top r] eqn:Estk; cbn [map].
        + change (op_exp O_REPLACE sc a false) with (@nil sexp). wstep.
          apply IC_intro; [rewrite Estk; reflexivity | exact HG].
        + change (op_exp O_REPLACE sc a true) with [XPop false; XAppend sc a None].
          repeat wstep. wemit.
          eapply push_wpc; [reflexivity | | exact Hw | reflexivity | auto 15 with spec | apply tail_QI].
          eapply G_pop; [exact HG | view_solve | exact Estk | reflexivity | reflexivity].
      - (* schedule *)
        ic_open HI pm rdy HG. wstep. apply wpc_ev_op; qstep.
        change (op_exp O_SCHEDULE sc a _) with [XAddFirst sc a].
        apply wpc_new_sd. repeat wstep. wemit.
        assert (HG' : forall u', same_rest u u' ->
                  st_stack u' = st_stack u ++ [{| sd_id := st_next_sd u; sd_scr := sc; sd_args := a; sd_modal := false |}] ->
                  st_next_sd u' = S (st_next_sd u) -> G Ps rdy u').
        { intros u' H1 H2 H3. eapply G_sched; [exact HG | exact H1 | exact H2 | reflexivity | exact H3 |].
          intros Hb. apply Nat.ltb_lt. exact (Hw Hb). }
        wstep. wif; repeat wstep.
        + apply IC_intro; [cbn [st_stack set]; rewrite map_app; reflexivity|].
          apply HG'; [view_solve | reflexivity | reflexivity].
        + apply IC_intro; [cbn [st_stack set]; rewrite map_app; reflexivity|].
          apply HG'; [view_solve | reflexivity | reflexivity].
    Qed.

    Lemma do_scmd_spec close_now : spec n close_now ->
      forall c, (b = true -> scmd_wf nscr c = true) -> forall self count, spec n (do_scmd specs close_now self count c).
    Proof. intros Hclose c Hw. apply (proj1 (do_scmd_specs close_now Hclose)), cmd_ok_wf, Hw. Qed.

    Lemma do_scmds_spec close_now : spec n close_now ->
      forall l, (b = true -> forallb (scmd_wf nscr) l = true) ->
      forall self count, spec n (do_scmds specs close_now self count l).
    Proof. intros Hclose l Hw. apply (proj2 (do_scmd_specs close_now Hclose)), cmds_ok_wf, Hw. Qed.

    (* ScreenScheduler.close_screen *)
    Lemma close_screen_spec cf : spec n (close_screen specs cf).
    Proof.
      apply spec_intro. intros Ps pf cc u HI. ic_open HI pm rdy HG.
      unfold close_screen. wstep. apply wpc_ev_op; qstep. wstep.
      destruct (st_stack u) as [|top r] eqn:Estk; cbn [map].
      - change (op_exp O_CLOSE _ 0 false) with (@nil sexp). wstep.
        apply IC_intro; [rewrite Estk; reflexivity | exact HG].
      - change (op_exp O_CLOSE _ 0 true) with [XPop true].
        repeat wstep. wemit.
        wstep. unfold call_closed. wstep. cbv zeta. repeat wstep. wemit.
        (* from here on the stack is only read *)
        apply (wpc_tail n _ Ps pf);
          [apply do_scmds_spec; [apply spec_ev; reflexivity | exact (ok_closed (wf_lists (sd_scr top)))] | auto 15 with spec |].
        apply IC_intro; [reflexivity|].
        eapply G_pop; [exact HG | view_solve | exact Estk | reflexivity | reflexivity].
    Qed.
    Hint Resolve close_screen_spec : spec.

    Lemma run_cmds_spec self count l :
      (b = true -> forallb (scmd_wf nscr) l = true) -> spec n (run_cmds specs self count l).
    Proof. intros Hw. apply (do_scmds_spec _ (close_screen_spec None) l Hw). Qed.

    Lemma call_input_spec scr key : spec n (call_input specs scr key).
    Proof.
      unfold call_input. apply spec_rd. intros u. cbv zeta.
      destruct (assoc_str key (sc_input (specs scr))) as [[c0 r0]|] eqn:Ea; cbv beta iota.
      - pose proof (run_cmds_spec scr (ss_n_input (scr_of u scr)) c0 (ok_assoc (wf_lists scr) Ea)). auto 15 with spec.
      - pose proof (run_cmds_spec scr (ss_n_input (scr_of u scr)) _ (ok_default (wf_lists scr))). auto 15 with spec.
    Qed.
    Hint Resolve call_input_spec : spec.

    Lemma process_input_result_spec act sr : spec n (process_input_result specs act sr).
    Proof.
      unfold process_input_result. apply spec_with_top. intros active. destruct act; try solve [auto 15 with spec].
      (* quit: the quit screen is pushed like any other, and it has a slot *)
      apply spec_intro. intros Ps pf cc u HI. ic_open HI pm rdy HG. wstep.
      destruct (st_quit u) as [qs|] eqn:Eq; [|wstep; apply IC_intro; [reflexivity | exact HG]].
      wstep. unfold push_screen_modal.
      apply (wpc_tail n _ Ps pf); [apply (do_scmd_spec PRet (spec_ret n) (SPushModal qs 0)) | auto 15 with spec | apply IC_intro; [reflexivity | exact HG]].
      intros Hb. cbn [scmd_wf]. apply Nat.ltb_lt. exact (G_quit _ _ _ _ HG Hb Eq).
    Qed.
    Hint Resolve process_input_result_spec : spec.

    Lemma process_input_spec scr line : spec n (process_input specs scr line).
    Proof.
      unfold process_input. do 2 (apply spec_seq; [auto 15 with spec|]).
      apply spec_rd. intros u. apply spec_if; [|auto 15 with spec]. cbv zeta.
      destruct (action_of (st_rv u)); auto 15 with spec.
    Qed.
    Hint Resolve process_input_spec : spec.

    Lemma input_ready_handler_spec m sg : spec n (input_ready_handler specs m sg).
    Proof. unfold input_ready_handler. auto 15 with spec. Qed.

    Lemma ask_pages_spec scr k : spec n (ask_pages specs scr k).
    Proof. induction k; cbn [ask_pages]; auto 15 with spec. Qed.

    Lemma call_refresh_wpc d fr Ps pf pm rdy u :
      G Ps rdy u -> pf_state fr = 0 -> (b = true -> mem (sd_scr d) rdy = true) ->
      ((exists r, st_stack u = d :: r) \/ pf_id fr = S (sd_id d)) ->
      forall Q, tail Ps ({| pf_state := 1; pf_id := sd_id d |} :: pf) Q ->
      wpc n (call_refresh specs d) (mkc (map ent_of (st_stack u)) [] pm None rdy None (fr :: pf)) u Q.
    Proof.
      intros HG Hfr Hm Hcase Q HQ. unfold call_refresh. wstep. cbv zeta. do 3 wstep.
      apply wpc_ev_refresh; [exact Hfr | exact Hm | | qstep].
      { destruct Hcase as [[r Hr]|Hid]; [left | right; exact Hid]. rewrite Hr. cbn [map]. eauto. }
      eapply wpc_tail; [apply run_cmds_spec, (ok_refresh (wf_lists _)) | exact HQ|].
      eapply IC_view; [view_solve | reflexivity | exact HG].
    Qed.

    Lemma call_show_all_wpc d r Ps pf pm rdy u :
      G Ps rdy u -> st_stack u = d :: r ->
      forall Q, tail Ps ({| pf_state := 2; pf_id := sd_id d |} :: pf) Q ->
      wpc n (call_show_all specs d) (mkc (ent_of d :: map ent_of r) [] pm None rdy None ({| pf_state := 1; pf_id := sd_id d |} :: pf)) u Q.
    Proof.
      intros HG Hs Q HQ. unfold call_show_all. wstep. cbv zeta. do 3 wstep. wemit.
      eapply wpc_tail; [apply spec_seq; [apply ask_pages_spec | apply run_cmds_spec, (ok_show (wf_lists _))] | exact HQ|].
      eapply IC_view; [view_solve | rewrite Hs; reflexivity | exact HG].
    Qed.

    Lemma draw_screen_wpc d r Ps pf pm rdy u :
      G Ps rdy u -> st_stack u = d :: r ->
      forall Q, (forall fr, tail Ps (fr :: pf) Q) ->
      wpc n (draw_screen specs d) (mkc (ent_of d :: map ent_of r) [] pm None rdy None ({| pf_state := 1; pf_id := sd_id d |} :: pf)) u Q.
    Proof.
      intros HG Hs Q HQ. unfold draw_screen. do 2 wstep.
      destruct (sc_no_separator (specs (sd_scr d))); [wstep | wemit]; (eapply call_show_all_wpc; [eassumption..|]); auto with spec.
    Qed.

    (* the screen is set up: refresh(); if the entry is still on top (it was in [l] when ids stopped at [N], where ids are
       unique) it is drawn, and [q] follows *)
    Lemma ready_wpc top l N fr q h Ps pf pm rdy u :
      spec n q -> spec n h ->
      (forall d, In d l -> sd_id d = sd_id top -> d = top) -> sd_id top < N ->
      G ((N, l) :: Ps) rdy u -> pf_state fr = 0 -> (b = true -> mem (sd_scr top) rdy = true) ->
      ((exists r, st_stack u = top :: r) \/ pf_id fr = S (sd_id top)) ->
      wpc n (PTry (call_refresh specs top ;;
                   with_top (fun top' => if (sd_id top' =? sd_id top)%nat then draw_screen specs top ;; q else PRet)) h)
          (mkc (map ent_of (st_stack u)) [] pm None rdy None (fr :: pf)) u (QF ((N, l) :: Ps) pf).
    Proof.
      intros Hq Hh Hone Hlt HG Hfr Hm Hcase. do 2 wstep. apply (call_refresh_wpc top fr ((N, l) :: Ps)); try assumption.
      apply tail_K_wpc; [intros x s; apply tail_KT; auto with spec; discriminate|]. intros c0 u0 HI2.
      apply (with_top_wpc n _ _ _ _ _ _ HI2); [auto with spec|]. intros top' r' E2. ic_open HI2 pm2 rdy2 HG2. rewrite E2.
      destruct (sd_id top' =? sd_id top)%nat eqn:Eid; [|wstep; apply IC_intro; [rewrite E2; reflexivity | exact HG2]].
      assert (top' = top) as ->.
      { apply Nat.eqb_eq in Eid. apply Hone; [|exact Eid].
        apply (proj2 (G_head _ _ _ _ _ HG2)); [rewrite E2; left; reflexivity | lia]. }
      cbn [map]. wstep. eapply draw_screen_wpc; [eassumption..|]. auto with spec.
    Qed.

    Lemma G_set_ready Ps rdy u scr :
      (b = true -> scr < nscr) -> G Ps rdy u ->
      G Ps (scr :: rdy) (upd_scr scr (fun t0 : scrst => t0 <| ss_ready := true |>) u <| st_rb := true |>).
    Proof.
      intros Hscr HG. eapply G_ready; [exact HG | reflexivity | reflexivity | reflexivity | | ].
      { cbn [st_scr set upd_scr]. rewrite !length_upd_nth. reflexivity. }
      intros Hb x. destruct HG as (_ & _ & HR). destruct (HR Hb) as (_ & R2 & _).
      pose proof (Hscr Hb) as Hl.
      unfold scr_of. cbn [st_scr set upd_scr]. rewrite nth_upd_nth, R2.
      apply Nat.ltb_lt in Hl. rewrite Hl, andb_true_r.
      destruct (x =? scr)%nat eqn:Ex; reflexivity.
    Qed.

    Lemma process_screen_wpc Ps pf c u :
      IC Ps ({| pf_state := 0; pf_id := 0 |} :: pf) c u -> wpc n (process_screen specs) c u (QF Ps pf).
    Proof.
      set (fr0 := {| pf_state := 0; pf_id := 0 |}).
      intros HI. unfold process_screen. apply (with_top_wpc n _ _ _ _ _ _ HI (tail_QF Ps pf fr0)). intros top r Estk.
      ic_open HI pm rdy HG. rewrite Estk. cbv zeta.
      (* the stack as it is when this _process_screen starts is remembered: ids below the counter are those entries *)
      set (Ps1 := (st_next_sd u, top :: r) :: Ps).
      apply (wpc_conseq n _ _ _ (QF Ps1 pf)); [|intros o s' _ _ [fr HI']; exists fr; exact (Inv_drop _ _ _ _ HI')].
      wstep.
      match goal with |- wpc _ _ _ _ (K _ ?q _) => set (TAIL := q) end.
      assert (HG0 : G Ps1 rdy u).
      { pose proof (G_mark _ _ _ HG) as HG0. rewrite Estk in HG0. exact HG0. }
      destruct (G_top _ _ _ _ _ HG Estk) as [Hlt Hscr].
      pose proof (fun Hb => G_rdy _ _ _ HG Hb (sd_scr top)) as Hrdy.
      assert (Hnew : forall rdy1, b = true -> mem (sd_scr top) (sd_scr top :: rdy1) = true).
      { intros rdy1 _. unfold mem. cbn [existsb]. rewrite Nat.eqb_refl. reflexivity. }

      assert (Htail : forall pm1 rdy1 u1 fr1 stk, st_stack u1 = stk -> G Ps1 rdy1 u1 ->
                (b = true -> mem (sd_scr top) rdy1 = true) -> st_rb u1 = true -> pf_state fr1 = 0 ->
                ((exists r1, stk = top :: r1) \/ pf_id fr1 = S (sd_id top)) ->
                wpc n TAIL (mkc (map ent_of stk) [] pm1 None rdy1 None (fr1 :: pf)) u1 (QF Ps1 pf)).
      { intros pm1 rdy1 u1 fr1 stk Hstk HG1 Hm Hrb Hfr1 Hcase. subst stk. unfold TAIL. wstep. rewrite Hrb. cbn [negb].
        do 2 wstep. apply ready_wpc; try assumption; [auto 15 with spec | apply spec_raise|].
        intros d. apply (same_entry u top r); [apply HG | exact Estk]. }

      wstep. destruct (ss_ready (scr_of u (sd_scr top))) eqn:Erdy.
      - (* already set up *)
        wstep. cbn [map]. apply (Htail _ _ _ _ (top :: r));
          [cbn [st_stack set]; exact Estk | eapply G_view; [view_solve | exact HG0] | exact Hrdy | reflexivity | reflexivity | left; eauto].
      - (* setup() *)
        unfold call_setup. destruct (sc_setup_cmds (specs (sd_scr top))) as [|c0 cmds] eqn:Ecmds.
        + (* a setup() that only reports its result *)
          unfold call_setup_plain. wstep. cbv zeta. do 3 wstep. cbn [map].
          wemit; [destruct b; [rewrite (Hrdy eq_refl)|]; reflexivity|].
          destruct (nth_last (sc_setup (specs (sd_scr top))) (ss_n_setup (scr_of u (sd_scr top)))) eqn:Eok.
          * (* succeeded: the screen is ready *)
            repeat wstep. apply (Htail _ _ _ _ (top :: r));
              [cbn [st_stack set upd_scr]; exact Estk | | apply Hnew | reflexivity | reflexivity | left; eauto].
            apply G_set_ready; [exact Hscr|]. eapply G_view; [|exact HG0]. view_solve.
          * (* failed: the entry is discarded, the next screen is processed *)
            repeat wstep. unfold TAIL. wstep. cbn [st_rb set upd_scr negb]. do 2 wstep.
            cbn [st_stack set upd_scr]. rewrite Estk. do 2 wstep. wemit.
            assert (HI1 : forall pmx, IC Ps1 (fr0 :: pf) (mkc (map ent_of r) [] pmx None rdy None (fr0 :: pf))
                            (upd_scr (sd_scr top) (fun t0 : scrst => t0 <| ss_n_setup := S (ss_n_setup (scr_of u (sd_scr top))) |>) u
                               <| st_rb := false |> <| st_stack := r |>)).
            { intros pmx. apply IC_intro; [reflexivity|].
              eapply G_pop; [exact HG0 | view_solve | exact Estk | reflexivity | reflexivity]. }
            destruct (sd_modal top).
            -- eapply wpc_tail; [apply HAPI | apply tail_QF | apply HI1].
            -- repeat wstep. apply HI1.
        + (* a setup() that runs commands first: it cannot report failure *)
          assert (Eok : nth_last (sc_setup (specs (sd_scr top))) (ss_n_setup (scr_of u (sd_scr top))) = true).
          { destruct (nth_last (sc_setup (specs (sd_scr top))) (ss_n_setup (scr_of u (sd_scr top)))) eqn:Eok; [reflexivity|].
            apply nth_last_false in Eok. apply Hfsp in Eok. congruence. }
          unfold call_setup_cmds. wstep. cbv zeta. rewrite Eok. do 3 wstep. cbn [map].
          wemit; [destruct b; [rewrite (Hrdy eq_refl)|]; reflexivity|]. wstep.
          set (fr1 := {| pf_state := 0; pf_id := S (sd_id top) |}).
          apply (wpc_tail n _ Ps1 (fr1 :: pf));
            [apply run_cmds_spec; rewrite <- Ecmds; exact (ok_setup (wf_lists _)) | apply tail_K_wpc |].
          * intros x s HI2. exists fr1. exact HI2.
          * (* setup() returns: the stack may have changed *)
            intros c2 u2 HI2. ic_open HI2 pm2 rdy2 HG2. wstep. wemit. repeat wstep.
            apply (Htail _ _ _ fr1 (st_stack u2));
              [reflexivity | apply G_set_ready; assumption | apply Hnew | reflexivity | reflexivity | right; reflexivity].
          * eapply IC_view; [view_solve | rewrite Estk; reflexivity | exact HG0].
    Qed.

    (* a screen's own signal callback: one event, then the screen's commands (outside any _process_screen frame) *)
    Lemma custom_handler_spec k sg scr : spec n (custom_handler specs k sg scr).
    Proof.
      unfold custom_handler. apply spec_seq; [auto 15 with spec|]. apply run_cmds_spec.
      exact (ok_nth_custom (fun l => b = true -> forallb (scmd_wf nscr) l = true) k (fun _ => eq_refl) (wf_lists scr)).
    Qed.

    Lemma Inv_handler_end Ps pf pf' hid sid how s :
      Inv Ps pf' s -> pf = (if (hid =? H_RENDER)%nat then tl pf' else pf') ->
      Inv Ps pf (emit (EHandlerEnd hid sid how) s).
    Proof. intros HI ->. apply (Inv_emit Ps pf'); [exact I | intros c <-; reflexivity | exact HI]. Qed.

    Lemma handler_spec Ps pf hid sg data s :
      Inv Ps pf s ->
      hoare code n (CProg (code hid sg data)) (emit (EHandler hid (sg_id sg) data) s)
            (post Acc (fun o s' => Inv Ps pf (emit (EHandlerEnd hid (sg_id sg) (how_of o)) s'))).
    Proof.
      intros HI. set (s1 := emit (EHandler hid (sg_id sg) data) s) in *.
      assert (HI1 : Inv Ps (if (hid =? H_RENDER)%nat then {| pf_state := 0; pf_id := 0 |} :: pf else pf) s1).
      { apply (Inv_emit Ps pf); [exact I | intros c <-; cbn [cstep c_pframes pframes_after]; destruct (hid =? H_RENDER)%nat; reflexivity | exact HI]. }
      assert (W : wp n (code hid sg data) s1
                    (fun _ s2 => exists pf', Inv Ps pf' s2 /\ pf = if (hid =? H_RENDER)%nat then tl pf' else pf')).
      { unfold screen_code. destruct (hid =? H_RENDER)%nat.
        - (* _process_screen_callback *)
          eapply (wp_conseq code Acc Acc_same); [apply (process_screen_wpc Ps pf _ _ (proj2 HI1)), (Inv_at _ _ _ HI1)|].
          intros o0 s2 _ _ [fr P]. exists (fr :: pf). split; [exact P | reflexivity].
        - eapply (wp_conseq code Acc Acc_same);
            [apply spec_wp; [|exact HI1] | intros o0 s2 _ _ P; exists pf; split; [exact P | reflexivity]].
          apply spec_if; [apply close_screen_spec; exact HAPI|]. apply spec_if; [apply input_received_handler_spec|].
          apply spec_if; [apply input_ready_handler_spec; exact HAPI|]. apply spec_if; [apply custom_handler_spec; exact HAPI|].
          apply spec_ret. }
      eapply hoare_conseq; [apply wp_hoare, W|]. intros o s2. apply post_imp.
      intros o1 s3 _ _ (pf' & P & Hpf). exact (Inv_handler_end _ _ _ _ _ _ _ P Hpf).
    Qed.
  End Level.

  Lemma Inv_acc Ps pf s : Inv Ps pf s -> Acc s.
  Proof. intros [H _]; exact H. Qed.
  Lemma Inv_same Ps pf s s' : trace s' = trace s -> ust s' = ust s -> Inv Ps pf s -> Inv Ps pf s'.
  Proof.
    intros Ht Hu [HA HI]. split; [eapply Acc_same; eauto|]. rewrite (SW_same _ _ _ Ht), Hu. exact HI.
  Qed.
  Lemma Inv_loop_event Ps pf e s : loop_event e = true -> Inv Ps pf s -> Inv Ps pf (emit e s).
  Proof.
    intros He [HA HI]. pose proof (at_cu_loop_event _ _ _ e He (Inv_at Ps pf s (conj HA HI))) as (HA' & Hc' & Hu').
    split; [exact HA'|]. rewrite Hc', Hu'. exact HI.
  Qed.

  (* every loop-level call keeps the invariant (the frames of _process_screen are balanced) ... *)
  Lemma api_of_calls_keep n : (forall Ps pf, calls_keep code Acc (Inv Ps pf) n) -> forall a, spec n (PApi a).
  Proof. intros L a. split. intros Ps pf s HI. apply (wp_api code Acc Acc_same), (L Ps pf); [reflexivity|exact HI]. Qed.

  Theorem calls_keep_all : forall n Ps pf, calls_keep code Acc (Inv Ps pf) n.
  Proof.
    induction n as [|n IH]; intros Ps pf; [intros c s _ HI; apply hoare_0, (Inv_acc _ _ _ HI)|].
    apply (loop_inv code Acc (Inv Ps pf) (Inv_acc Ps pf) (Inv_same Ps pf) (fun e s0 => Inv_loop_event Ps pf e s0) n (IH Ps pf)).
    intros hid sg data s HI. exact (handler_spec n (api_of_calls_keep n IH) Ps pf hid sg data s HI).
  Qed.

  Theorem api_all n a : spec n (PApi a).
  Proof. exact (api_of_calls_keep n (calls_keep_all n) a). Qed.

  Theorem exec_inv Ps pf f c s o s' :
    is_prog c = false -> Inv Ps pf s -> exec code f c s = (o, s') -> post Acc (QI Ps pf) o s'.
  Proof. intros Hc HI E. exact (calls_keep_all f Ps pf c s Hc HI f o s' (le_n f) E). Qed.

  (* ... and so does every command issued by the application from outside any callback *)
  Theorem run_cmds_inv Ps pf f self count l s o s' :
    (b = true -> forallb (scmd_wf nscr) l = true) -> Inv Ps pf s ->
    exec code f (CProg (run_cmds specs self count l)) s = (o, s') -> post Acc (QI Ps pf) o s'.
  Proof.
    intros Hw HI E. refine (proj1 (wp_hoare code Acc _ _ _ _) _ f o s' (le_n f) E).
    exact (spec_wp _ _ (run_cmds_spec f (api_all f) self count l Hw) Ps pf s HI).
  Qed.

  Lemma Inv_top Ps pf s : Inv Ps pf s -> Inv Ps [] (emit ETop s).
  Proof. apply Inv_emit; [exact I | reflexivity]. Qed.

  Definition finished (o : outcome) : Prop := o <> OBlocked /\ o <> OFuel.

  Lemma post_finished (Q : outcome -> lstate sstate -> Prop) o s : post Acc Q o s -> finished o -> Q o s.
  Proof. intros H [F1 F2]. destruct o; try exact H; [destruct F1 | destruct F2]; reflexivity. Qed.

  Lemma goes_on_finished o : goes_on o -> finished o.
  Proof. intros (N1 & N2 & _). split; assumption. Qed.

  Lemma session_inv fuel acts s os s' :
    Inv [] [] s -> (b = true -> forallb (saction_wf nscr) acts = true) ->
    app_session specs fuel acts s = (os, s') ->
    Acc s' /\ (Forall finished os -> Inv [] [] s').
  Proof.
    intros HI Hw E.
    (* the rule's [A], [J], [ok], [fin]: the trace is accepted; the invariant; the action is well formed; the call came back *)
    pose proof (fun CJ => app_sessions_inv specs fuel Acc (Inv [] []) (fun a => b = true -> saction_wf nscr a = true)
                  finished (Inv_acc [] []) goes_on_finished CJ acts s) as R.
    rewrite E in R. apply R; [|apply Forall_forall; intros a Ha Hb; exact (proj1 (forallb_forall _ _) (Hw Hb) a Ha)|exact HI].
    clear R E HI Hw. intros a s0 Hwa HI. pose proof (Inv_top _ _ _ HI) as HT.
    assert (R : forall o s1, app_call specs fuel a s0 = (o, s1) -> post Acc (QI [] []) o s1).
    { intros o s1 E. destruct a as [l|]; cbn [app_call] in E.
      - eapply run_cmds_inv; [exact Hwa|exact HT|exact E].
      - destruct (st_stack (ust s0)); [destruct (st_run_empty (ust s0))|]; try (eapply exec_inv; [|exact HT|exact E]; reflexivity).
        inversion E; subst. exact HT. }
    destruct (app_call specs fuel a s0) as [o s1]. specialize (R o s1 eq_refl).
    split; [destruct o; try exact R; exact (Inv_acc _ _ _ R) | exact (post_finished _ _ _ R)].
  Qed.

  Lemma app_initialize_inv s :
    Inv [] [] s -> exists s1, exec code 20 (CProg app_initialize) s = (ONormal, s1) /\ Inv [] [] s1.
  Proof.
    intros HI. eexists. split; [reflexivity|].
    repeat (apply Inv_loop_event; [reflexivity|]). eapply Inv_same; [| |exact HI]; reflexivity.
  Qed.
End Screens.

Lemma ready_scr0 specl x : ss_ready (nth x (map scr0 specl) (scr0 default_spec)) = false.
Proof. rewrite map_nth. reflexivity. Qed.

Lemma Inv_init typed b nscr specl quit run_empty :
  (b = true -> nscr = length specl /\ forall q, quit = Some q -> q < nscr) ->
  Inv typed b nscr [] [] (init_state (sstate0 specl typed quit run_empty)).
Proof.
  intros Hn. split; [exact I|]. exists false, []. split; [reflexivity|].
  split; [|split].
  - split; [constructor | constructor].
  - constructor.
  - intros Hb. destruct (Hn Hb) as [-> Hq]. repeat split.
    + intros x. unfold scr_of. cbn [ust init_state sstate0 st_scr]. rewrite ready_scr0. reflexivity.
    + cbn. apply map_length.
    + constructor.
    + exact Hq.
Qed.

Lemma wf_session_parts specl quit acts : wf_session specl quit acts = true ->
  forallb (spec_wf (length specl)) specl = true /\ (forall q, quit = Some q -> q < length specl) /\
  forallb (saction_wf (length specl)) acts = true.
Proof.
  unfold wf_session. rewrite !andb_true_iff. intros [[H1 H2] H3]. repeat split; auto.
  intros q ->. apply Nat.ltb_lt. exact H2.
Qed.

Lemma scmd_wf_mono n m : n <= m -> forall c, scmd_wf n c = true -> scmd_wf m c = true.
Proof.
  intros Hnm. apply (scmd_ind' (fun c => scmd_wf n c = true -> scmd_wf m c = true)).
  intros c Hc. destruct c; cbn [scmd_wf]; try (intros H; apply Nat.ltb_lt in H; apply Nat.ltb_lt; lia); try reflexivity.
  destruct Hc as [Ht He]. rewrite Forall_forall in Ht, He. intros H. apply andb_true_iff in H. destruct H as [H1 H2].
  rewrite (forallb_mono _ _ _ Ht H1), (forallb_mono _ _ _ He H2). reflexivity.
Qed.

Lemma cmds_wf_mono n m l : n <= m -> forallb (scmd_wf n) l = true -> forallb (scmd_wf m) l = true.
Proof. intros Hnm. apply forallb_mono. intros x _. apply scmd_wf_mono, Hnm. Qed.

Lemma spec_wf_mono n m sp : n <= m -> spec_wf n sp = true -> spec_wf m sp = true.
Proof.
  intros Hnm. unfold spec_wf. rewrite !andb_true_iff. intros [[[[[[H1 H2] H3] H4] H5] H6] H7].
  repeat split; try (eapply cmds_wf_mono; eassumption);
    (eapply forallb_mono; [|eassumption]); intros x _; apply cmds_wf_mono, Hnm.
Qed.

Lemma saction_wf_mono n m a : n <= m -> saction_wf n a = true -> saction_wf m a = true.
Proof. intros Hnm. destruct a; cbn [saction_wf]; [apply cmds_wf_mono; exact Hnm | auto]. Qed.

Lemma app_run_all_inv b specs specl typed quit run_empty fuel acts :
  failing_setup_plain specs ->
  (b = true -> (forall n, specs n = nth n specl default_spec) /\ wf_session specl quit acts = true) ->
  Acc typed b (snd (app_run_all specs specl typed quit run_empty fuel acts)) /\
  (Forall finished (fst (app_run_all specs specl typed quit run_empty fuel acts)) ->
   Inv typed b (length specl) [] [] (snd (app_run_all specs specl typed quit run_empty fuel acts))).
Proof.
  intros Hpl Hb.
  assert (Hwf : b = true -> forall x, spec_wf (length specl) (specs x) = true).
  { intros E. destruct (Hb E) as [Hs Hw]. apply (specs_allb _ _ _ Hs eq_refl), (wf_session_parts _ _ _ Hw). }
  unfold app_run_all.
  assert (H0 : Inv typed b (length specl) [] [] (init_state (sstate0 specl typed quit run_empty))).
  { apply Inv_init. intros E. split; [reflexivity|]. destruct (Hb E) as [_ Hw]. apply (wf_session_parts _ _ _ Hw). }
  destruct (app_initialize_inv typed b specs (length specl) _ H0) as (s1 & E1 & H1).
  rewrite E1.
  destruct (app_session specs fuel acts s1) as [os s'] eqn:E. cbn [fst snd].
  refine (session_inv typed b specs Hpl (length specl) Hwf fuel acts s1 os s' H1 _ E).
  intros E0. destruct (Hb E0) as [_ Hw]. apply (wf_session_parts _ _ _ Hw).
Qed.

(* under [failing_setup_plain], every session is accepted by C04 (b = false), and by C04 and C08 when it is well formed
   (b = true) *)
Theorem app_accepted b specs specl typed quit run_empty fuel acts :
  failing_setup_plain specs ->
  (b = true -> (forall n, specs n = nth n specl default_spec) /\ wf_session specl quit acts = true) ->
  acc_tr (chkb b) typed (trace (snd (app_run_all specs specl typed quit run_empty fuel acts))).
Proof. intros Hpl Hb. exact (proj1 (app_run_all_inv b specs specl typed quit run_empty fuel acts Hpl Hb)). Qed.

(* the link: what [Inv] says about a state between operations *)
Record slink (typed : list (option str)) (s : lstate sstate) : Prop := {
  sl_stack : map (fun e => (en_id e, en_scr e, en_args e, en_modal e)) (sw_stack (SW typed s)) =
             map (fun d => (sd_id d, sd_scr d, sd_args d, sd_modal d)) (st_stack (ust s));
  sl_nodup : NoDup (map sd_id (st_stack (ust s)));
  sl_fresh : Forall (fun d => sd_id d < st_next_sd (ust s)) (st_stack (ust s));
  sl_expect : sw_expect (SW typed s) = [];
  sl_failed : sw_failed (SW typed s) = None;
  sl_closed_pending : sw_closed_pending (SW typed s) = None }.

Lemma Inv_slink typed b nscr Ps pf s : Inv typed b nscr Ps pf s -> slink typed s.
Proof.
  intros [_ (pm & rdy & Hc & (L1 & L2) & _ & _)]. constructor.
  - rewrite (f_equal c_stack Hc : sw_stack (SW typed s) = map ent_of (st_stack (ust s))), map_map. reflexivity.
  - exact L1.
  - exact L2.
  - exact (f_equal c_expect Hc).
  - exact (f_equal c_failed Hc).
  - exact (f_equal c_cpend Hc).
Qed.

Lemma Inv_ready typed nscr Ps pf s :
  Inv typed true nscr Ps pf s -> forall x, mem x (sw_ready (SW typed s)) = ss_ready (scr_of (ust s) x).
Proof.
  intros [_ (pm & rdy & Hc & _ & _ & HR)] x. destruct (HR eq_refl) as (R1 & _).
  rewrite (f_equal c_ready Hc : sw_ready (SW typed s) = rdy). apply R1.
Qed.

Lemma Inv_pframes typed b nscr Ps pf s : Inv typed b nscr Ps pf s -> sw_pframes (SW typed s) = pf.
Proof.
  intros [_ (pm & rdy & Hc & _)]. exact (f_equal c_pframes Hc).
Qed.

Theorem app_slink b specs specl typed quit run_empty fuel acts :
  failing_setup_plain specs ->
  (b = true -> (forall n, specs n = nth n specl default_spec) /\ wf_session specl quit acts = true) ->
  Forall finished (fst (app_run_all specs specl typed quit run_empty fuel acts)) ->
  slink typed (snd (app_run_all specs specl typed quit run_empty fuel acts)).
Proof.
  intros Hpl Hb F. eapply Inv_slink. exact (proj2 (app_run_all_inv b specs specl typed quit run_empty fuel acts Hpl Hb) F).
Qed.

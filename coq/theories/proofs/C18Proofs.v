(* C18Proofs.v — "one outstanding input request unless bypassed; bypass hands off cleanly".
   chk_once accepts every well-formed session without handler objects (answered_once: a projection of proofs/InputLink.v
   [all_accepted]); what chk_C18 says, clause by clause; the example sessions of props/C18.v. *)
From SL Require Import Tac.
From SL Require Import PyInt LoopSem ScreenSem ScreenMon proofs.ListFacts proofs.ScreenFacts proofs.InputLink.
Import ListNotations.

(* every requester is answered at most once: when the application has no InputHandler objects of its own - every
   request has a fresh handler, which is all the framework itself ever does through InputManager - no handler gets a
   second ready signal *)
Theorem answered_once specs specl typed quit run_empty fuel acts :
  (forall n, specs n = nth n specl default_spec) -> wf_session specl quit acts = true ->
  no_handler_objects specl acts = true ->
  sok chk_once typed (rev (trace (snd (app_run_all specs specl typed quit run_empty fuel acts)))) = true.
Proof.
  intros HS WF NO. apply (accepted_by chk_once true); [|exact HS|apply wf_session_fresh; assumption].
  intros w e H. apply (chk_all_split _ _ _ _ _ H). reflexivity.
Qed.

(* the two fields of the world that this file follows through a step, read off [abs_step] *)
Lemma handoff_step w e : sw_handoff (sworld_step w e) = hand_after (absw w) e.
Proof. exact (f_equal m_hand (abs_step w e)). Qed.
Lemma received_step w e : sw_received (sworld_step w e) = recv_after (absw w) e.
Proof. exact (f_equal m_recv (abs_step w e)). Qed.

(* for reused handler objects "once" is per REQUEST: an accepted ready signal consumes exactly one entry of the
   hand-off list - the one it matches *)
Lemma ready_consumes_entry w n ok t : chk_C18 w (EUser T_READY [n; ok] t) = true ->
  exists x, fst (fst x) = n /\ snd (fst x) = (ok =? 1)%nat /\ streq (snd x) t = true /\
            Permutation.Permutation (sw_handoff w) (x :: sw_handoff (sworld_step w (EUser T_READY [n; ok] t))).
Proof.
  unfold chk_C18. cbn [Nat.eqb T_PROMPT T_REFUSED T_READY nth0 nth]. intros H.
  apply existsb_exists in H. destruct H as (x & I & H). exists x.
  assert (M : rmatch n (ok =? 1)%nat t x = true) by exact H.
  apply rmatch_spec in M.
  apply andb_true_iff in H. destruct H as [H H3]. apply andb_true_iff in H. destruct H as [H1 H2].
  apply Nat.eqb_eq in H1. apply eqb_prop in H2. repeat split; auto.
  assert (E : sw_handoff (sworld_step w (EUser T_READY [n; ok] t)) = remove_first (rmatch n (ok =? 1)%nat t) (sw_handoff w))
    by apply handoff_step.
  rewrite E. apply remove_first_perm; [exact I| |].
  - apply rmatch_spec. exact M.
  - intros y Hy. apply rmatch_spec in Hy. congruence.
Qed.

Lemma C18_waited_meaning w h n ok hv t : chk_C18 w (EUser T_WAITED [h; n; ok; hv] t) = true ->
  exists b v, alookup n (sw_last w) = Some (Some (b, v)) /\ b = (ok =? 1)%nat /\
              (b = true -> hv = 1 /\ streq v t = true).
Proof.
  unfold chk_C18. cbn [Nat.eqb T_PROMPT T_REFUSED T_READY T_GOT T_WAITED nth0 nth]. intros H.
  destruct (alookup n (sw_last w)) as [[[b v]|]|]; try discriminate H. exists b, v. split; [reflexivity|].
  apply andb_true_iff in H. destruct H as [H1 H2]. apply eqb_prop in H1. split; [exact H1|].
  intros ->. cbn [negb orb] in H2. apply andb_true_iff in H2. destruct H2 as [A B]. apply Nat.eqb_eq in A. auto.
Qed.

Lemma recv_mono_step w e n : mem n (sw_received w) = true -> mem n (sw_received (sworld_step w e)) = true.
Proof.
  rewrite received_step. intros H. destruct e; try exact H. cbn [recv_after m_recv absw]. destruct (_ =? _)%nat; [|exact H].
  rewrite mem_cons, H. apply orb_true_r.
Qed.

Theorem no_second_ready typed t1 n a1 x1 t2 a2 x2 t3 :
  sok chk_once typed (t1 ++ EUser T_READY (n :: a1) x1 :: t2 ++ EUser T_READY (n :: a2) x2 :: t3) = true -> False.
Proof.
  intros E.
  change (t1 ++ EUser T_READY (n :: a1) x1 :: t2 ++ EUser T_READY (n :: a2) x2 :: t3)
    with (t1 ++ (EUser T_READY (n :: a1) x1 :: t2) ++ EUser T_READY (n :: a2) x2 :: t3) in E.
  rewrite app_assoc in E. apply sok_event in E. rewrite fold_left_app in E. cbn [fold_left] in E.
  set (w1 := fold_left sworld_step t1 (sworld0 typed)) in *.
  assert (M : mem n (sw_received (sworld_step w1 (EUser T_READY (n :: a1) x1))) = true).
  { rewrite received_step. apply (orb_true_iff _ _). left. apply Nat.eqb_refl. }
  pose proof (fold_inv sworld_step _ (fun w e => recv_mono_step w e n) t2 _ M) as M2.
  unfold chk_once in E. cbn [T_READY Nat.eqb nth0 nth] in E. rewrite M2 in E. discriminate E.
Qed.

Lemma C18_refused_meaning w ids t : chk_C18 w (EUser T_REFUSED ids t) = true ->
  sw_istack w <> [] /\ exists n, ids = rev (sw_istack w) ++ [n].
Proof.
  unfold chk_C18. cbn [Nat.eqb T_REFUSED]. intros H.
  apply andb_true_iff in H. destruct H as [H H3]. apply andb_true_iff in H. destruct H as [H1 H2].
  apply negb_true_iff, Nat.eqb_neq in H1. apply Nat.eqb_eq in H2.
  split; [destruct (sw_istack w); [contradiction|discriminate]|].
  destruct (exists_last (l := ids)) as (pre & n & ->); [destruct ids; [discriminate|discriminate]|].
  exists n. f_equal. rewrite removelast_last in H3. rewrite app_length in H2. cbn in H2.
  assert (L : length pre = length (rev (sw_istack w))) by (rewrite rev_length; lia).
  revert H3 L. generalize (rev (sw_istack w)). clear. induction pre as [|x r IH]; intros [|y l] H L; try discriminate; [reflexivity|].
  cbn in H. apply andb_true_iff in H. destruct H as [E H]. apply Nat.eqb_eq in E. cbn in E. subst y. f_equal. apply IH; [exact H|]. cbn in L. lia.
Qed.

Lemma C18_prompt_meaning w n k t : chk_C18 w (EUser T_PROMPT [n; k] t) = true -> (k = 0 <-> sw_processing w = false).
Proof.
  unfold chk_C18. cbn [Nat.eqb T_PROMPT T_REFUSED nth0 nth]. intros H. apply eqb_prop in H.
  destruct (sw_processing w); cbn in H; split; intros X; try discriminate; try reflexivity.
  - subst k. discriminate H. - apply Nat.eqb_eq, H.
Qed.

Lemma C18_ready_meaning w n ok t : chk_C18 w (EUser T_READY [n; ok] t) = true ->
  exists x, In x (sw_handoff w) /\ fst (fst x) = n /\ snd (fst x) = (ok =? 1)%nat /\ streq (snd x) t = true.
Proof.
  intros H. destruct (ready_consumes_entry _ _ _ _ H) as (x & Hn & Hok & Ht & P). exists x.
  split; [apply (Permutation.Permutation_in _ (Permutation.Permutation_sym P)); left; reflexivity|auto].
Qed.

Lemma C18_got_meaning w scr n t : chk_C18 w (EUser T_GOT [scr; n] t) = true -> In n (sw_received w).
Proof.
  unfold chk_C18. cbn [Nat.eqb T_PROMPT T_REFUSED T_READY T_GOT nth0 nth]. unfold mem. intros H.
  apply existsb_exists in H. destruct H as (x & I & E). apply Nat.eqb_eq in E. subst x. exact I.
Qed.

(* example sessions: a screen that redraws itself twice while its prompt is outstanding *)
Definition ex18_spec (skip : bool) : screen_spec :=
  {| sc_setup := []; sc_refresh := []; sc_show := [SIfCount 2 [SRedrawSig] []]; sc_closed := [];
     sc_input := [([49%N], ([], RRedraw))];
     sc_input_default := ([], None); sc_prompt_none := false; sc_input_required := true;
     sc_no_separator := false; sc_skip_check := skip; sc_pages := 0; sc_answer0 := AnsNoAttr; sc_custom := []; sc_setup_cmds := [] |}.
Definition ex18_typed : list (option str) := [Some [49%N]; Some [50%N]; None].
Definition ex18_acts : list saction := [SACmds [SSchedule 0 0]; SARun].
Definition ex18_run (skip : bool) :=
  app_run_all (fun n => nth n [ex18_spec skip] default_spec) [ex18_spec skip] ex18_typed None false 2000 ex18_acts.
Definition ex18_trace (skip : bool) : list event := rev (trace (snd (ex18_run skip))).
Definition user_events (tag : nat) (t : list event) : list (list nat * str) :=
  flat_map (fun e => match e with EUser tg a x => if (tg =? tag)%nat then [(a, x)] else [] | _ => [] end) t.

(* the application's own InputHandler objects, type-ahead *)
Definition ex18h_run (acts : list saction) (typed : list (option str)) :=
  app_run_all (fun n => nth n [ex18_spec true] default_spec) [ex18_spec true] typed None false 2000 acts.
Definition ex18h_trace acts typed : list event := rev (trace (snd (ex18h_run acts typed))).
(* one object asks, waits, asks again, waits again: two requests, two answers *)
Definition ex18h_acts1 : list saction :=
  [SACmds [SSetTypeAhead true; SHandlerAsk 0 true; SHandlerWait 0; SHandlerAsk 0 true; SHandlerWait 0]].
Definition ex18h_typed1 : list (option str) := [Some [97%N]; Some [98%N]].
(* the user types ahead; three objects ask one after the other (check bypassed) before anything is processed; the most
   recent one is answered, the two earlier ones fail; then object 0 asks again and is superseded by object 1 *)
Definition ex18h_acts2 : list saction :=
  [SACmds [SSetTypeAhead true; SHandlerAsk 0 true; SHandlerAsk 1 true; SHandlerAsk 2 true;
           SHandlerWait 2; SHandlerWait 0; SHandlerWait 1;
           SHandlerAsk 0 true; SHandlerAsk 1 true; SHandlerWait 0; SHandlerWait 1]].
Definition ex18h_typed2 : list (option str) := [Some [97%N]; Some [98%N]; Some [99%N]].

(* ConcLocks.v — lock discipline of Conc.v: a thread is inside a `with` block iff it is the holder ([lock_ok]: [minv] for
   MainLoop._lock, [qinv] for every EventQueue._lock), and absence of deadlock ([progress], [no_deadlock]): a thread
   inside an EventQueue._lock never waits ([qlocked_enabled]), one inside MainLoop._lock waits for a queue lock at most
   ([mlocked_enabled]) — the locks are taken in the order MainLoop._lock, EventQueue._lock only. *)
From SL Require Import Tac.
From SL Require Import Conc proofs.ConcProofs.
Import ListNotations.

(* program points at which the thread holds MainLoop._lock *)
Definition mlocked (p : pc) : bool :=
  match p with
  | PE _ e =>
    match e with
    | EMkIter | ENext _ | EAcqQ _ _ | ETest _ _ | ERelQ _ _ _ | ERelMDone | ERelMFb => true
    | ECnt _ lk | EPut _ _ lk => lk
    | _ => false
    end
  | POApp _ | PORel _ | PCPop | PCRepoint | PCRel _ => true
  | _ => false
  end.
(* program points at which the thread holds the lock of queue object q *)
Definition qlocked (p : pc) : option nat :=
  match p with
  | PE _ (ETest q _) | PE _ (ERelQ q _ _) | PRAdd q _ | PRRel q => Some q
  | _ => None
  end.

Lemma tstep_mlock : forall t th h th' h', tstep t th h = Some (th', h') ->
  (h_mlock h' = h_mlock h /\ mlocked (t_pc th') = mlocked (t_pc th)) \/
  (h_mlock h = 0 /\ h_mlock h' = S t /\ mlocked (t_pc th) = false /\ mlocked (t_pc th') = true) \/
  (mlocked (t_pc th) = true /\ mlocked (t_pc th') = false /\ h_mlock h' = 0).
Proof.
  intros t th h th' h' H. destruct (tstep_spec _ _ _ _ _ H) as (l & h0 & -> & M). open_move M.
  all: cbn; auto 8.
Qed.

Lemma tstep_qlock : forall t th h th' h', tstep t th h = Some (th', h') ->
  (h_qlock h' = h_qlock h /\ qlocked (t_pc th') = qlocked (t_pc th)) \/
  (exists q, aget (h_qlock h) q = 0 /\ h_qlock h' = aset (h_qlock h) q (S t) /\
             qlocked (t_pc th) = None /\ qlocked (t_pc th') = Some q) \/
  (exists q, qlocked (t_pc th) = Some q /\ qlocked (t_pc th') = None /\ h_qlock h' = aset (h_qlock h) q 0).
Proof.
  intros t th h th' h' H. destruct (tstep_spec _ _ _ _ _ H) as (l & h0 & -> & M). open_move M.
  all: cbn; eauto 8.
Qed.

Definition minv (st : cstate) : Prop :=
  (forall t th, nth_error (c_thr st) t = Some th -> (mlocked (t_pc th) = true <-> h_mlock (c_sh st) = S t)) /\
  (forall u, h_mlock (c_sh st) = S u -> u < length (c_thr st)).
Definition qinv (st : cstate) : Prop :=
  (forall t th q, nth_error (c_thr st) t = Some th -> (qlocked (t_pc th) = Some q <-> aget (h_qlock (c_sh st)) q = S t)) /\
  (forall q u, aget (h_qlock (c_sh st)) q = S u -> u < length (c_thr st)).

(* one lock: the threads at a program point inside its `with` block, and its owner field (0 free, S t held by t) *)
Definition lock_ok (holds : pc -> Prop) (owner : nat) (thr : list thread) : Prop :=
  (forall t th, nth_error thr t = Some th -> (holds (t_pc th) <-> owner = S t)) /\
  (forall u, owner = S u -> u < length thr).

Lemma minv_locks : forall st, minv st <-> lock_ok (fun p => mlocked p = true) (h_mlock (c_sh st)) (c_thr st).
Proof. reflexivity. Qed.

Lemma qinv_locks : forall st,
  qinv st <-> forall q, lock_ok (fun p => qlocked p = Some q) (aget (h_qlock (c_sh st)) q) (c_thr st).
Proof.
  intros st. split.
  - intros [A B] q. split; [intros t th; apply A|apply B].
  - intros H. split; [intros t th q; apply (H q)|intros q; apply (H q)].
Qed.

Lemma lock_holder : forall holds owner thr u, lock_ok holds owner thr -> owner = S u ->
  exists th, nth_error thr u = Some th /\ holds (t_pc th).
Proof.
  intros holds owner thr u [L1 L2] E. destruct (nth_error thr u) as [th|] eqn:En.
  - exists th. split; [reflexivity|]. apply (L1 _ _ En), E.
  - apply nth_error_None in En. specialize (L2 _ E). lia.
Qed.

Lemma lock_excl : forall holds owner thr a x b y, lock_ok holds owner thr ->
  nth_error thr a = Some x -> nth_error thr b = Some y -> holds (t_pc x) -> holds (t_pc y) -> a = b.
Proof.
  intros holds owner thr a x b y [L _] Ha Hb Hx Hy.
  apply (L _ _ Ha) in Hx. apply (L _ _ Hb) in Hy. congruence.
Qed.

Section Lock.
  Variables (holds : pc -> Prop) (owner owner' : nat) (l1 l2 : list thread) (th th' : thread).
  Hypothesis L : lock_ok holds owner (l1 ++ th :: l2).

  Lemma lock_step : (holds (t_pc th') <-> owner' = S (length l1)) ->
    (forall v, v <> length l1 -> owner' = S v <-> owner = S v) -> lock_ok holds owner' (l1 ++ th' :: l2).
  Proof.
    intros Hme Hoth. destruct L as [L1 L2]. split.
    - apply (mid_lift (fun n a => holds (t_pc a) <-> owner = S n) (fun n a => holds (t_pc a) <-> owner' = S n) l1 th);
        [exact L1|auto|].
      intros n a Ne H. rewrite (Hoth n Ne). exact H.
    - intros v Hv. rewrite app_length in *. cbn [length] in *.
      destruct (Nat.eq_dec v (length l1)) as [->|Ne]; [lia|]. apply L2, Hoth; assumption.
  Qed.

  Lemma lock_frame : owner' = owner -> (holds (t_pc th') <-> holds (t_pc th)) -> lock_ok holds owner' (l1 ++ th' :: l2).
  Proof.
    intros E Hh. apply lock_step; [|rewrite E; tauto]. rewrite Hh, E. apply (proj1 L), nth_error_mid.
  Qed.

  Lemma lock_acquire : owner = 0 -> owner' = S (length l1) -> holds (t_pc th') -> lock_ok holds owner' (l1 ++ th' :: l2).
  Proof.
    intros E E' Hh. apply lock_step; [tauto|]. intros v Ne. rewrite E, E'.
    split; intros X; [inversion X; congruence|discriminate].
  Qed.

  Lemma lock_release : holds (t_pc th) -> owner' = 0 -> ~ holds (t_pc th') -> lock_ok holds owner' (l1 ++ th' :: l2).
  Proof.
    intros Hh E' Nh. apply (proj1 L _ _ (nth_error_mid _ _ _)) in Hh.
    apply lock_step; rewrite E'; [split; [tauto|discriminate]|]. intros v Ne. rewrite Hh.
    split; intros X; [discriminate|inversion X; congruence].
  Qed.
End Lock.

Lemma minv_step : forall t st, minv st -> minv (step t st).
Proof.
  intros t st M. rewrite minv_locks in *.
  destruct (stepP t st) as [t st|l1 th l2 h th' h' Ht]; [exact M|]. cbn [c_thr c_sh] in *.
  destruct (tstep_mlock _ _ _ _ _ Ht) as [(A & B)|[(A & B & C & D)|(A & B & C)]].
  - apply (lock_frame _ _ _ _ _ _ _ M A). rewrite B. tauto.
  - apply (lock_acquire _ _ _ _ _ _ _ M A B D).
  - apply (lock_release _ _ _ _ _ _ _ M A C). rewrite B. discriminate.
Qed.

Lemma qinv_step : forall t st, qinv st -> qinv (step t st).
Proof.
  intros t st Q. rewrite qinv_locks in *. intros q. specialize (Q q).
  destruct (stepP t st) as [t st|l1 th l2 h th' h' Ht]; [exact Q|]. cbn [c_thr c_sh] in *.
  destruct (tstep_qlock _ _ _ _ _ Ht) as [(A & B)|[(q0 & A & B & C & D)|(q0 & A & B & C)]].
  - apply (lock_frame _ _ _ _ _ _ _ Q); [rewrite A; reflexivity|rewrite B; tauto].
  - rewrite B. cbn [aget aset]. destruct (Nat.eqb_spec q0 q) as [->|Ne].
    + apply (lock_acquire _ _ _ _ _ _ _ Q A eq_refl D).
    + apply (lock_frame _ _ _ _ _ _ _ Q eq_refl). rewrite C, D.
      split; intros X; [inversion X; congruence|discriminate].
  - rewrite C. cbn [aget aset]. destruct (Nat.eqb_spec q0 q) as [->|Ne].
    + apply (lock_release _ _ _ _ _ _ _ Q A eq_refl). rewrite B. discriminate.
    + apply (lock_frame _ _ _ _ _ _ _ Q eq_refl). rewrite A, B.
      split; intros X; [discriminate|inversion X; congruence].
Qed.

Lemma minv_init : forall progs, minv (init progs).
Proof.
  intros; split.
  - intros t th H. destruct (init_nth _ _ _ H) as (p & _ & ->). cbn. split; discriminate.
  - cbn. discriminate.
Qed.
Lemma qinv_init : forall progs, qinv (init progs).
Proof.
  intros; split.
  - intros t th q H. destruct (init_nth _ _ _ H) as (p & _ & ->). cbn. split; discriminate.
  - cbn. discriminate.
Qed.

Lemma minv_reach : forall progs sch, minv (steps sch (init progs)).
Proof. intros. apply steps_inv; [apply minv_step|apply minv_init]. Qed.
Lemma qinv_reach : forall progs sch, qinv (steps sch (init progs)).
Proof. intros. apply steps_inv; [apply qinv_step|apply qinv_init]. Qed.

Lemma tstep_none : forall t th h, tstep t th h = None ->
  finished th = true \/ waiting_get th h = true \/
  (h_mlock h <> 0 /\ mlocked (t_pc th) = false) \/
  (exists q, aget (h_qlock h) q <> 0 /\ qlocked (t_pc th) = None).
Proof.
  intros t [prog p] h H.
  unfold tstep in H; cbn [t_pc t_prog] in H.
  unfold start, cont, enq, estep, close_empty in H.
  open_match H; try discriminate H.
  all: unfold finished, waiting_get; cbn [t_pc t_prog mlocked qlocked]; auto.
  all: try (match goal with Hp : pop_min _ _ = None |- _ => rewrite (pop_min_none _ _ Hp) end).
  all: try (match goal with Hr : h_run _ = true |- _ => rewrite Hr end); auto.
  all: try (right; right; left; split; [congruence|reflexivity]).
  all: right; right; right; eexists; split; [|reflexivity];
       match goal with Hq : aget (h_qlock _) _ = S _ |- _ => rewrite Hq end; discriminate.
Qed.

Lemma qlocked_enabled : forall t th h q, qlocked (t_pc th) = Some q -> tstep t th h <> None.
Proof.
  intros t [prog p] h q H. destruct p; try discriminate H; cbn [t_pc qlocked] in H.
  - destruct e; try discriminate H; unfold tstep, cont, enq, estep; cbn [t_pc t_prog]; discriminate.
  - unfold tstep, cont; cbn [t_pc t_prog]; discriminate.
  - unfold tstep, cont; cbn [t_pc t_prog]; discriminate.
Qed.

Lemma mlocked_enabled : forall t th h, mlocked (t_pc th) = true ->
  tstep t th h <> None \/ exists q, aget (h_qlock h) q <> 0 /\ qlocked (t_pc th) = None.
Proof.
  intros t th h H. destruct (tstep t th h) eqn:E; [left; discriminate|].
  right. destruct (tstep_none _ _ _ E) as [F|[W|[(A & B)|Q]]]; auto; destruct th as [prog p].
  - unfold finished in F. cbn [t_pc t_prog mlocked] in *. destruct p; try discriminate H; try discriminate F.
  - unfold waiting_get in W. cbn [t_pc t_prog] in *. destruct p; try discriminate H; try discriminate W.
  - cbn [mk t_pc] in *. congruence.
Qed.

Lemma enabled_iff : forall t st, enabled t st = true <->
  exists th, nth_error (c_thr st) t = Some th /\ tstep t th (c_sh st) <> None.
Proof.
  intros. unfold enabled. destruct (nth_error (c_thr st) t) as [th|].
  - destruct (tstep t th (c_sh st)) eqn:E; split; intros H; try discriminate.
    + exists th. split; [reflexivity|]. rewrite E. discriminate.
    + reflexivity.
    + destruct H as (th' & A & B). inversion A; subst. congruence.
  - split; [discriminate|]. intros (th & A & _). discriminate.
Qed.

Lemma holder_q_enabled : forall st q, qinv st -> aget (h_qlock (c_sh st)) q <> 0 -> exists u, enabled u st = true.
Proof.
  intros st q Q H. destruct (aget (h_qlock (c_sh st)) q) as [|u] eqn:E; [congruence|].
  destruct (lock_holder _ _ _ _ (proj1 (qinv_locks st) Q q) E) as (thu & Hu & Lu).
  exists u. apply enabled_iff. exists thu. split; [exact Hu|]. apply (qlocked_enabled _ _ _ q Lu).
Qed.

Lemma progress : forall st, minv st -> qinv st ->
  forall t th, nth_error (c_thr st) t = Some th ->
  finished th = true \/ waiting_get th (c_sh st) = true \/ exists u, enabled u st = true.
Proof.
  intros st M Q t th Ht.
  destruct (tstep t th (c_sh st)) eqn:E.
  { right; right. exists t. apply enabled_iff. exists th. split; [exact Ht|congruence]. }
  destruct (tstep_none _ _ _ E) as [F|[W|[(A & B)|(q & A & B)]]]; auto.
  - right; right.
    destruct (h_mlock (c_sh st)) as [|u] eqn:Eu; [congruence|].
    destruct (lock_holder (fun p => mlocked p = true) _ _ _ M Eu) as (thu & Hu & Lu).
    destruct (mlocked_enabled u thu (c_sh st) Lu) as [En|(q & A' & _)].
    + exists u. apply enabled_iff. eauto.
    + eapply holder_q_enabled; eauto.
  - right; right. eapply holder_q_enabled; eauto.
Qed.

Theorem no_deadlock_from : forall st, minv st -> qinv st ->
  (exists t, enabled t st = true) \/
  (forall t th, nth_error (c_thr st) t = Some th -> finished th = true \/ waiting_get th (c_sh st) = true).
Proof.
  intros st M Q.
  destruct (existsb (fun t => enabled t st) (seq 0 (length (c_thr st)))) eqn:E.
  - left. apply existsb_exists in E. destruct E as (t & _ & H). eauto.
  - right. intros t th Ht.
    destruct (progress st M Q t th Ht) as [F|[W|(u & Hu)]]; auto.
    exfalso. assert (X : existsb (fun t => enabled t st) (seq 0 (length (c_thr st))) = true).
    { apply existsb_exists. exists u. split; [|exact Hu]. apply in_seq.
      apply enabled_iff in Hu. destruct Hu as (thu & A & _).
      assert (u < length (c_thr st)) by (apply nth_error_Some; congruence). lia. }
    congruence.
Qed.

Theorem no_deadlock : forall progs sch, let st := steps sch (init progs) in
  (exists t, enabled t st = true) \/
  (forall t th, nth_error (c_thr st) t = Some th -> finished th = true \/ waiting_get th (c_sh st) = true).
Proof. intros progs sch. apply no_deadlock_from; [apply minv_reach|apply qinv_reach]. Qed.

(* TextWrapProofs.v — lemmas about textwrap's _wrap_chunks / _handle_long_word as modelled in TextWrap.v:
   termination (the fuel suffices), width bound, conservation of non-blank characters, shape of the
   produced lines, greediness.  Render-level consequences are in TextWrapRender.v. *)
From SL Require Import Tac proofs.ListFacts.
From SL Require Import PyInt Widget TextWrap.
Import ListNotations.
Local Open Scope nat_scope.

Definition nonblank (s : str) : str := filter (fun c => negb (is_py_space c)) s.

(* the pieces wrap_step is made of *)
Definition drop_lead (chunks : list str) (first : bool) : list str :=
  match chunks with c :: r => if all_blank c && negb first then r else chunks | [] => [] end.
Definition trim_last (cur : list str) : list str :=
  match rev cur with lastc :: before => if all_blank lastc then rev before else cur | [] => cur end.
Definition line_of (cur : list str) : option str :=
  match cur with [] => None | _ => Some (concat cur) end.
Definition space_left (w cur_len : nat) : nat := if w <? 1 then 1 else w - cur_len.

Definition opt_line (l : option str) : list str := match l with Some l => [l] | None => [] end.
Definition is_nil {A} (l : list A) : bool := match l with [] => true | _ => false end.

(* the loop measure: every iteration consumes a chunk or a character *)
Definition measure (cs : list str) : nat := total_len cs + length cs.

Lemma total_len_app a b : total_len (a ++ b) = total_len a + total_len b.
Proof. induction a as [|x a IH]; simpl; lia. Qed.

Lemma length_concat (cs : list str) : length (concat cs) = total_len cs.
Proof. induction cs as [|c cs IH]; simpl; [|rewrite app_length]; lia. Qed.

Lemma nonblank_app a b : nonblank (a ++ b) = nonblank a ++ nonblank b.
Proof. apply filter_app. Qed.

Lemma all_blank_nonblank c : all_blank c = true -> nonblank c = [].
Proof.
  unfold all_blank, nonblank. induction c as [|x c IH]; cbn [forallb filter]; intros H; [reflexivity|].
  apply andb_true_iff in H. destruct H as [H1 H2]. rewrite H1. cbn [negb]. auto.
Qed.

Lemma concat_snoc (l : list str) (x : str) : concat (l ++ [x]) = concat l ++ x.
Proof. rewrite concat_app. simpl. rewrite app_nil_r. reflexivity. Qed.

Lemma rfind_hyphen_range s : forall n idx best h,
  rfind_hyphen s n idx best = Some h -> best = Some h \/ (idx <= h < idx + n).
Proof.
  induction s as [|c r IH]; intros n idx best h H; destruct n as [|n']; simpl in H; auto.
  apply IH in H. destruct H as [H|H]; [|right; lia].
  destruct (c =? HY)%N; [inversion H; right; lia | auto].
Qed.

Lemma break_point_le c sl : break_point c sl <= sl.
Proof.
  unfold break_point. destruct (sl <? length c); [|lia].
  destruct (rfind_hyphen c sl 0 None) as [h|] eqn:E; [|lia].
  apply rfind_hyphen_range in E. destruct E as [E|E]; [discriminate|].
  destruct (_ && _); lia.
Qed.

Lemma break_point_pos c sl : 1 <= sl -> 1 <= break_point c sl.
Proof.
  intros Hsl. unfold break_point. destruct (sl <? length c); [|lia].
  destruct (rfind_hyphen c sl 0 None) as [h|] eqn:E; [|lia].
  destruct (_ && _); lia.
Qed.

Lemma space_left_le w cl : 1 <= w -> space_left w cl <= w - cl.
Proof. intros H. unfold space_left. destruct (w <? 1) eqn:E; [apply Nat.ltb_lt in E|]; lia. Qed.

Lemma space_left_pos w : 1 <= space_left w 0.
Proof. unfold space_left. destruct (w <? 1) eqn:E; [|apply Nat.ltb_ge in E]; lia. Qed.

Lemma take_fitting_spec w : forall chunks cur cl cur' cl' rest,
  take_fitting chunks cur cl w = (cur', cl', rest) -> cl = total_len cur ->
  cur ++ chunks = cur' ++ rest /\ cl' = total_len cur' /\ (cl <= w -> cl' <= w) /\
  (forall c r, rest = c :: r -> cl' + length c > w).
Proof.
  induction chunks as [|c r IH]; intros cur cl cur' cl' rest H Hcl; simpl in H.
  - inversion H; subst. repeat split; auto. intros; discriminate.
  - destruct (cl + length c <=? w) eqn:E.
    + apply IH in H; [|rewrite total_len_app; simpl; lia].
      destruct H as (A & B & C & D). rewrite <- app_assoc in A. simpl in A.
      apply Nat.leb_le in E. repeat split; auto.
    + inversion H; subst. apply Nat.leb_gt in E. repeat split; auto.
      intros c0 r0 Heq; inversion Heq; subst. lia.
Qed.

(* One iteration, after the optional removal of a leading blank chunk: [cur] is the longest prefix of the
   chunks that fits.  Either it is the line and the next chunk, if any, waits for the next line; or the next
   chunk fits on no line at all and its first [e] characters are added to [cur]. *)
Lemma wrap_step_spec chunks w first :
  exists cur rest,
    drop_lead chunks first = cur ++ rest /\ total_len cur <= w /\
    (forall c r, rest = c :: r -> w < total_len cur + length c) /\
    ((wrap_step chunks w first = (line_of (trim_last cur), rest) /\
      forall c r, rest = c :: r -> length c <= w) \/
     exists c r, rest = c :: r /\ w < length c /\
       let e := break_point c (space_left w (total_len cur)) in
       wrap_step chunks w first = (line_of (trim_last (cur ++ [firstn e c : str])), (skipn e c : str) :: r)).
Proof.
  unfold wrap_step. fold (drop_lead chunks first).
  destruct (take_fitting (drop_lead chunks first) [] 0 w) as [[cur cl] rest] eqn:E.
  apply take_fitting_spec in E; [|reflexivity]. simpl in E. destruct E as (A & -> & C & D).
  exists cur, rest. split; [exact A|]. split; [lia|]. split; [exact D|].
  destruct rest as [|c r]; [left; split; [reflexivity|discriminate]|].
  destruct (w <? length c) eqn:L.
  - right. exists c, r. split; [reflexivity|]. split; [lia|reflexivity].
  - left. split; [reflexivity|]. intros c0 r0 [= <- _]. lia.
Qed.

Lemma trim_last_cases cur :
  trim_last cur = cur \/ exists lastc, cur = trim_last cur ++ [lastc] /\ all_blank lastc = true.
Proof.
  unfold trim_last. destruct (rev cur) as [|lastc before] eqn:E; [left; reflexivity|].
  destruct (all_blank lastc) eqn:B; [right|left; reflexivity].
  exists lastc. split; [|exact B].
  rewrite <- (rev_involutive cur), E. reflexivity.
Qed.

Lemma line_of_opt cur : concat (opt_line (line_of cur)) = concat cur.
Proof. destruct cur; simpl; [reflexivity|]. rewrite app_nil_r. reflexivity. Qed.

Lemma drop_lead_cases chunks first :
  drop_lead chunks first = chunks \/
  exists c, chunks = c :: drop_lead chunks first /\ all_blank c = true /\ first = false.
Proof.
  destruct chunks as [|c r]; [left; reflexivity|]. simpl.
  destruct (all_blank c) eqn:B; destruct first; simpl; auto.
  right. exists c. auto.
Qed.

Lemma measure_app a b : measure (a ++ b) = measure a + measure b.
Proof. unfold measure. rewrite total_len_app, app_length. lia. Qed.

Lemma measure_cons c cs : measure (c :: cs) = S (length c + measure cs).
Proof. unfold measure. simpl. lia. Qed.

(* a whole chunk is consumed, or (cur = []) at least one character of a chunk that is too long *)
Lemma wrap_step_decreases chunks w first :
  chunks <> [] -> measure (snd (wrap_step chunks w first)) < measure chunks.
Proof.
  intros Hne.
  assert (Hd : measure (drop_lead chunks first) <= measure chunks).
  { destruct (drop_lead_cases chunks first) as [->|(c & H & _)]; [lia|]. rewrite H at 2. rewrite measure_cons. lia. }
  assert (Hp : 1 <= measure chunks) by (destruct chunks; [congruence|rewrite measure_cons; lia]).
  destruct (wrap_step_spec chunks w first) as (cur & rest & A & _ & C & [[E F]|(c & r & -> & L & E)]);
    rewrite E; cbn [snd]; rewrite A, measure_app in Hd.
  - destruct cur as [|c0 cur]; [|rewrite measure_cons in Hd; lia].
    destruct rest as [|c r]; [exact Hp|].
    specialize (C c r eq_refl). specialize (F c r eq_refl). simpl in C. lia.
  - rewrite !measure_cons in *. rewrite skipn_length.
    destruct cur as [|c0 cur]; [|rewrite measure_cons in Hd; lia].
    pose proof (break_point_pos c (space_left w 0) (space_left_pos w)). cbn [total_len]. lia.
Qed.

Lemma wrap_loop_S f c r w lines :
  wrap_loop (S f) (c :: r) w lines =
  wrap_loop f (snd (wrap_step (c :: r) w (is_nil lines))) w
            (lines ++ opt_line (fst (wrap_step (c :: r) w (is_nil lines)))).
Proof.
  cbn [wrap_loop]. fold (is_nil lines).
  destruct (wrap_step (c :: r) w (is_nil lines)) as [[l|] rest]; cbn [fst snd opt_line];
    [|rewrite app_nil_r]; reflexivity.
Qed.

Lemma wrap_loop_fuel w : forall fuel chunks lines,
  measure chunks < fuel -> wrap_loop fuel chunks w lines <> None.
Proof.
  induction fuel as [|f IH]; intros chunks lines H; [lia|].
  destruct chunks as [|c r]; [simpl; discriminate|].
  rewrite wrap_loop_S. apply IH.
  assert (D : c :: r <> []) by discriminate.
  apply (wrap_step_decreases (c :: r) w (is_nil lines)) in D. lia.
Qed.

Lemma wrap_chunks_fuel_enough chunks w : wrap_chunks chunks w <> None.
Proof. unfold wrap_chunks, wrap_fuel. apply wrap_loop_fuel. unfold measure. lia. Qed.

Lemma wrap_all_total chunkss w : wrap_all chunkss w <> None.
Proof.
  induction chunkss as [|cs r IH]; simpl; [discriminate|].
  destruct (wrap_chunks cs w) eqn:E; [|exfalso; eapply wrap_chunks_fuel_enough; eauto].
  destruct (wrap_all r w); [discriminate|congruence].
Qed.

Lemma wrap_loop_inv w (I : list str -> list str -> Prop) :
  (forall chunks lines, chunks <> [] -> I chunks lines ->
     I (snd (wrap_step chunks w (is_nil lines)))
       (lines ++ opt_line (fst (wrap_step chunks w (is_nil lines))))) ->
  forall fuel chunks lines out,
    I chunks lines -> wrap_loop fuel chunks w lines = Some out -> I [] out.
Proof.
  intros Hstep. induction fuel as [|f IH]; intros chunks lines out HI H.
  - destruct chunks; simpl in H; [inversion H; subst; auto | discriminate].
  - destruct chunks as [|c r]; [simpl in H; inversion H; subst; auto|].
    rewrite wrap_loop_S in H. eapply IH; [|exact H]. apply Hstep; [discriminate|exact HI].
Qed.

Lemma wrap_chunks_Forall (Q : str -> Prop) w :
  (forall cs first, Forall Q cs ->
     Forall Q (opt_line (fst (wrap_step cs w first))) /\ Forall Q (snd (wrap_step cs w first))) ->
  forall chunks ls, Forall Q chunks -> wrap_chunks chunks w = Some ls -> Forall Q ls.
Proof.
  intros Hstep chunks ls HQ H.
  apply (wrap_loop_inv w (fun cs lines => Forall Q cs /\ Forall Q lines)) in H; [tauto| |split; [exact HQ|constructor]].
  intros cs lines _ [H1 H2]. destruct (Hstep cs (is_nil lines) H1) as [S1 S2].
  split; [exact S2|]. apply Forall_app; auto.
Qed.

Lemma total_len_trim cur : total_len (trim_last cur) <= total_len cur.
Proof.
  destruct (trim_last_cases cur) as [H|(l & H & _)]; [rewrite H; lia|].
  rewrite H at 2. rewrite total_len_app. lia.
Qed.

Lemma line_of_trim_width cur w l : total_len cur <= w -> line_of (trim_last cur) = Some l -> length l <= w.
Proof.
  intros Hc Hl. pose proof (total_len_trim cur) as T.
  destruct (trim_last cur); simpl in Hl; [discriminate|].
  inversion Hl; subst. rewrite <- concat_cons, length_concat. exact (Nat.le_trans _ _ _ T Hc).
Qed.

Lemma wrap_step_width chunks w first l :
  1 <= w -> fst (wrap_step chunks w first) = Some l -> length l <= w.
Proof.
  intros Hw H.
  destruct (wrap_step_spec chunks w first) as (cur & rest & _ & B & _ & [[E _]|(c & r & _ & _ & E)]);
    rewrite E in H; (eapply line_of_trim_width; [|exact H]); [exact B|].
  rewrite total_len_app. cbn [total_len]. rewrite firstn_length.
  pose proof (break_point_le c (space_left w (total_len cur))).
  pose proof (space_left_le w (total_len cur) Hw). lia.
Qed.

Lemma wrap_chunks_width chunks w ls :
  1 <= w -> wrap_chunks chunks w = Some ls -> Forall (fun l => length l <= w) ls.
Proof.
  intros Hw H.
  apply (wrap_loop_inv w (fun _ lines => Forall (fun l => length l <= w) lines)) in H; auto.
  intros cs lines _ HI. apply Forall_app. split; [exact HI|].
  destruct (fst (wrap_step cs w (is_nil lines))) as [l|] eqn:E; simpl; constructor; auto.
  eapply wrap_step_width; eauto.
Qed.

Lemma nonblank_trim cur : nonblank (concat (trim_last cur)) = nonblank (concat cur).
Proof.
  destruct (trim_last_cases cur) as [H|(l & H & B)]; [rewrite H; reflexivity|].
  rewrite H at 2. rewrite concat_snoc, nonblank_app, (all_blank_nonblank l B), app_nil_r. reflexivity.
Qed.

Lemma nonblank_drop_lead chunks first :
  nonblank (concat (drop_lead chunks first)) = nonblank (concat chunks).
Proof.
  destruct (drop_lead_cases chunks first) as [H|(c & H & B & _)]; [rewrite H; reflexivity|].
  rewrite H at 2. simpl. rewrite nonblank_app, (all_blank_nonblank c B). reflexivity.
Qed.

Lemma wrap_step_conserves chunks w first :
  nonblank (concat (opt_line (fst (wrap_step chunks w first)))) ++
  nonblank (concat (snd (wrap_step chunks w first))) = nonblank (concat chunks).
Proof.
  rewrite <- (nonblank_drop_lead chunks first).
  destruct (wrap_step_spec chunks w first) as (cur & rest & A & _ & _ & [[E _]|(c & r & -> & _ & E)]);
    rewrite A, E; cbn [fst snd]; rewrite line_of_opt, nonblank_trim, <- nonblank_app, <- concat_app; [reflexivity|].
  rewrite <- app_assoc, !concat_app. cbn [app concat]. rewrite app_nil_r, (app_assoc (firstn _ c)), firstn_skipn. reflexivity.
Qed.

Lemma wrap_chunks_conserves chunks w ls :
  wrap_chunks chunks w = Some ls -> nonblank (concat ls) = nonblank (concat chunks).
Proof.
  intros H.
  apply (wrap_loop_inv w (fun cs lines =>
           nonblank (concat lines) ++ nonblank (concat cs) = nonblank (concat chunks))) in H.
  - simpl in H. rewrite app_nil_r in H. exact H.
  - intros cs lines _ HI. rewrite concat_app, nonblank_app, <- app_assoc, wrap_step_conserves. exact HI.
  - reflexivity.
Qed.

Lemma Forall_trim {P : str -> Prop} cur : Forall P cur -> Forall P (trim_last cur).
Proof.
  intros H. destruct (trim_last_cases cur) as [E|(l & E & _)]; [rewrite E; exact H|].
  rewrite E in H. apply Forall_app in H. tauto.
Qed.

Lemma Forall_drop_lead {P : str -> Prop} chunks first : Forall P chunks -> Forall P (drop_lead chunks first).
Proof.
  intros H. destruct (drop_lead_cases chunks first) as [E|(l & E & _)]; [rewrite E; exact H|].
  rewrite E in H. inversion H; auto.
Qed.

Lemma Forall_line_of (P : char -> Prop) cur : Forall (Forall P) cur -> Forall (Forall P) (opt_line (line_of cur)).
Proof.
  intros H. destruct cur as [|c cur]; simpl; [constructor|]. constructor; [|constructor].
  rewrite <- concat_cons. apply Forall_concat. exact H.
Qed.

Lemma wrap_step_chars (P : char -> Prop) chunks w first :
  Forall (Forall P) chunks ->
  Forall (Forall P) (opt_line (fst (wrap_step chunks w first))) /\
  Forall (Forall P) (snd (wrap_step chunks w first)).
Proof.
  intros H. apply (Forall_drop_lead _ first) in H.
  destruct (wrap_step_spec chunks w first) as (cur & rest & A & _ & _ & [[E _]|(c & r & -> & _ & E)]);
    rewrite A in H; apply Forall_app in H; destruct H as [H1 H2]; rewrite E; cbn [fst snd].
  - split; [|exact H2]. apply Forall_line_of, Forall_trim, H1.
  - inversion H2; subst. split.
    + apply Forall_line_of, Forall_trim, Forall_app. split; [exact H1|].
      constructor; [|constructor]. apply Forall_firstn; auto.
    + constructor; auto. apply Forall_skipn; auto.
Qed.

Lemma wrap_chunks_chars (P : char -> Prop) chunks w ls :
  Forall (Forall P) chunks -> wrap_chunks chunks w = Some ls -> Forall (Forall P) ls.
Proof. apply wrap_chunks_Forall. intros cs first. apply wrap_step_chars. Qed.

Definition nonempty (c : str) : Prop := c <> [].

Lemma line_of_nonempty cur : Forall nonempty cur -> Forall nonempty (opt_line (line_of cur)).
Proof.
  intros H. destruct cur as [|c cur]; simpl; constructor; [|constructor].
  inversion H; subst. destruct c; [unfold nonempty in *; congruence|discriminate].
Qed.

(* trimming also removes the empty piece [firstn 0 c] of the long-word path: all_blank [] = true *)
Lemma trim_last_snoc_nil cur : trim_last (cur ++ [[]]) = cur.
Proof. unfold trim_last. rewrite rev_app_distr. simpl. apply rev_involutive. Qed.

Lemma wrap_step_nonempty chunks w first :
  1 <= w -> Forall nonempty chunks ->
  Forall nonempty (opt_line (fst (wrap_step chunks w first))) /\
  Forall nonempty (snd (wrap_step chunks w first)).
Proof.
  intros Hw H. apply (Forall_drop_lead _ first) in H.
  destruct (wrap_step_spec chunks w first) as (cur & rest & A & _ & _ & [[E _]|(c & r & -> & L & E)]);
    rewrite A in H; apply Forall_app in H; destruct H as [H1 H2]; rewrite E; cbn [fst snd].
  - split; [|exact H2]. apply line_of_nonempty, Forall_trim, H1.
  - pose proof (break_point_le c (space_left w (total_len cur))) as Ble.
    pose proof (space_left_le w (total_len cur) Hw) as Sle.
    set (e := break_point c (space_left w (total_len cur))) in *.
    inversion H2; subst. split.
    + apply line_of_nonempty. destruct e as [|e'] eqn:Ee.
      * cbn [firstn]. rewrite trim_last_snoc_nil. exact H1.
      * apply Forall_trim, Forall_app. split; [exact H1|]. constructor; [|constructor].
        destruct c; [simpl in L; lia|]. simpl. unfold nonempty; discriminate.
    + constructor; [|assumption]. unfold nonempty. intros E0.
      apply (f_equal (@length _)) in E0. rewrite skipn_length in E0. simpl in E0. lia.
Qed.

Lemma wrap_chunks_nonempty chunks w ls :
  1 <= w -> Forall nonempty chunks -> wrap_chunks chunks w = Some ls -> Forall nonempty ls.
Proof. intros Hw. apply wrap_chunks_Forall. intros cs first. apply wrap_step_nonempty, Hw. Qed.

Lemma take_fitting_greedy chunks w cur cl rest :
  take_fitting chunks [] 0 w = (cur, cl, rest) ->
  chunks = cur ++ rest /\ cl = total_len cur /\ cl <= w /\
  (forall c r, rest = c :: r -> cl + length c > w).
Proof.
  intros H. apply take_fitting_spec in H; [|reflexivity]. simpl in H.
  destruct H as (A & B & C & D). repeat split; auto. apply C. lia.
Qed.

Lemma wrap_step_greedy chunks w first :
  1 <= w ->
  exists cur rest,
    drop_lead chunks first = cur ++ rest /\ total_len cur <= w /\
    match rest with
    | [] => wrap_step chunks w first = (line_of (trim_last cur), [])
    | c :: r =>
        total_len cur + length c > w /\
        wrap_step chunks w first =
          if w <? length c then
            let e := break_point c (w - total_len cur) in
            (line_of (trim_last (cur ++ [firstn e c])), skipn e c :: r)
          else (line_of (trim_last cur), c :: r)
    end.
Proof.
  intros Hw. destruct (wrap_step_spec chunks w first) as (cur & rest & A & B & C & D).
  exists cur, rest. split; [exact A|]. split; [exact B|].
  destruct D as [[E F]|(c & r & -> & L & E)].
  - destruct rest as [|c r]; [exact E|]. split; [exact (C c r eq_refl)|].
    specialize (F c r eq_refl). replace (w <? length c) with false by lia. exact E.
  - split; [exact (C c r eq_refl)|]. replace (w <? length c) with true by lia.
    unfold space_left in E. replace (w <? 1) with false in E by lia. exact E.
Qed.

Lemma wrap_step_long_word c r w first :
  1 <= w -> w < length c -> (first = true \/ all_blank c = false) ->
  wrap_step (c :: r) w first =
    ((if all_blank (firstn (break_point c w) c) then None else Some (firstn (break_point c w) c)),
     skipn (break_point c w) c :: r).
Proof.
  intros Hw L Hf. unfold wrap_step.
  replace (all_blank c && negb first) with false
    by (destruct Hf as [Hf|Hf]; rewrite Hf; [rewrite andb_false_r|]; reflexivity).
  cbn [take_fitting].
  replace (0 + length c <=? w) with false by (symmetry; apply Nat.leb_gt; lia).
  replace (w <? length c) with true by (symmetry; apply Nat.ltb_lt; lia).
  replace (w <? 1) with false by (symmetry; apply Nat.ltb_ge; lia).
  rewrite Nat.sub_0_r. cbn [app rev].
  destruct (all_blank (firstn (break_point c w) c)); cbn [rev concat]; rewrite ?app_nil_r; reflexivity.
Qed.

Lemma all_blank_split c e : all_blank c = true -> all_blank (firstn e c) = true /\ all_blank (skipn e c) = true.
Proof.
  intros H. rewrite <- (firstn_skipn e c) in H. unfold all_blank in *. rewrite forallb_app in H.
  apply andb_true_iff in H. exact H.
Qed.

Lemma trim_last_blank1 c : all_blank c = true -> trim_last [c] = [].
Proof. intros H. unfold trim_last. cbn [rev app]. rewrite H. reflexivity. Qed.

(* the chunk list of a source line made of whitespace only is one blank chunk (or none): no line comes out,
   whatever the width and however long the run is *)
Lemma wrap_chunks_blank c w ls : all_blank c = true -> wrap_chunks [c] w = Some ls -> ls = [].
Proof.
  intros Hb H.
  apply (wrap_loop_inv w (fun cs lines => lines = [] /\ (cs = [] \/ exists c0, cs = [c0] /\ all_blank c0 = true))) in H;
    [tauto| |split; [reflexivity|right; exists c; auto]].
  intros cs lines Hne [-> [Hcs|(c0 & -> & Hb0)]]; [congruence|]. cbn [is_nil app].
  destruct (wrap_step_spec [c0] w true) as (cur & rest & A & _ & C & [[E F]|(c1 & r & -> & _ & E)]);
    cbn [drop_lead] in A; rewrite andb_false_r in A; rewrite E; cbn [fst snd].
  - destruct cur as [|x cur].
    + cbn [app] in A. subst rest. specialize (C _ _ eq_refl). specialize (F _ _ eq_refl). simpl in C. lia.
    + injection A as <- Hr. symmetry in Hr. apply app_eq_nil in Hr. destruct Hr as [-> ->].
      rewrite (trim_last_blank1 _ Hb0). cbn [line_of opt_line]. auto.
  - destruct cur as [|x cur]; [|injection A as _ Hr; destruct cur; discriminate].
    injection A as <- <-. cbn [app]. set (e := break_point c0 _).
    destruct (all_blank_split c0 e Hb0) as [F S]. rewrite (trim_last_blank1 _ F). cbn [line_of opt_line]. split; [reflexivity|].
    right. eexists. split; [reflexivity|exact S].
Qed.

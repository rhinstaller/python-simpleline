(* C09sProofs.v -- the screen-level part of C09: run() refuses an empty stack, closing the last screen
   ends the loop, an empty stack ends the handler with ExitMainLoop, and ExitMainLoop reaches run(). *)
From SL Require Import Tac.
From RecordUpdate Require Import RecordUpdate.
From SL Require Import PyInt LoopSem ScreenSem ScreenMon proofs.ExecEqs proofs.C02Proofs.
Import ListNotations.

Definition continue_session (specs : nat -> screen_spec) (fuel : nat) (r : list saction)
           (res : outcome * lstate sstate) : list outcome * lstate sstate :=
  let '(o, s1) := res in
  match o with
  | OBlocked | OFuel | OThrow XSysExit => ([o], s1)
  | _ => let '(os, s2) := app_session specs fuel r s1 in (o :: os, s2)
  end.

Lemma run_refuses_empty specs fuel r s :
  st_stack (ust s) = [] -> st_run_empty (ust s) = false ->
  app_session specs fuel (SARun :: r) s = continue_session specs fuel r (OThrow XError, emit ETop s).
Proof. intros H1 H2. cbn [app_session continue_session]. rewrite H1, H2. reflexivity. Qed.

Lemma run_refuses_empty_events specs fuel r s :
  st_stack (ust s) = [] -> st_run_empty (ust s) = false ->
  app_session specs fuel (SARun :: r) s =
  (OThrow XError :: fst (app_session specs fuel r (emit ETop s)), snd (app_session specs fuel r (emit ETop s))).
Proof.
  intros H1 H2. rewrite run_refuses_empty by assumption. cbn [continue_session].
  destruct (app_session specs fuel r (emit ETop s)); reflexivity.
Qed.

Lemma run_starts specs fuel r s :
  st_stack (ust s) <> [] \/ st_run_empty (ust s) = true ->
  app_session specs fuel (SARun :: r) s =
  continue_session specs fuel r (exec (screen_code specs) fuel CRun (emit ETop s)).
Proof.
  intros H. cbn [app_session continue_session].
  destruct (st_stack (ust s)) as [|d l] eqn:E1; [|reflexivity].
  destruct H as [H|H]; [congruence|]. rewrite H. reflexivity.
Qed.

Section Close.
  Variable specs : nat -> screen_spec.
  Notation code := (screen_code specs).

  Lemma seq_normal f (p q : sprog) s s' :
    exec code f (CProg (p ;; q)) s = (ONormal, s') -> exists f' s1, exec code f' (CProg q) s1 = (ONormal, s').
  Proof.
    destruct f as [|f]; [discriminate|]. rewrite exec_seq.
    destruct (exec code f (CProg p) s) as [[] s1]; try discriminate. eauto.
  Qed.

  Lemma rd_normal f (k : sstate -> sprog) s s' :
    exec code f (CProg (rd k)) s = (ONormal, s') -> exists f', exec code f' (CProg (k (ust s))) s = (ONormal, s').
  Proof. destruct f as [|f]; [discriminate|]. unfold rd. rewrite (exec_rd code). eauto. Qed.

  (* the last statement of close_screen raises ExitMainLoop on an empty stack and changes nothing *)
  Lemma close_normal_nonempty f cf s o s' :
    exec code f (CProg (close_screen specs cf)) s = (o, s') -> o = ONormal -> st_stack (ust s') <> [].
  Proof.
    intros E ->. unfold close_screen in E.
    apply seq_normal in E as (f1 & s1 & E). apply rd_normal in E as (f2 & E).
    destruct (st_stack (ust s1)) as [|top r]. { destruct f2; discriminate E. }
    do 6 (apply seq_normal in E as (? & ? & E)). apply rd_normal in E as (f3 & E).
    destruct (st_stack (ust _)) eqn:Es; destruct f3; try discriminate E. injection E as <-. rewrite Es. discriminate.
  Qed.

  Lemma close_empties_not_normal f cf s o s' :
    exec code f (CProg (close_screen specs cf)) s = (o, s') -> st_stack (ust s') = [] -> o <> ONormal.
  Proof. intros E Hs Ho. exact (close_normal_nonempty f cf s o s' E Ho Hs). Qed.

  Lemma call_closed_plain f d s :
    sc_closed (specs (sd_scr d)) = [] ->
    exec code (4 + f) (CProg (call_closed specs d)) s =
    (ONormal, emit (EUser T_CLOSED [sd_id d; sd_scr d] [])
                   (s <| ust := upd_scr (sd_scr d) (fun x => x <| ss_n_closed := S (ss_n_closed (scr_of (ust s) (sd_scr d))) |>)
                                        (ust s) |>)).
  Proof.
    intros Hc. unfold call_closed, rd. cbn [Nat.add]. rewrite (exec_rd code). cbv beta zeta. rewrite Hc.
    erewrite exec_seq_next by apply exec_wr. erewrite exec_seq_next by apply exec_emit. apply exec_ret.
  Qed.

  Lemma close_last_exits f s top :
    st_stack (ust s) = [top] -> sd_modal top = false -> sc_closed (specs (sd_scr top)) = [] ->
    exists s', exec code (30 + f) (CProg (close_screen specs None)) s = (OThrow XExit, s') /\
      trace s' = [EUser T_CLOSED [sd_id top; sd_scr top] [];
                  EUser T_STACK [K_POP; sd_id top; sd_scr top; sd_args top; 0] [];
                  EUser T_OP [O_CLOSE; 0; 0] []] ++ trace s /\
      st_stack (ust s') = [].
  Proof.
    intros Hs Hm Hc. cbn [Nat.add]. unfold close_screen, rd.
    erewrite exec_seq_next by apply exec_emit.
    rewrite (exec_rd code). change (st_stack (ust (emit _ s))) with (st_stack (ust s)). rewrite Hs, Hm.
    erewrite exec_seq_next by apply exec_wr.
    erewrite exec_seq_next by apply exec_emit.
    erewrite exec_seq_next by apply call_closed_plain, Hc.
    do 2 erewrite exec_seq_next by apply exec_ret.
    (* the stack is empty now: no redraw, ExitMainLoop *)
    erewrite exec_seq_next by (rewrite (exec_rd code); apply exec_ret).
    rewrite (exec_rd code). cbn [ust emit set st_stack upd_scr]. rewrite exec_throw.
    eexists. split; [reflexivity|]. rewrite Hm. split; reflexivity.
  Qed.

  (* _get_last_screen *)
  Lemma with_top_empty f k s :
    st_stack (ust s) = [] -> exec code (S (S f)) (CProg (with_top k)) s = (OThrow XExit, s).
  Proof. intros Hs. unfold with_top, rd. rewrite (exec_rd code), Hs. apply exec_throw. Qed.

  Lemma process_screen_empty_exits f s :
    st_stack (ust s) = [] -> exec code (S (S f)) (CProg (process_screen specs)) s = (OThrow XExit, s).
  Proof. apply with_top_empty. Qed.

  Lemma process_input_result_empty_exits f act sr s :
    st_stack (ust s) = [] -> exec code (S (S f)) (CProg (process_input_result specs act sr)) s = (OThrow XExit, s).
  Proof. apply with_top_empty. Qed.
End Close.

(* Nothing between a handler's statement and run() stops an outcome other than a normal return (and, for
   try/except Exception and the dispatch, other than an ordinary exception): each construct hands it on.  For ';',
   try and the two loops that is said next to their equations in proofs/ExecEqs.v; here the dispatch, the nested loop
   and run(), whose entry and exit states proofs/C02Proofs.v names. *)
Section Exit.
  Context {U : Type} (code : nat -> signal -> nat -> prog U).
  Implicit Types s : lstate U.

  (* out of _process_signal: the handler's end is recorded, no ExceptionSignal, the other handlers do not run *)
  Lemma dispatch_abort f sg idx s hs hid data e s2 :
    handlers_of (ps_state sg idx s) (sg_cls sg) = Some hs -> force_quit (ps_state sg idx s) = false ->
    nth_error hs idx = Some (hid, data) ->
    exec code f (CProg (code hid sg data)) (emit (EHandler hid (sg_id sg) data) (ps_state sg idx s)) = (OThrow e, s2) ->
    e <> XError ->
    exec code (S f) (CProcessSignal sg idx) s = (OThrow e, emit (EHandlerEnd hid (sg_id sg) (Some e)) s2).
  Proof.
    intros Hh Hf Hn He Hx. rewrite (exec_handler code f sg idx s (ps_state sg idx s) hs hid data eq_refl Hh Hf Hn), He. destruct e; try reflexivity. elim Hx. reflexivity.
  Qed.

  (* out of a nested loop (execute_new_loop, i.e. a modal screen): no ENewLoopReturn *)
  Definition newloop_entry (s : lstate U) (sp : sigspec) : lstate U :=
    let '(sg, s1) := new_signal s sp in
    let q := length (qstore s1) in
    do_enqueue (emit (ENewLoopEnter q)
                     (s1 <| qstore := qstore s1 ++ [empty_queue] |> <| active := q |> <| levels := levels s1 ++ [q] |>)) sg.

  Lemma newloop_abort f s sp o s4 :
    force_quit s = false -> exec code f CMainloop (newloop_entry s sp) = (o, s4) -> o <> ONormal ->
    exec code (S f) (CApi (ANewLoop sp)) s = (o, s4).
  Proof.
    intros Hf He Ho. rewrite (exec_newloop code f sp s Hf). revert He. unfold newloop_entry.
    destruct (new_signal s sp) as [sg s1]. intros He. cbv zeta. rewrite He. destruct o; [elim Ho|..]; reflexivity.
  Qed.

  Lemma exit_through_seq_r f p q s s1 s2 :
    exec code f (CProg p) s = (ONormal, s1) -> exec code f (CProg q) s1 = (OThrow XExit, s2) ->
    exec code (S f) (CProg (PSeq p q)) s = (OThrow XExit, s2).
  Proof. intros E1 E2. rewrite (exec_seq_next code f p q s s1 E1). exact E2. Qed.

  Lemma exit_through_papi f a s s1 :
    exec code f (CApi a) s = (OThrow XExit, s1) -> exec code (S f) (CProg (PApi a)) s = (OThrow XExit, s1).
  Proof. intros E. rewrite exec_api. exact E. Qed.

  (* run(): except ExitMainLoop: pass; the quit callback; return *)
  Lemma exit_ends_run f s s1 :
    exec code f CMainloop (run_entry s) = (OThrow XExit, s1) ->
    exec code (S f) CRun s = (ONormal, run_exit s1) /\
    trace (run_exit s1) = ERunReturn :: match quit_cb s1 with Some a => [EQuitCb a] | None => [] end ++ trace s1.
  Proof.
    intros E. split; [rewrite run_cases, E; reflexivity|].
    unfold run_exit. destruct (quit_cb s1); reflexivity.
  Qed.

  Lemma run_swallows_only_exit f s s' :
    exec code (S f) CRun s = (ONormal, s') ->
    exists s1, s' = run_exit s1 /\
               (exec code f CMainloop (run_entry s) = (ONormal, s1) \/
                exec code f CMainloop (run_entry s) = (OThrow XExit, s1)).
  Proof. exact (run_normal_only code f s s'). Qed.
End Exit.

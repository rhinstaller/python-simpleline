(* TextWrapWrite.v — Widget.write(..., wordwrap=True) on an arbitrary widget state (TextWrite.v): where the
   wrapped lines land, what is left untouched, the cursor; render_text is the special case. *)
From SL Require Import Tac proofs.ListFacts.
From SL Require Import PyInt Widget TextWrap TextWrite proofs.WidgetProofs proofs.TextWrapProofs proofs.TextWrapRender.
Import ListNotations.
Local Open Scope nat_scope.

Definition wrapped_lines (t : text) (w : nat) : list str :=
  concat (map (fun cs => or_blank (wrap_chunks' cs w)) (t_chunks t)).
(* that is [wrapped (t_chunks t) w]: the lemmas of TextWrapRender.v apply as they are *)
Definition line_start (col : nat) (block : bool) (k : nat) : nat :=
  match k with O => col | S _ => if block then col else 0 end.
Definition covered (L : list str) (row col : nat) (block : bool) (i j : nat) : Prop :=
  exists k l, nth_error L k = Some l /\ i = row + k /\
              line_start col block k <= j < line_start col block k + length l.

Lemma wrapped_lines_nonnil t w : chunks_ok t = true -> wrapped_lines t w <> [].
Proof.
  intros Hok. apply chunks_ok_spec in Hok. apply Forall2_length in Hok.
  pose proof (wrapped_length (t_chunks t) w) as L.
  pose proof (split_nl_length (t_text t) []) as S. fold (split_lines (t_text t)) in S.
  intros E. change (wrapped (t_chunks t) w = []) in E. rewrite E in L. simpl in L. lia.
Qed.

(* the typewriter's path over '\n'.join(L), no width *)
Fixpoint lines_path (L : list str) (x y wc : nat) : list (nat * nat) :=
  match L with [] => [] | l :: r => line_path x y l ++ lines_path r (S x) wc wc end.

Definition start_of (y wc k : nat) : nat := match k with O => y | S _ => wc end.

Lemma no_nl_cons c l : no_nl (c :: l) -> (c =? NL)%N = false /\ no_nl l.
Proof. intros H. inversion H as [|? ? Hc Hl]; subst. split; [apply N.eqb_neq; exact Hc|exact Hl]. Qed.

Lemma no_nl_eqb l : no_nl l -> Forall (fun ch => (ch =? NL)%N = false) l.
Proof. apply Forall_impl. intros c. apply N.eqb_neq. Qed.

Lemma line_path_length x y (l : str) : length (line_path x y l) = length l.
Proof. unfold line_path. rewrite map_length. apply seq_length. Qed.

Lemma lines_path_in L : forall x y wc i j,
  In (i, j) (lines_path L x y wc) <->
  exists k l, nth_error L k = Some l /\ i = x + k /\ start_of y wc k <= j < start_of y wc k + length l.
Proof.
  induction L as [|l L IH]; intros x y wc i j; cbn [lines_path].
  - split; [intros []|intros (k & l & H & _)]. destruct k; discriminate.
  - rewrite in_app_iff, line_path_in, IH. split.
    + intros [[-> H]|(k & l0 & H1 & -> & H3)].
      * exists 0, l. cbn [nth_error start_of]. split; [reflexivity|]. split; [lia|exact H].
      * exists (S k), l0. cbn [nth_error start_of]. split; [exact H1|]. split; [lia|].
        destruct k; exact H3.
    + intros (k & l0 & H1 & -> & H3). destruct k as [|k]; cbn [nth_error start_of] in *.
      * injection H1 as <-. left. split; [lia|exact H3].
      * right. exists k, l0. split; [exact H1|]. split; [lia|]. destruct k; exact H3.
Qed.

Lemma lines_path_nth L : forall x y wc k l j ch,
  nth_error L k = Some l -> nth_error l j = Some ch ->
  exists n, nth_error (lines_path L x y wc) n = Some (x + k, start_of y wc k + j) /\
            nth_error (concat L) n = Some ch.
Proof.
  induction L as [|l0 L IH]; intros x y wc k l j ch Hk Hj; [destruct k; discriminate|].
  assert (Hlt : j < length l) by (apply nth_error_Some; congruence).
  destruct k as [|k]; cbn [nth_error] in Hk.
  - injection Hk as ->. exists j. cbn [lines_path concat start_of]. split.
    + rewrite nth_error_app1 by (rewrite line_path_length; exact Hlt).
      rewrite line_path_nth by exact Hlt. f_equal. f_equal. lia.
    + rewrite nth_error_app1 by exact Hlt. exact Hj.
  - destruct (IH (S x) wc wc k l j ch Hk Hj) as (n & H1 & H2).
    exists (length l0 + n). cbn [lines_path concat start_of]. split.
    + rewrite nth_error_app2 by (rewrite line_path_length; lia). rewrite line_path_length.
      replace (length l0 + n - length l0) with n by lia. rewrite H1. f_equal. f_equal; [lia|].
      destruct k; reflexivity.
    + rewrite nth_error_app2 by lia. replace (length l0 + n - length l0) with n by lia. exact H2.
Qed.

Lemma visible_no_nl l : no_nl l -> visible l = l.
Proof.
  induction l as [|c l IH]; intros H; [reflexivity|]. apply no_nl_cons in H. destruct H as [Hc Hl].
  unfold visible in *. cbn [filter]. rewrite Hc. cbn [negb]. rewrite IH by exact Hl. reflexivity.
Qed.

Lemma visible_join L : Forall no_nl L -> visible (join_nl L) = concat L.
Proof.
  intros H. unfold visible. rewrite filter_join_nl by reflexivity.
  apply visible_no_nl. apply Forall_concat. exact H.
Qed.

Lemma path_join L : forall x y col block,
  Forall no_nl L -> path (join_nl L) x y col None block = lines_path L x y (wrap_col col block).
Proof.
  induction L as [|l L IH]; intros x y col block H; [reflexivity|]. inversion H as [|? ? Hl HL]; subst.
  destruct L as [|l2 L'].
  - cbn [join_nl lines_path]. rewrite app_nil_r. apply path_line, no_nl_eqb, Hl.
  - rewrite join_nl_cons2, path_newline, path_line, path_end_line by auto using no_nl_eqb. cbn [fst].
    change (lines_path (l :: l2 :: L') x y (wrap_col col block))
      with (line_path x y l ++ lines_path (l2 :: L') (S x) (wrap_col col block) (wrap_col col block)).
    f_equal. apply IH. exact HL.
Qed.

Lemma path_end_join L : forall x y col block,
  Forall no_nl L -> L <> [] ->
  path_end (join_nl L) x y col None block =
  (x + (length L - 1), start_of y (wrap_col col block) (length L - 1) + length (last L [])).
Proof.
  induction L as [|l L IH]; intros x y col block H Hne; [congruence|]. inversion H as [|? ? Hl HL]; subst.
  destruct L as [|l2 L'].
  - cbn [join_nl length last start_of Nat.sub]. rewrite path_end_line by apply no_nl_eqb, Hl. f_equal. lia.
  - rewrite join_nl_cons2, path_end_app, (path_end_line l x y col block (no_nl_eqb l Hl)). cbn [fst snd].
    change (path_end (NL :: join_nl (l2 :: L')) x (y + length l) col None block)
      with (path_end (join_nl (l2 :: L')) (S x) (wrap_col col block) col None block).
    rewrite IH by (auto; discriminate).
    change (last (l :: l2 :: L') []) with (last (l2 :: L') []).
    cbn [length]. replace (S (S (length L')) - 1) with (S (length L')) by lia.
    replace (S (length L') - 1) with (length L') by lia. cbn [start_of].
    f_equal; [lia|]. destruct (length L'); reflexivity.
Qed.

Lemma need_rows_join L : forall x y col block,
  Forall no_nl L -> L <> [] ->
  need_rows (join_nl L) x y col None block = match L with [[]] => 0 | _ => x + length L end.
Proof.
  induction L as [|l L IH]; intros x y col block H Hne; [congruence|]. inversion H as [|? ? Hl HL]; subst.
  destruct L as [|l2 L'].
  - cbn [join_nl]. rewrite <- (app_nil_r l) at 1. rewrite need_rows_line_app by apply no_nl_eqb, Hl.
    cbn [need_rows length]. destruct l; lia.
  - rewrite join_nl_cons2, need_rows_line_app by apply no_nl_eqb, Hl.
    change (need_rows (NL :: join_nl (l2 :: L')) x (y + length l) col None block)
      with (Nat.max (S (S x)) (need_rows (join_nl (l2 :: L')) (S x) (wrap_col col block) col None block)).
    rewrite IH by (auto; discriminate). cbn [length].
    destruct l as [|c l']; destruct l2 as [|c2 l2']; destruct L' as [|l3 L'']; cbn [length]; lia.
Qed.

Lemma write_wrapped_empty b cur maxw t row col width block :
  t_text t = [] -> write_wrapped b cur maxw t row col width block = WOk b cur.
Proof. intros H. unfold write_wrapped. rewrite H. reflexivity. Qed.

Lemma write_wrapped_no_width b cur maxw t row col width block :
  t_text t <> [] -> eff_width maxw (opt_or col (snd cur)) width = None ->
  write_wrapped b cur maxw t row col width block = WTypeError.
Proof. intros Ht Hw. unfold write_wrapped. destruct (t_text t); [congruence|]. rewrite Hw. reflexivity. Qed.

Lemma write_wrapped_nonpositive b cur maxw t row col width block w :
  t_text t <> [] -> eff_width maxw (opt_or col (snd cur)) width = Some w -> (w <= 0)%Z ->
  write_wrapped b cur maxw t row col width block = WValueError.
Proof.
  intros Ht Hw Hle. unfold write_wrapped. destruct (t_text t); [congruence|]. rewrite Hw.
  destruct (w <=? 0)%Z eqn:E; [reflexivity|lia].
Qed.

Lemma write_wrapped_ok b cur maxw t row col width block w :
  t_text t <> [] -> eff_width maxw (opt_or col (snd cur)) width = Some w -> (1 <= w)%Z ->
  write_wrapped b cur maxw t row col width block =
  WOk (fst (typewriter (join_nl (wrapped_lines t (Z.to_nat w))) b (opt_or row (fst cur)) (opt_or col (snd cur))
                       (opt_or col (snd cur)) None block))
      (snd (typewriter (join_nl (wrapped_lines t (Z.to_nat w))) b (opt_or row (fst cur)) (opt_or col (snd cur))
                       (opt_or col (snd cur)) None block)).
Proof.
  intros Ht Hw Hle. unfold write_wrapped. destruct (t_text t); [congruence|]. rewrite Hw.
  destruct (w <=? 0)%Z eqn:E; [lia|]. destruct (wrap_all_wrapped (t_chunks t) (Z.to_nat w)) as (ls & -> & ->). reflexivity.
Qed.

Lemma write_wrapped_never_out_of_model b cur maxw t row col width block :
  write_wrapped b cur maxw t row col width block <> WOutOfModel.
Proof.
  unfold write_wrapped. destruct (t_text t); [discriminate|].
  destruct (eff_width maxw (opt_or col (snd cur)) width) as [w|]; [|discriminate].
  destruct (w <=? 0)%Z; [discriminate|]. destruct (wrap_all_wrapped (t_chunks t) (Z.to_nat w)) as (ls & -> & _). discriminate.
Qed.

(* TextWidget.render = clear(); write(text, width=width, wordwrap=True) *)
Definition rres_of_wres (r : wres) : rres buffer :=
  match r with WOk b _ => ROk b | WValueError => RValueError | WTypeError | WOutOfModel => ROutOfModel end.

Lemma render_text_is_write t w maxw :
  render_text t w = rres_of_wres (write_wrapped [] (0, 0) maxw t None None (Some w) false).
Proof.
  unfold render_text, write_wrapped. destruct (t_text t); [reflexivity|].
  cbn [eff_width opt_or fst snd]. destruct (w <=? 0)%Z; [reflexivity|].
  destruct (wrap_all (t_chunks t) (Z.to_nat w)); reflexivity.
Qed.

Lemma start_of_line_start c block k : start_of c (wrap_col c block) k = line_start c block k.
Proof. destruct k; reflexivity. Qed.

Lemma covered_in L r c block i j :
  covered L r c block i j <-> In (i, j) (lines_path L r c (wrap_col c block)).
Proof.
  rewrite lines_path_in. unfold covered. split; intros (k & l & H1 & H2 & H3); exists k, l;
    (split; [exact H1|]); (split; [exact H2|]); [rewrite start_of_line_start|rewrite <- start_of_line_start]; exact H3.
Qed.

Section Placed.
  Variables (b : buffer) (cur : nat * nat) (maxw : option Z) (t : text) (row col : option nat)
            (width : option Z) (block : bool) (w : Z) (b' : buffer) (cur' : nat * nat).
  Hypothesis Hne : t_text t <> [].
  Hypothesis Hok : chunks_ok t = true.
  Hypothesis Hw : eff_width maxw (opt_or col (snd cur)) width = Some w.
  Hypothesis Hpos : (1 <= w)%Z.
  Hypothesis Hres : write_wrapped b cur maxw t row col width block = WOk b' cur'.

  Let r := opt_or row (fst cur).
  Let c := opt_or col (snd cur).
  Let L := wrapped_lines t (Z.to_nat w).

  Lemma placed_eq : b' = fst (typewriter (join_nl L) b r c c None block) /\
                    cur' = snd (typewriter (join_nl L) b r c c None block).
  Proof.
    rewrite (write_wrapped_ok _ _ _ _ _ _ _ _ w Hne Hw Hpos) in Hres. injection Hres as <- <-. split; reflexivity.
  Qed.

  Lemma placed_no_nl : Forall no_nl L.
  Proof. exact (wrapped_no_nl t _ Hok). Qed.

  Lemma placed_written k l j ch :
    nth_error L k = Some l -> nth_error l j = Some ch ->
    cell b' (r + k) (line_start c block k + j) = Some ch.
  Proof.
    intros Hk Hj. destruct placed_eq as [-> _].
    destruct (lines_path_nth L r c (wrap_col c block) k l j ch Hk Hj) as (n & H1 & H2).
    rewrite <- start_of_line_start.
    apply (typewriter_written (join_nl L) b r c c None block n (r + k, start_of c (wrap_col c block) k + j) ch).
    - rewrite path_join by exact placed_no_nl. exact H1.
    - rewrite visible_join by exact placed_no_nl. exact H2.
  Qed.

  Lemma placed_kept i j v :
    cell b i j = Some v -> ~ covered L r c block i j -> cell b' i j = Some v.
  Proof.
    intros Hc Hn. destruct placed_eq as [-> _]. apply typewriter_kept; [|exact Hc].
    rewrite path_join by exact placed_no_nl. rewrite <- covered_in. exact Hn.
  Qed.

  Lemma placed_padding i j j' :
    cell b i j = None -> ~ covered L r c block i j -> covered L r c block i j' -> j < j' ->
    cell b' i j = Some SP.
  Proof.
    intros Hc Hn Hin Hlt. destruct placed_eq as [-> _].
    apply (typewriter_padding (join_nl L) b r c c None block i j j'); auto;
      rewrite path_join by exact placed_no_nl; rewrite <- covered_in; assumption.
  Qed.

  Lemma placed_absent i j :
    cell b i j = None -> ~ covered L r c block i j ->
    (forall j', covered L r c block i j' -> j' < j) -> cell b' i j = None.
  Proof.
    intros Hc Hn Hall. destruct placed_eq as [-> _].
    apply typewriter_absent; auto; rewrite path_join by exact placed_no_nl.
    - rewrite <- covered_in. exact Hn.
    - intros j' Hin. apply Hall. apply covered_in. exact Hin.
  Qed.

  Lemma placed_height :
    length b' = Nat.max (length b) (match L with [[]] => 0 | _ => r + length L end).
  Proof.
    destruct placed_eq as [-> _]. rewrite typewriter_height.
    rewrite need_rows_join; [reflexivity|exact placed_no_nl|apply wrapped_lines_nonnil; exact Hok].
  Qed.

  Lemma placed_cursor :
    cur' = (r + (length L - 1), line_start c block (length L - 1) + length (last L [])).
  Proof.
    destruct placed_eq as [_ ->]. rewrite typewriter_cursor.
    rewrite path_end_join; [|exact placed_no_nl|apply wrapped_lines_nonnil; exact Hok].
    rewrite start_of_line_start. reflexivity.
  Qed.

End Placed.

Lemma wrapped_lines_width_z t w :
  (1 <= w)%Z -> Forall (fun l => Z.of_nat (length l) <= w)%Z (wrapped_lines t (Z.to_nat w)).
Proof. intros Hpos. apply Forall_short_z; [exact Hpos|]. apply (wrapped_width (t_chunks t)). lia. Qed.

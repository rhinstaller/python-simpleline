(* TextWrapRender.v — from _wrap_chunks to TextWidget.render: _munge_whitespace, split('\n') / '\n'.join,
   the typewriter with width=None, the chunk contract, the lines that are typed ([wrapped]: what TextWrapWrite.v
   and C17Proofs.v use of the wrapping too), and the render-level theorems of C11. *)
From SL Require Import Tac proofs.ListFacts.
From SL Require Import PyInt Widget TextWrap proofs.TextWrapProofs.
Import ListNotations.
Local Open Scope nat_scope.

Definition wrap_chunks' (cs : list str) (w : nat) : list str :=
  match wrap_chunks cs w with Some ls => ls | None => [] end.
(* '\n'.join(wrap(line)) of a line that wraps to nothing is '' : one empty line *)
Definition or_blank (ls : list str) : list str := match ls with [] => [[]] | _ => ls end.
(* the lines that are typed: the wrap of every source line in turn *)
Definition wrapped (chunkss : list (list str)) (w : nat) : list str :=
  concat (map (fun cs => or_blank (wrap_chunks' cs w)) chunkss).
(* typing the text '' leaves the buffer untouched: no line at all *)
Definition drop_lone_empty (ls : list str) : list str := match ls with [[]] => [] | _ => ls end.
Definition no_nl (l : str) : Prop := Forall (fun c => c <> NL) l.
Definition short (w : nat) (l : str) : Prop := length l <= w.
Definition line_ok (line : str) (cs : list str) : Prop := concat cs = munge line /\ Forall nonempty cs.

Lemma wrap_chunks_total cs w : wrap_chunks cs w = Some (wrap_chunks' cs w).
Proof.
  unfold wrap_chunks'. destruct (wrap_chunks cs w) eqn:E; [reflexivity|].
  exfalso. eapply wrap_chunks_fuel_enough; eauto.
Qed.

Lemma wrap_all_total' chunkss w :
  wrap_all chunkss w = Some (map (fun cs => join_nl (wrap_chunks' cs w)) chunkss).
Proof.
  induction chunkss as [|cs r IH]; [reflexivity|].
  cbn [wrap_all map]. rewrite wrap_chunks_total, IH. reflexivity.
Qed.

Lemma tw_space_py c : is_tw_space c = true -> is_py_space c = true.
Proof. unfold is_tw_space, is_py_space. lia. Qed.

Lemma nonblank_cons c s : nonblank (c :: s) = nonblank [c] ++ nonblank s.
Proof. apply (nonblank_app [c] s). Qed.

Lemma nonblank_repeat_sp n : nonblank (repeat SP n) = [].
Proof. induction n as [|n IH]; [reflexivity|]. cbn [repeat]. rewrite nonblank_cons, IH. reflexivity. Qed.

Lemma nonblank_expandtabs s : forall col, nonblank (expandtabs s col) = nonblank s.
Proof.
  induction s as [|c r IH]; intros col; cbn [expandtabs]; [reflexivity|].
  destruct (c =? 9)%N eqn:E9.
  - apply N.eqb_eq in E9. subst c. rewrite nonblank_app, nonblank_repeat_sp, IH. reflexivity.
  - destruct ((c =? 10) || (c =? 13))%N; rewrite nonblank_cons, IH, <- nonblank_cons; reflexivity.
Qed.

Lemma nonblank_munge s : nonblank (munge s) = nonblank s.
Proof.
  unfold munge. rewrite <- (nonblank_expandtabs s 0).
  induction (expandtabs s 0) as [|c r IH]; [reflexivity|].
  cbn [map]. rewrite nonblank_cons, IH, (nonblank_cons c r). f_equal.
  destruct (is_tw_space c) eqn:E; [|reflexivity].
  apply tw_space_py in E. unfold nonblank. cbn [filter]. rewrite E. reflexivity.
Qed.

Lemma munge_no_nl s : no_nl (munge s).
Proof.
  unfold no_nl, munge. apply Forall_forall. intros x Hin. apply in_map_iff in Hin.
  destruct Hin as (y & <- & _). destruct (is_tw_space y) eqn:E; [discriminate|].
  intros ->. discriminate E.
Qed.

Lemma split_nl_app_nonl l : forall cur rest,
  no_nl l -> split_nl (l ++ rest) cur = split_nl rest (rev l ++ cur).
Proof.
  induction l as [|a l IH]; intros cur rest H; [reflexivity|].
  inversion H as [|? ? Ha Hl]; subst. cbn [app split_nl rev].
  destruct (a =? NL)%N eqn:E; [apply N.eqb_eq in E; contradiction|].
  rewrite IH by exact Hl. rewrite <- app_assoc. reflexivity.
Qed.

Lemma split_nl_nonl l : no_nl l -> split_lines l = [l].
Proof.
  intros H. unfold split_lines. rewrite <- (app_nil_r l) at 1. rewrite split_nl_app_nonl by exact H.
  cbn [split_nl]. rewrite app_nil_r, rev_involutive. reflexivity.
Qed.

Lemma join_nl_cons2 l l2 r : join_nl (l :: l2 :: r) = l ++ NL :: join_nl (l2 :: r).
Proof. reflexivity. Qed.

Lemma join_nl_cons l r : join_nl (l :: r) = l ++ flat_map (cons NL) r.
Proof.
  revert l. induction r as [|l2 r IH]; intros l; [symmetry; apply app_nil_r|].
  rewrite join_nl_cons2, IH. reflexivity.
Qed.

Lemma split_join ls : ls <> [] -> Forall no_nl ls -> split_lines (join_nl ls) = ls.
Proof.
  induction ls as [|l r IH]; [congruence|]. intros _ H. inversion H as [|? ? Hl Hr]; subst.
  destruct r as [|l2 r'].
  - cbn [join_nl]. apply split_nl_nonl. exact Hl.
  - rewrite join_nl_cons2. unfold split_lines. rewrite split_nl_app_nonl by exact Hl.
    cbn [split_nl]. change (NL =? NL)%N with true. cbv iota. rewrite app_nil_r, rev_involutive. f_equal.
    apply IH; [discriminate|exact Hr].
Qed.

Lemma join_nl_app a b : a <> [] -> b <> [] -> join_nl (a ++ b) = join_nl a ++ NL :: join_nl b.
Proof.
  intros Ha Hb. destruct a as [|x a]; [congruence|]. destruct b as [|z b]; [congruence|].
  cbn [app]. rewrite !join_nl_cons, flat_map_app, <- app_assoc. reflexivity.
Qed.

Lemma join_nl_or_blank ls : join_nl (or_blank ls) = join_nl ls.
Proof. destruct ls; reflexivity. Qed.

Lemma join_nl_concat (xs : list (list str)) :
  Forall (fun x => x <> []) xs -> join_nl (map join_nl xs) = join_nl (concat xs).
Proof.
  induction xs as [|x xs IH]; [reflexivity|]. intros H. inversion H as [|? ? Hx Hxs]; subst.
  destruct xs as [|x2 xs'].
  - cbn [map concat join_nl]. rewrite app_nil_r. reflexivity.
  - cbn [map]. rewrite join_nl_cons2. cbn [map] in IH. rewrite IH by exact Hxs.
    change (concat (x :: x2 :: xs')) with (x ++ concat (x2 :: xs')).
    rewrite join_nl_app; [reflexivity|exact Hx|]. cbn [concat].
    inversion Hxs; subst. destruct x2; [congruence|discriminate].
Qed.

Lemma wrap_all_wrapped chunkss w :
  exists ls, wrap_all chunkss w = Some ls /\ join_nl ls = join_nl (wrapped chunkss w).
Proof.
  exists (map (fun cs => join_nl (wrap_chunks' cs w)) chunkss). split; [apply wrap_all_total'|].
  unfold wrapped. rewrite <- join_nl_concat.
  - rewrite map_map. f_equal. apply map_ext. intros cs. symmetry. apply join_nl_or_blank.
  - apply Forall_forall. intros L Hin. apply in_map_iff in Hin. destruct Hin as (cs & <- & _).
    destruct (wrap_chunks' cs w); discriminate.
Qed.

Lemma wrapped_Forall (P : str -> Prop) chunkss w :
  P [] -> Forall (fun cs => Forall P (wrap_chunks' cs w)) chunkss -> Forall P (wrapped chunkss w).
Proof.
  intros H0 H. apply List.Forall_concat, Forall_map. eapply Forall_impl; [|exact H].
  intros cs. cbv beta. destruct (wrap_chunks' cs w); [|tauto]. intros _. repeat constructor. exact H0.
Qed.

Lemma wrapped_length chunkss w : length chunkss <= length (wrapped chunkss w).
Proof.
  unfold wrapped. induction chunkss as [|cs l IH]; [simpl; lia|]. cbn [map concat length]. rewrite app_length.
  assert (G : 1 <= length (or_blank (wrap_chunks' cs w))) by (destruct (wrap_chunks' cs w); simpl; lia). lia.
Qed.

Lemma wrapped_width chunkss w : 1 <= w -> Forall (short w) (wrapped chunkss w).
Proof.
  intros Hw. apply wrapped_Forall; [unfold short; simpl; lia|]. apply Forall_forall. intros cs _.
  apply (wrap_chunks_width cs w _ Hw (wrap_chunks_total cs w)).
Qed.

Lemma wrapped_chars (P : char -> Prop) chunkss w :
  Forall (Forall (Forall P)) chunkss -> Forall (Forall P) (wrapped chunkss w).
Proof.
  intros H. apply wrapped_Forall; [constructor|]. eapply Forall_impl; [|exact H].
  intros cs Hcs. exact (wrap_chunks_chars P cs w _ Hcs (wrap_chunks_total cs w)).
Qed.

Lemma join_nl_nil_inv ls : join_nl ls = [] -> ls = [] \/ ls = [[]].
Proof.
  destruct ls as [|l r]; [auto|]. destruct r as [|l2 r'].
  - cbn [join_nl]. intros ->. auto.
  - rewrite join_nl_cons2. intros H. destruct l; discriminate.
Qed.

Lemma filter_join_nl (f : char -> bool) ls : f NL = false -> filter f (join_nl ls) = filter f (concat ls).
Proof.
  intros Hf. destruct ls as [|l r]; [reflexivity|]. rewrite join_nl_cons. cbn [concat]. rewrite !filter_app. f_equal.
  induction r as [|l2 r IH]; [reflexivity|].
  cbn [flat_map concat app filter]. rewrite Hf, !filter_app. f_equal. exact IH.
Qed.

Lemma nonblank_join_nl ls : nonblank (join_nl ls) = nonblank (concat ls).
Proof. apply filter_join_nl. reflexivity. Qed.

Lemma nonblank_concat_split s : forall cur, nonblank (concat (split_nl s cur)) = nonblank (rev cur ++ s).
Proof.
  induction s as [|c r IH]; intros cur; cbn [split_nl].
  - cbn [concat]. reflexivity.
  - destruct (c =? NL)%N eqn:E.
    + apply N.eqb_eq in E. subst c. cbn [concat]. rewrite !nonblank_app, IH, (nonblank_cons NL r). reflexivity.
    + rewrite IH. cbn [rev]. rewrite <- app_assoc. reflexivity.
Qed.

Lemma split_nl_app_nl a b : forall cur, split_nl (a ++ NL :: b) cur = split_nl a cur ++ split_nl b [].
Proof.
  induction a as [|c a IH]; intros cur; cbn [app split_nl].
  - change (NL =? NL)%N with true. reflexivity.
  - destruct (c =? NL)%N; [rewrite IH; reflexivity|apply IH].
Qed.

Lemma split_lines_app_nl a b : split_lines (a ++ NL :: b) = split_lines a ++ split_lines b.
Proof. apply split_nl_app_nl. Qed.

Lemma split_nl_length s : forall cur, 1 <= length (split_nl s cur).
Proof.
  induction s as [|a s IH]; intros cur; cbn [split_nl]; [simpl; lia|].
  destruct (a =? NL)%N; [simpl; lia|apply IH].
Qed.

Lemma split_nl_short w l : forall cur, length cur + length l <= w -> Forall (short w) (split_nl l cur).
Proof.
  unfold short. induction l as [|a l IH]; intros cur H; cbn [split_nl].
  - constructor; [rewrite rev_length; simpl in H; lia|constructor].
  - simpl in H. destruct (a =? NL)%N.
    + constructor; [rewrite rev_length; lia|apply IH; simpl; lia].
    + apply IH; simpl; lia.
Qed.

Lemma split_join_short w ss :
  Forall (fun s => Forall (short w) (split_lines s)) ss -> Forall (short w) (split_lines (join_nl ss)).
Proof.
  induction ss as [|s r IH]; intros H.
  - cbn. constructor; [unfold short; simpl; lia|constructor].
  - inversion H as [|? ? Hs Hr]; subst. destruct r as [|s2 r'].
    + exact Hs.
    + rewrite join_nl_cons2, split_lines_app_nl. apply Forall_app. split; [exact Hs|apply IH; exact Hr].
Qed.

Lemma ensure_row_noop pre (cur : line) : ensure_row (pre ++ [cur]) (length pre) = pre ++ [cur].
Proof.
  unfold ensure_row. rewrite app_length. cbn [length].
  replace (S (length pre) - (length pre + 1)) with 0 by lia. apply app_nil_r.
Qed.

Lemma ensure_row_next pre (cur : line) : ensure_row (pre ++ [cur]) (S (length pre)) = (pre ++ [cur]) ++ [[]].
Proof.
  unfold ensure_row. rewrite app_length. cbn [length].
  replace (S (S (length pre)) - (length pre + 1)) with 1 by lia. reflexivity.
Qed.

Lemma set_cell_last pre cur ch : set_cell (pre ++ [cur]) (length pre) (length cur) ch = pre ++ [cur ++ [ch]].
Proof.
  induction pre as [|p pre IH]; cbn [app length set_cell].
  - f_equal. unfold set_in_line. replace (S (length cur) - length cur) with 1 by lia. cbn [repeat].
    rewrite firstn_app, firstn_all, Nat.sub_diag. cbn [firstn]. rewrite app_nil_r.
    rewrite skipn_all2; [reflexivity|]. rewrite app_length. simpl. lia.
  - rewrite IH. reflexivity.
Qed.

Lemma typewriter_lines s : forall pre cur,
  fst (typewriter s (pre ++ [cur]) (length pre) (length cur) 0 None false) = pre ++ split_nl s (rev cur).
Proof.
  induction s as [|ch rest IH]; intros pre cur; cbn [typewriter split_nl].
  - rewrite rev_involutive. reflexivity.
  - destruct (ch =? NL)%N.
    + rewrite ensure_row_next. specialize (IH (pre ++ [cur]) []).
      rewrite app_length in IH. cbn [length] in IH. rewrite Nat.add_1_r in IH.
      etransitivity; [exact IH|]. rewrite rev_involutive, <- app_assoc. reflexivity.
    + rewrite ensure_row_noop, set_cell_last. specialize (IH pre (cur ++ [ch])).
      rewrite app_length in IH. cbn [length] in IH. rewrite Nat.add_1_r in IH.
      etransitivity; [exact IH|]. rewrite rev_app_distr. reflexivity.
Qed.

Lemma typewriter_split s :
  fst (typewriter s [] 0 0 0 None false) = match s with [] => [] | _ => split_lines s end.
Proof.
  destruct s as [|ch rest]; [reflexivity|]. unfold split_lines. cbn [typewriter split_nl].
  destruct (ch =? NL)%N.
  - change (ensure_row [] 1) with ([[]] ++ [[]] : buffer). apply (typewriter_lines rest [[]] []).
  - change (set_cell (ensure_row [] 0) 0 0 ch) with ([] ++ [[ch]] : buffer).
    apply (typewriter_lines rest [] [ch]).
Qed.

Lemma typewriter_join ls :
  Forall no_nl ls ->
  fst (typewriter (join_nl ls) [] 0 0 0 None false) = drop_lone_empty ls.
Proof.
  intros H. rewrite typewriter_split. destruct ls as [|l r]; [reflexivity|].
  destruct (join_nl (l :: r)) as [|c s] eqn:E.
  - apply join_nl_nil_inv in E. destruct E as [E|E]; [discriminate|]. rewrite E. reflexivity.
  - rewrite <- E. rewrite split_join; [|discriminate|exact H].
    destruct l as [|c0 l']; [|reflexivity]. destruct r; [discriminate|reflexivity].
Qed.

Lemma str_eqb_eq : forall a b, str_eqb a b = true -> a = b.
Proof. exact Nlist_eqb_eq. Qed.
Lemma str_eqb_refl a : str_eqb a a = true.
Proof. exact (Nlist_eqb_refl a). Qed.

Lemma forallb_combine {A B} (f : A * B -> bool) : forall (a : list A) (b : list B),
  length a = length b -> forallb f (combine a b) = true -> Forall2 (fun x y => f (x, y) = true) a b.
Proof.
  induction a as [|x a IH]; intros [|y b] L H; try discriminate; [constructor|].
  cbn [combine forallb] in H. apply andb_true_iff in H. destruct H as [H1 H2].
  constructor; [exact H1|]. apply IH; [simpl in L; lia|exact H2].
Qed.

Lemma nonempty_forallb cs :
  forallb (fun c : str => negb (length c =? 0)) cs = true <-> Forall nonempty cs.
Proof.
  induction cs as [|c cs IH]; cbn [forallb]; [split; [constructor|reflexivity]|].
  rewrite andb_true_iff, IH. split.
  - intros [H1 H2]. constructor; [|exact H2]. intros ->. discriminate H1.
  - intros H. inversion H as [|? ? Hc Hcs]; subst. split; [|exact Hcs].
    destruct c; [unfold nonempty in Hc; congruence|reflexivity].
Qed.

Lemma chunks_ok_spec t :
  chunks_ok t = true -> Forall2 line_ok (split_lines (t_text t)) (t_chunks t).
Proof.
  unfold chunks_ok. intros H. apply andb_true_iff in H. destruct H as [H1 H2].
  apply Nat.eqb_eq in H1. apply forallb_combine in H2; [|exact H1].
  eapply Forall2_weaken; [|exact H2]. intros line cs H. cbn [fst snd] in H.
  apply andb_true_iff in H. destruct H as [Ha Hb]. split; [apply str_eqb_eq; exact Ha|].
  apply nonempty_forallb. exact Hb.
Qed.

Lemma line_ok_no_nl line cs : line_ok line cs -> Forall no_nl cs.
Proof.
  intros [H _]. unfold no_nl. apply -> Forall_concat. rewrite H. apply munge_no_nl.
Qed.

Lemma render_text_eq t w :
  t_text t <> [] -> (1 <= w)%Z ->
  render_text t w = ROk (fst (typewriter (join_nl (wrapped (t_chunks t) (Z.to_nat w))) [] 0 0 0 None false)).
Proof.
  intros Ht Hw. unfold render_text. destruct (t_text t); [congruence|].
  destruct (w <=? 0)%Z eqn:E; [lia|].
  destruct (wrap_all_wrapped (t_chunks t) (Z.to_nat w)) as (ls & -> & ->). reflexivity.
Qed.

Lemma render_text_cases t w :
  render_text t w = ROk [] /\ t_text t = [] \/
  render_text t w = RValueError /\ t_text t <> [] /\ (w <= 0)%Z \/
  t_text t <> [] /\ (1 <= w)%Z.
Proof.
  unfold render_text. destruct (t_text t); [left; auto|right].
  destruct (w <=? 0)%Z eqn:E; [left|right]; repeat split; try discriminate; lia.
Qed.

Lemma render_never_out_of_model t w : render_text t w <> ROutOfModel.
Proof.
  destruct (render_text_cases t w) as [[H _]|[[H _]|[H1 H2]]]; try (rewrite H; discriminate).
  rewrite render_text_eq by assumption. discriminate.
Qed.

Lemma render_nonpositive t w : t_text t <> [] -> (w <= 0)%Z -> render_text t w = RValueError.
Proof.
  intros Ht Hw. unfold render_text. destruct (t_text t); [congruence|].
  destruct (w <=? 0)%Z eqn:E; [reflexivity|lia].
Qed.

Lemma render_empty t w : t_text t = [] -> render_text t w = ROk [].
Proof. intros H. unfold render_text. rewrite H. reflexivity. Qed.

Lemma Forall_short_z w (ls : list str) :
  (1 <= w)%Z -> Forall (short (Z.to_nat w)) ls -> Forall (fun l => Z.of_nat (length l) <= w)%Z ls.
Proof. intros Hw. apply Forall_impl. unfold short. intros l Hl. lia. Qed.

Lemma render_width t w b : render_text t w = ROk b -> Forall (fun l => Z.of_nat (length l) <= w)%Z b.
Proof.
  intros H. destruct (render_text_cases t w) as [[H1 _]|[[H1 _]|[H1 H2]]].
  - rewrite H1 in H. inversion H; subst. constructor.
  - rewrite H1 in H. discriminate.
  - rewrite render_text_eq in H by assumption. inversion H; subst. clear H.
    rewrite typewriter_split. destruct (join_nl _) as [|c0 s0] eqn:E; [constructor|]. rewrite <- E.
    apply Forall_short_z; [exact H2|]. apply split_join_short.
    eapply Forall_impl; [|apply (wrapped_width (t_chunks t) (Z.to_nat w)); lia].
    intros l Hl. apply (split_nl_short _ l []). simpl. exact Hl.
Qed.

Lemma wrapped_no_nl t w : chunks_ok t = true -> Forall no_nl (wrapped (t_chunks t) w).
Proof.
  intros Hok. apply chunks_ok_spec in Hok. apply (wrapped_chars (fun c => c <> NL)), Forall_forall. intros cs Hin.
  destruct (Forall2_In_r _ _ _ _ Hok Hin) as (line & _ & Hline). eapply line_ok_no_nl; eauto.
Qed.

Lemma render_structure t w b :
  chunks_ok t = true -> render_text t w = ROk b ->
  b = drop_lone_empty (wrapped (t_chunks t) (Z.to_nat w)).
Proof.
  intros Hok H.
  destruct (render_text_cases t w) as [[H1 H2]|[[H1 _]|[H1 H2]]].
  - rewrite H1 in H. inversion H; subst. clear H. apply chunks_ok_spec in Hok. rewrite H2 in Hok. cbn in Hok.
    inversion Hok as [|? cs ? ? [Hc Hn] Hr]; subst. inversion Hr; subst.
    destruct cs as [|c cs']; [reflexivity|]. exfalso. inversion Hn as [|? ? Hc1 _]; subst.
    destruct c; [unfold nonempty in Hc1; congruence|discriminate Hc].
  - rewrite H1 in H. discriminate.
  - rewrite render_text_eq in H by assumption. inversion H; subst. clear H.
    apply typewriter_join, wrapped_no_nl, Hok.
Qed.

Lemma nonblank_or_blank L : nonblank (concat (or_blank L)) = nonblank (concat L).
Proof. destruct L; reflexivity. Qed.

Lemma nonblank_drop_lone L : nonblank (concat (drop_lone_empty L)) = nonblank (concat L).
Proof. destruct L as [|[|] [|]]; reflexivity. Qed.

Lemma wrapped_conserves w : forall lines chunkss,
  Forall2 line_ok lines chunkss ->
  nonblank (concat (wrapped chunkss w)) = nonblank (concat lines).
Proof.
  unfold wrapped. induction 1 as [|line cs lines chunkss [Hc _] _ IH]; [reflexivity|].
  cbn [map concat]. rewrite concat_app, !nonblank_app, IH, nonblank_or_blank. f_equal.
  rewrite (wrap_chunks_conserves cs w _ (wrap_chunks_total cs w)), Hc. apply nonblank_munge.
Qed.

Lemma render_conservation t w b :
  chunks_ok t = true -> render_text t w = ROk b -> nonblank (concat b) = nonblank (t_text t).
Proof.
  intros Hok H. rewrite (render_structure t w b Hok H), nonblank_drop_lone.
  apply chunks_ok_spec in Hok. rewrite (wrapped_conserves _ _ _ Hok).
  unfold split_lines. rewrite nonblank_concat_split. reflexivity.
Qed.

Lemma wrapped_lines_nonempty t w :
  chunks_ok t = true -> (1 <= w)%Z ->
  Forall (fun cs => Forall nonempty (wrap_chunks' cs (Z.to_nat w))) (t_chunks t).
Proof.
  intros Hok Hw. apply chunks_ok_spec in Hok. apply Forall_forall. intros cs Hin.
  destruct (Forall2_In_r _ _ _ _ Hok Hin) as (line & _ & _ & Hne).
  apply (wrap_chunks_nonempty cs (Z.to_nat w)); [lia|exact Hne|apply wrap_chunks_total].
Qed.

Lemma blank_only_from_blank t w :
  chunks_ok t = true ->
  Forall2 (fun line cs => wrap_chunks' cs w = [] -> nonblank line = []) (split_lines (t_text t)) (t_chunks t).
Proof.
  intros Hok. apply chunks_ok_spec in Hok. eapply Forall2_weaken; [|exact Hok].
  intros line cs [Hc _] He.
  rewrite <- nonblank_munge, <- Hc, <- (wrap_chunks_conserves cs w _ (wrap_chunks_total cs w)), He. reflexivity.
Qed.

Lemma render_line_count t w b :
  chunks_ok t = true -> render_text t w = ROk b ->
  b = [] \/ length (split_lines (t_text t)) <= length b.
Proof.
  intros Hok H. pose proof (render_structure t w b Hok H) as S.
  apply chunks_ok_spec in Hok. apply Forall2_length in Hok.
  pose proof (wrapped_length (t_chunks t) (Z.to_nat w)) as L.
  destruct (wrapped (t_chunks t) (Z.to_nat w)) as [|[|] [|]];
    cbn [drop_lone_empty] in S; subst b; auto; right; rewrite Hok; exact L.
Qed.

Lemma simple_chunks_aux_concat s : forall cur b, concat (simple_chunks_aux s cur b) = rev cur ++ s.
Proof.
  induction s as [|c r IH]; intros cur b; cbn [simple_chunks_aux].
  - destruct cur; [reflexivity|]. cbn [concat]. reflexivity.
  - destruct cur as [|x cur'].
    + rewrite IH. reflexivity.
    + destruct (Bool.eqb (c =? SP)%N b).
      * rewrite IH. cbn [rev]. rewrite <- !app_assoc. reflexivity.
      * cbn [concat]. rewrite IH. reflexivity.
Qed.

Lemma rev_cons_nonempty (x : char) cur : nonempty (rev (x :: cur)).
Proof. unfold nonempty. cbn [rev]. intros H. apply app_eq_nil in H. destruct H; discriminate. Qed.

Lemma simple_chunks_aux_nonempty s : forall cur b, Forall nonempty (simple_chunks_aux s cur b).
Proof.
  induction s as [|c r IH]; intros cur b; cbn [simple_chunks_aux].
  - destruct cur; constructor; [apply rev_cons_nonempty|constructor].
  - destruct cur as [|x cur']; [apply IH|].
    destruct (Bool.eqb (c =? SP)%N b); [apply IH|]. constructor; [apply rev_cons_nonempty|apply IH].
Qed.

Lemma simple_text_ok s : chunks_ok (simple_text s) = true.
Proof.
  unfold chunks_ok, simple_text. cbn [t_text t_chunks]. rewrite map_length, Nat.eqb_refl. cbn [andb].
  induction (split_lines s) as [|l ls IH]; [reflexivity|].
  cbn [map combine forallb fst snd]. rewrite IH, andb_true_r. apply andb_true_iff. split.
  - unfold simple_chunks. rewrite simple_chunks_aux_concat. apply str_eqb_refl.
  - apply nonempty_forallb. apply simple_chunks_aux_nonempty.
Qed.

(* the code before commit 628ec11 (finding F3):
   _wrap_words appended '\n' only after sub-lines shorter than the width and popped a trailing '\n' of each source
   line; write() kept the typewriter's own width wrap on top of it *)
Fixpoint legacy_join (ls : list str) (w : nat) : str :=
  match ls with
  | [] => []
  | l :: r => l ++ (if length l <? w then [NL] else []) ++ legacy_join r w
  end.
Definition legacy_line (ls : list str) (w : nat) : str :=
  let s := legacy_join ls w in
  match rev s with c :: before => if (c =? NL)%N then rev before else s | [] => s end.
Definition legacy_render_text (t : text) (w : nat) : buffer :=
  fst (typewriter (join_nl (map (fun cs => legacy_line (wrap_chunks' cs w) w) (t_chunks t))) [] 0 0 0 (Some w) false).

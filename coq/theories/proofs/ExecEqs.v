(* ExecEqs.v — LoopSem.exec one step at a time: for each form of handler program but [PWhile], and for _mainloop,
   _process_signals_loop, _process_signal and execute_new_loop, what [exec] at fuel [S f] is in terms of [exec] at
   fuel [f].  Every equation is about variables, so a proof that follows a run rewrites with these on a goal that
   mentions its states and sub-programs only by name, instead of unfolding the interpreter on them.  With the equation of
   ';', try, _mainloop and _process_signals_loop comes what it gives for an outcome the construct does not handle: the
   outcome passes through ([seq_abort] ... [procloop_abort]).
   The states are written out, not named as C09Exec.v names them: the statements proved by rewriting with these
   equations (props/C09s.v) write them out too, or have names of their own for them ([C02Proofs.ps_state],
   [C09sProofs.newloop_entry]), and rewriting looks for the text.
   Then sessions: [continue], what all session functions of the model have in common, and the induction over the
   calls of one session ([sessions_inv], [sessions_keep]; their instances for [run_session] at the end). *)
From Coq Require Import List Bool PeanoNat.
From RecordUpdate Require Import RecordUpdate.
From SL Require Import LoopSem proofs.LoopFacts.
Import ListNotations.

Section ExecEqs.
  Context {U : Type} (code : nat -> signal -> nat -> prog U).
  Implicit Types (s : lstate U) (p q h : prog U).

  Lemma exec_ret f s : exec code (S f) (CProg PRet) s = (ONormal, s).
  Proof. reflexivity. Qed.

  Lemma exec_throw f x s : exec code (S f) (CProg (PThrow x)) s = (OThrow x, s).
  Proof. reflexivity. Qed.

  Lemma exec_emit f e s : exec code (S f) (CProg (PEmit e)) s = (ONormal, emit (user_event e) s).
  Proof. reflexivity. Qed.

  Lemma exec_seq f p q s :
    exec code (S f) (CProg (PSeq p q)) s =
    let '(o, s1) := exec code f (CProg p) s in match o with ONormal => exec code f (CProg q) s1 | _ => (o, s1) end.
  Proof. reflexivity. Qed.

  Lemma exec_seq_next f p q s s1 :
    exec code f (CProg p) s = (ONormal, s1) -> exec code (S f) (CProg (PSeq p q)) s = exec code f (CProg q) s1.
  Proof. intros E. rewrite exec_seq, E. reflexivity. Qed.

  Lemma seq_abort f p q s o s1 :
    exec code f (CProg p) s = (o, s1) -> o <> ONormal -> exec code (S f) (CProg (PSeq p q)) s = (o, s1).
  Proof. intros E Ho. rewrite exec_seq, E. destruct o; [elim Ho|..]; reflexivity. Qed.

  Lemma exec_try f p h s :
    exec code (S f) (CProg (PTry p h)) s =
    let '(o, s1) := exec code f (CProg p) s in match o with OThrow XError => exec code f (CProg h) s1 | _ => (o, s1) end.
  Proof. reflexivity. Qed.

  Lemma try_abort f p h s o s1 :
    exec code f (CProg p) s = (o, s1) -> o <> OThrow XError -> exec code (S f) (CProg (PTry p h)) s = (o, s1).
  Proof. intros E Ho. rewrite exec_try, E. destruct o as [|[]| |]; try reflexivity. elim Ho. reflexivity. Qed.

  Lemma exec_api f a s : exec code (S f) (CProg (PApi a)) s = exec code f (CApi a) s.
  Proof. reflexivity. Qed.

  Lemma exec_st f (g : U -> U * prog U) s :
    exec code (S f) (CProg (PSt g)) s = exec code f (CProg (snd (g (ust s)))) (s <| ust := fst (g (ust s)) |>).
  Proof. cbn [exec]. destruct (g (ust s)); reflexivity. Qed.

  (* the two uses of [PSt] that only read, or only write, the handlers' state (the screen layer's [rd] and [wr],
     once unfolded); [rewrite (exec_rd code)]: without [code] the type of [k] is unknown and nothing matches *)
  Lemma exec_rd f (k : U -> prog U) s :
    exec code (S f) (CProg (PSt (fun u => (u, k u)))) s = exec code f (CProg (k (ust s))) s.
  Proof. rewrite exec_st. cbn [fst snd]. rewrite ust_eta. reflexivity. Qed.

  Lemma exec_wr f (g : U -> U) s :
    exec code (S (S f)) (CProg (PSt (fun u => (g u, PRet)))) s = (ONormal, s <| ust := g (ust s) |>).
  Proof. reflexivity. Qed.

  Lemma exec_mainloop f s :
    run_loop s = true ->
    exec code (S f) CMainloop s =
    let '(o, s1) := exec code f CProcLoop s in match o with ONormal => exec code f CMainloop s1 | _ => (o, s1) end.
  Proof. intros Hr. cbn [exec]. rewrite Hr. reflexivity. Qed.

  Lemma mainloop_abort f s o s1 :
    run_loop s = true -> exec code f CProcLoop s = (o, s1) -> o <> ONormal -> exec code (S f) CMainloop s = (o, s1).
  Proof. intros Hr He Ho. rewrite (exec_mainloop f s Hr), He. destruct o; [elim Ho|..]; reflexivity. Qed.

  Lemma exec_procloop f s sg s1 :
    run_loop s = true -> do_get s = inl (Some (sg, s1)) ->
    exec code (S f) CProcLoop s =
    let '(o, s3) := exec code f (CProcessSignal sg 0) (emit (EDispatch (sg_id sg) (active s) (length (levels s))) s1) in
    match o with ONormal => exec code f CProcLoop s3 | _ => (o, s3) end.
  Proof. intros Hr Hg. cbn [exec]. rewrite Hr, Hg. reflexivity. Qed.

  Lemma procloop_abort f s sg s1 o s3 :
    run_loop s = true -> do_get s = inl (Some (sg, s1)) ->
    exec code f (CProcessSignal sg 0) (emit (EDispatch (sg_id sg) (active s) (length (levels s))) s1) = (o, s3) ->
    o <> ONormal -> exec code (S f) CProcLoop s = (o, s3).
  Proof. intros Hr Hg He Ho. rewrite (exec_procloop f s sg s1 Hr Hg), He. destruct o; [elim Ho|..]; reflexivity. Qed.

  (* _process_signal from handler [idx] on, when there is such a handler and the loop was not told to quit.  [s0] is the
     state after the ticket line of the signal's class was marked (before the first handler only): a variable with an
     equation, so that the caller's name for that state ([C09Exec.ps_mark], [C02Proofs.ps_state]) is what the rewritten
     goal shows, and a hypothesis about the handler's run, stated with that name, rewrites it in turn *)
  Lemma exec_handler f sg idx s s0 hs hid data :
    s0 = (if (idx =? 0)%nat then s <| tickets := mark_line_to_go (tickets s) (sg_cls sg) |> else s) ->
    handlers_of s0 (sg_cls sg) = Some hs -> force_quit s0 = false -> nth_error hs idx = Some (hid, data) ->
    exec code (S f) (CProcessSignal sg idx) s =
    let '(o, s2) := exec code f (CProg (code hid sg data)) (emit (EHandler hid (sg_id sg) data) s0) in
    match o with
    | ONormal => exec code f (CProcessSignal sg (S idx)) (emit (EHandlerEnd hid (sg_id sg) None) s2)
    | OThrow XError =>
      let '(xs, s4) := new_signal (emit (EHandlerEnd hid (sg_id sg) (Some XError)) s2) exception_spec in
      exec code f (CProcessSignal sg (S idx)) (do_enqueue s4 xs)
    | OThrow e => (o, emit (EHandlerEnd hid (sg_id sg) (Some e)) s2)
    | _ => (o, s2)
    end.
  Proof. intros -> Hh Hf Hn. cbn [exec]. rewrite Hh, Hf, Hn. reflexivity. Qed.

  (* execute_new_loop: a new queue becomes the active level, the signal goes into it, the main loop runs on it *)
  Lemma exec_newloop f sp s :
    force_quit s = false ->
    exec code (S f) (CApi (ANewLoop sp)) s =
    let '(sg, s1) := new_signal s sp in
    let q := length (qstore s1) in
    let '(o, s4) :=
      exec code f CMainloop
           (do_enqueue (emit (ENewLoopEnter q)
                             (s1 <| qstore := qstore s1 ++ [empty_queue] |> <| active := q |> <| levels := levels s1 ++ [q] |>))
                       sg) in
    match o with ONormal => (ONormal, emit (ENewLoopReturn q) s4) | _ => (o, s4) end.
  Proof.
    intros Hf. cbn [exec].
    assert (Hq : force_quit (snd (new_signal s sp)) = false) by exact Hf.
    destruct (new_signal s sp) as [sg s1]. cbn [snd] in Hq. rewrite Hq. reflexivity.
  Qed.
End ExecEqs.

(* A session is a list of top-level calls, each made on the state the one before left, until one blocks, runs out of
   fuel or kills the application ([continue]).  [run_session], [app_session] and their GLib counterparts differ in the
   call only.  [sessions_inv] is the induction over the calls for a predicate on the state of one session: a predicate
   [J] that every call keeps when it comes back, and that implies [A] where it does not, holds at the end of a session
   whose calls all came back, and [A] at the end of every session.  (What compares two sessions has an induction of
   its own: C20Sim.v, the GLib loop against this one; C04Proofs.v, more fuel against less.) *)
Definition continue {S} (rest : S -> list outcome * S) (r : outcome * S) : list outcome * S :=
  let '(o, s1) := r in
  match o with
  | OBlocked | OFuel | OThrow XSysExit => ([o], s1)
  | _ => let '(os, s2) := rest s1 in (o :: os, s2)
  end.

Lemma snd_continue {S} (rest : S -> list outcome * S) o s1 :
  snd (continue rest (o, s1)) = match o with OBlocked | OFuel | OThrow XSysExit => s1 | _ => snd (rest s1) end.
Proof. unfold continue. destruct o as [|[]| |]; try reflexivity; destruct (rest s1); reflexivity. Qed.

Definition goes_on (o : outcome) : Prop := o <> OBlocked /\ o <> OFuel /\ o <> OThrow XSysExit.

Section Sessions.
  Context {X S : Type} (call : X -> S -> outcome * S) (sess : list X -> S -> list outcome * S).
  Hypothesis sess_nil : forall s, sess [] s = ([], s).
  Hypothesis sess_cons : forall a r s, sess (a :: r) s = continue (sess r) (call a s).
  Variables (A J : S -> Prop) (ok : X -> Prop) (fin : outcome -> Prop).
  Hypothesis J_A : forall s, J s -> A s.
  Hypothesis fin_goes : forall o, goes_on o -> fin o.
  Hypothesis call_J : forall a s, ok a -> J s -> A (snd (call a s)) /\ (fin (fst (call a s)) -> J (snd (call a s))).

  Lemma sessions_inv : forall acts s, Forall ok acts -> J s ->
    A (snd (sess acts s)) /\ (Forall fin (fst (sess acts s)) -> J (snd (sess acts s))).
  Proof.
    induction acts as [|a r IH]; intros s Hok HJ; [rewrite sess_nil; auto|].
    inversion Hok as [|? ? Ha Hr]; subst. rewrite sess_cons. destruct (call_J a s Ha HJ) as [HA HF].
    destruct (call a s) as [o s1]. cbn [fst snd continue] in *.
    assert (Stop : A s1 /\ (Forall fin [o] -> J s1)) by (split; [exact HA | intros F; inversion F; auto]).
    assert (Go : goes_on o -> let '(os, s2) := sess r s1 in A s2 /\ (Forall fin (o :: os) -> J s2)).
    { intros G. specialize (IH s1 Hr (HF (fin_goes o G))). destruct (sess r s1) as [os s2]. cbn [fst snd] in IH.
      split; [apply IH | intros F; inversion F; apply IH; assumption]. }
    destruct o as [|[]| |]; try exact Stop; (lapply Go; [|repeat split; discriminate]); destruct (sess r s1); auto.
  Qed.
End Sessions.

(* the common case: every call keeps [J], however it ends *)
Lemma sessions_keep {X S : Type} (call : X -> S -> outcome * S) (sess : list X -> S -> list outcome * S)
      (sess_nil : forall s, sess [] s = ([], s))
      (sess_cons : forall a r s, sess (a :: r) s = continue (sess r) (call a s)) (J : S -> Prop) (ok : X -> Prop) :
  (forall a s, ok a -> J s -> J (snd (call a s))) -> forall acts s, Forall ok acts -> J s -> J (snd (sess acts s)).
Proof.
  intros H acts s Hok HJ.
  refine (proj1 (sessions_inv call sess sess_nil sess_cons J J ok (fun _ => True) (fun _ h => h) (fun _ _ => I) _ acts s Hok HJ)).
  intros a s0 Ha H0. split; [|intros _]; exact (H a s0 Ha H0).
Qed.

Definition run_call {U} (code : nat -> signal -> nat -> prog U) (fuel : nat) (a : top U) (s : lstate U) : outcome * lstate U :=
  exec code fuel (match a with TRun => CRun | TProg p => CProg p end) (emit ETop s).

Lemma run_session_cons {U} (code : nat -> signal -> nat -> prog U) fuel a r s :
  run_session code fuel (a :: r) s = continue (run_session code fuel r) (run_call code fuel a s).
Proof. reflexivity. Qed.

Definition run_sessions_inv {U} (code : nat -> signal -> nat -> prog U) fuel :=
  sessions_inv (run_call code fuel) (run_session code fuel) (fun _ => eq_refl) (run_session_cons code fuel).
Definition run_sessions_keep {U} (code : nat -> signal -> nat -> prog U) fuel :=
  sessions_keep (run_call code fuel) (run_session code fuel) (fun _ => eq_refl) (run_session_cons code fuel).

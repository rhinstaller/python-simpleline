(* C02Link.v -- the world of a state's trace, "accepted so far", and the link facts C02 needs.
   C02's statements are about any [good] state, not only the states a session reaches, so they cannot rest on
   [LoopLink.link]: the file has its own [W] and [acc] and keeps the part of the link that [good] states. *)
From SL Require Import Tac.
From RecordUpdate Require Import RecordUpdate.
From SL Require Import LoopSem Monitors proofs.ListFacts proofs.LoopFacts proofs.MonitorFacts proofs.LoopLink.
Import ListNotations.

Definition world_of (t : list event) : world := fold_left world_step t world0.
Definition accepted (chk : world -> event -> bool) (t : list event) : Prop := run_mon chk world0 t 0 = None.

Lemma accepted_snoc chk t e :
  accepted chk (t ++ [e]) <-> accepted chk t /\ chk (world_of t) e = true.
Proof. apply run_mon_snoc_none. Qed.

Lemma accepted_ok chk t : accepted chk t -> ok chk t = true.
Proof. unfold accepted, ok. intros ->. reflexivity. Qed.

Section W.
  Context {U : Type}.
  Definition W (s : lstate U) : world := world_of (rev (trace s)).
  Lemma W_cons (s s' : lstate U) e : trace s' = e :: trace s -> W s' = world_step (W s) e.
  Proof. exact (LoopLink.W_cons s s' e). Qed.
  Lemma W_emit e (s : lstate U) : W (emit e s) = world_step (W s) e.
  Proof. apply W_cons. reflexivity. Qed.
End W.

Definition sig_known (w : world) (nx : nat) (sg : signal) : Prop :=
  sg_id sg < nx /\ sig_cls w (sg_id sg) = sg_cls sg.
Definition sigs_ok (w : world) (nx : nat) (qs : list equeue) : Prop :=
  forall q ent, In q qs -> In ent (eq_entries q) -> sig_known w nx (snd ent).

Lemma sig_known_same w w' nx sg : w_sig w' = w_sig w -> sig_known w nx sg -> sig_known w' nx sg.
Proof. unfold sig_known, sig_cls. intros ->. auto. Qed.

Lemma sig_known_new w w' nx sg c p src :
  w_sig w' = (nx, (c, p, src)) :: w_sig w -> sig_known w nx sg -> sig_known w' (S nx) sg.
Proof.
  unfold sig_known, sig_cls. intros -> [Hlt Hc]. split; [lia|].
  cbn [lookup]. destruct (sg_id sg =? nx)%nat eqn:E; [apply Nat.eqb_eq in E; lia | exact Hc].
Qed.

Lemma sig_known_fresh w' nx sp l :
  w_sig w' = (nx, (sp_cls sp, sp_prio sp, sp_src sp)) :: l -> sig_known w' (S nx) (mk_signal nx sp).
Proof.
  unfold sig_known, sig_cls. intros ->. cbn [mk_signal sg_id sg_cls lookup]. rewrite Nat.eqb_refl. split; [lia|reflexivity].
Qed.

Lemma sigs_ok_same w w' nx qs : w_sig w' = w_sig w -> sigs_ok w nx qs -> sigs_ok w' nx qs.
Proof. intros E H q ent Hq He. eapply sig_known_same; eauto. Qed.

Lemma sigs_ok_new w w' nx qs c p src :
  w_sig w' = (nx, (c, p, src)) :: w_sig w -> sigs_ok w nx qs -> sigs_ok w' (S nx) qs.
Proof. intros E H q ent Hq He. eapply sig_known_new; eauto. Qed.

Lemma sigs_ok_set_nth w nx qs n x :
  sigs_ok w nx qs -> (forall ent, In ent (eq_entries x) -> sig_known w nx (snd ent)) ->
  sigs_ok w nx (set_nth qs n x).
Proof. intros H Hx q ent Hq He. apply set_nth_in in Hq as [->|Hq]; eauto. Qed.

Lemma sigs_ok_nth w nx qs n ent :
  sigs_ok w nx qs -> In ent (eq_entries (nth n qs empty_queue)) -> sig_known w nx (snd ent).
Proof.
  intros H He. destruct (nth_in_or_default n qs empty_queue) as [Hin|E].
  - eapply H; eauto.
  - rewrite E in He. destruct He.
Qed.

Lemma sigs_ok_app_empty w nx qs : sigs_ok w nx qs -> sigs_ok w nx (qs ++ [empty_queue]).
Proof.
  intros H q ent Hq He. apply in_app_or in Hq as [Hq|[<-|[]]]; [eauto | destruct He].
Qed.

Lemma sigs_ok_step w e nx qs :
  match e with ESigNew _ _ _ _ => False | _ => True end -> sigs_ok w nx qs -> sigs_ok (world_step w e) nx qs.
Proof. intros He. apply sigs_ok_same. rewrite ws_sig. destruct e; (reflexivity || destruct He). Qed.

Section Link.
  Context {U : Type}.
  Implicit Types s : lstate U.

  Definition acc s : Prop := accepted chk_C02 (rev (trace s)).
  Definition hlen s (cls : nat) : nat := match handlers_of s cls with Some hs => length hs | None => 0 end.

  (* everything emitted so far was accepted by the C02 monitor; the world reconstructed from the trace
     agrees with the state; no kill so far; [n] = the monitor's exception-expectation state;
     [F] = the open dispatch frames *)
  Record good (n : nat) (F : list frame) s : Prop := {
    g_acc : acc s;
    g_hand : w_hand (W s) = handlers s;
    g_fq : w_fq (W s) = force_quit s;
    g_act : w_active (W s) = active s;
    g_lev : w_levels (W s) = levels s;
    g_sig : sigs_ok (W s) (next_sig s) (qstore s);
    g_nk : w_killed (W s) = false;
    g_exp : w_expect_exc (W s) = n;
    g_fr : w_frames (W s) = F }.

  Lemma acc_step s s' e : acc s -> trace s' = e :: trace s -> chk_C02 (W s) e = true -> acc s'.
  Proof. unfold acc. intros Ha -> Hc. cbn [rev]. apply accepted_snoc. split; assumption. Qed.

  (* [s'] is [s] after event [e]: the linked fields have moved as the world's do *)
  Definition follows (e : event) s s' : Prop :=
    trace s' = e :: trace s /\
    handlers s' = match e with ERegHandler c h d => add_handler (handlers s) c h d | _ => handlers s end /\
    force_quit s' = match e with EForceQuit => true | ERunEnter => false | _ => force_quit s end /\
    active s' = match e with
                | ENewLoopEnter q => q
                | EClosePop _ => match last_opt (removelast (levels s)) with Some a => a | None => active s end
                | _ => active s
                end /\
    levels s' = match e with
                | ENewLoopEnter q => levels s ++ [q] | EClosePop _ => removelast (levels s) | EForceQuit => []
                | _ => levels s
                end.

  Lemma good_step n F s s' e :
    good n F s -> follows e s s' -> chk_C02 (W s) e = true -> e <> EKill ->
    sigs_ok (world_step (W s) e) (next_sig s') (qstore s') ->
    good (expect_step n e) (frames_step (sig_cls (W s)) F e) s'.
  Proof.
    intros [] (Ht & Hh & Hf & Ha & Hl) Hc Hk Hs. constructor; rewrite ?(W_cons s s' e Ht).
    - exact (acc_step _ _ _ g_acc0 Ht Hc).
    - rewrite ws_hand, g_hand0, Hh. reflexivity.
    - rewrite ws_fq, g_fq0, Hf. reflexivity.
    - rewrite ws_active, g_act0, g_lev0, Ha. reflexivity.
    - rewrite ws_levels, g_lev0, Hl. reflexivity.
    - exact Hs.
    - rewrite ws_killed, g_nk0. destruct e; congruence.
    - rewrite ws_expect, g_exp0. reflexivity.
    - rewrite ws_frames, g_fr0. reflexivity.
  Qed.

  Lemma good_same n F s s' :
    good n F s -> trace s' = trace s -> handlers s' = handlers s -> force_quit s' = force_quit s ->
    active s' = active s -> levels s' = levels s -> next_sig s' = next_sig s ->
    sigs_ok (W s) (next_sig s) (qstore s') -> good n F s'.
  Proof.
    intros [] Ht Hh Hf Ha Hl Hn Hs.
    assert (EW : W s' = W s) by (unfold W; now rewrite Ht).
    constructor; rewrite ?EW, ?Hh, ?Hf, ?Ha, ?Hl, ?Hn; auto. unfold acc. now rewrite Ht.
  Qed.

  Lemma good_eq n F s s' :
    good n F s -> trace s' = trace s -> handlers s' = handlers s -> force_quit s' = force_quit s ->
    active s' = active s -> levels s' = levels s -> next_sig s' = next_sig s -> qstore s' = qstore s -> good n F s'.
  Proof. intros G Ht Hh Hf Ha Hl Hn Hq. apply (good_same n F s); auto. rewrite Hq. apply G. Qed.

  Lemma hand_link n F s cls : good n F s -> hand (W s) cls = handlers_of s cls.
  Proof. intros G. unfold hand, handlers_of. rewrite (g_hand _ _ _ G). apply lookup_find. Qed.

  (* events the C02 monitor has no opinion about (outside the exception window, before any kill) *)
  Definition neutral (e : event) : bool :=
    match e with
    | EHandler _ _ _ | EHandlerEnd _ _ _ | EDispatchEnd _ | EKill => false
    | _ => true
    end.
  Lemma chk_quiet F s e : good 0 F s -> neutral e = true -> chk_C02 (W s) e = true.
  Proof.
    intros G H. unfold chk_C02. rewrite (g_nk _ _ _ G), (g_exp _ _ _ G). destruct e; try reflexivity; discriminate.
  Qed.

  Lemma route_none s l : route s l None = None.
  Proof. induction l as [|q l IH]; cbn [route q_contains_source]; auto. Qed.

  Lemma good_neutral F s s' e :
    good 0 F s -> neutral e = true -> follows e s s' ->
    w_sig (world_step (W s) e) = w_sig (W s) -> sigs_ok (W s) (next_sig s') (qstore s') ->
    good 0 (frames_step (sig_cls (W s)) F e) s'.
  Proof.
    intros G Hn Hf Hw Hs. assert (Hk : e <> EKill) by (intros ->; discriminate Hn).
    pose proof (good_step 0 F s s' e G Hf (chk_quiet F s e G Hn) Hk (sigs_ok_same _ _ _ _ Hw Hs)) as R.
    replace (expect_step 0 e) with 0 in R by (destruct e; (discriminate Hn || reflexivity)). exact R.
  Qed.

  (* events that go with no change of a linked field of the state *)
  Definition steady (e : event) : bool :=
    match e with
    | ESigNew _ _ _ _ | ERegHandler _ _ _ | EForceQuit | ENewLoopEnter _ | EClosePop _ | ERunEnter | EKill => false
    | _ => true
    end.
  Lemma follows_emit e s : steady e = true -> follows e s (emit e s).
  Proof. intros Hs. repeat split; destruct e; (discriminate Hs || reflexivity). Qed.

  Lemma good_emit n F s e :
    good n F s -> steady e = true -> chk_C02 (W s) e = true ->
    good (expect_step n e) (frames_step (sig_cls (W s)) F e) (emit e s).
  Proof.
    intros G Hs Hc. apply (good_step n F s _ e G (follows_emit e s Hs) Hc); [intros ->; discriminate Hs|].
    apply sigs_ok_step; [destruct e; (discriminate Hs || exact I) | apply G].
  Qed.

  (* ... and that the monitor ignores *)
  Definition passive (e : event) : bool :=
    match e with
    | ERegSource _ _ | ESetQuitCb _ | EEnq _ _ | EDropped _ | ERequeue _ _ | ENewLoopReturn _
    | EProcEnter _ _ | EProcReturn _ _ | EQuitCb _ | ERunReturn | EExt _ | EMark _ | EUser _ _ _ => true
    | _ => false
    end.

  Lemma good_passive F s e : good 0 F s -> passive e = true -> good 0 F (emit e s).
  Proof.
    intros G Hp.
    assert (E : frames_step (sig_cls (W s)) F e = F /\ steady e = true /\ neutral e = true)
      by (destruct e; (discriminate Hp || auto)).
    destruct E as (Ef & Hs & Hn). rewrite <- Ef at 1.
    apply (good_neutral F s _ e G Hn (follows_emit e s Hs)); [|apply G].
    rewrite ws_sig. destruct e; (discriminate Hp || reflexivity).
  Qed.

  Lemma good_set_q n F s a x :
    good n F s -> (forall ent, In ent (eq_entries x) -> sig_known (W s) (next_sig s) (snd ent)) ->
    good n F (set_q s a x).
  Proof.
    intros G Hx. eapply good_same; [exact G | reflexivity ..|].
    apply sigs_ok_set_nth; [apply G | exact Hx].
  Qed.

  Lemma pop_known n F s a e q' :
    good n F s -> q_pop (get_q s a) = Some (e, q') ->
    sig_known (W s) (next_sig s) (snd e) /\
    (forall ent, In ent (eq_entries q') -> sig_known (W s) (next_sig s) (snd ent)).
  Proof.
    intros G Hp. apply q_pop_spec in Hp as [Hin Hsub]. unfold get_q in *.
    split; [|intros ent He; apply Hsub in He]; eapply sigs_ok_nth; eauto; apply G.
  Qed.

  (* signal creation and enqueueing, also inside the exception window: n = 1, then 2 *)
  Lemma good_new_signal n F s sp :
    good n F s -> chk_C02 (W s) (ESigNew (next_sig s) (sp_cls sp) (sp_prio sp) (sp_src sp)) = true ->
    let s1 := snd (new_signal s sp) in
    good (if (n =? 1)%nat then 2 else n) F s1 /\ sig_known (W s1) (next_sig s1) (mk_signal (next_sig s) sp) /\
    (n = 1 -> w_exc_sid (W s1) = next_sig s).
  Proof.
    intros G Hc s1.
    pose proof (W_cons s s1 _ eq_refl) as EW.
    assert (Hsig : w_sig (W s1) = (next_sig s, (sp_cls sp, sp_prio sp, sp_src sp)) :: w_sig (W s))
      by (rewrite EW; exact (ws_sig _ _)).
    split; [|split].
    - apply (good_step n F s s1 (ESigNew (next_sig s) (sp_cls sp) (sp_prio sp) (sp_src sp)) G); [repeat split | exact Hc | discriminate|].
      eapply sigs_ok_new; [exact (ws_sig _ _) | apply G].
    - eapply sig_known_fresh. exact Hsig.
    - intros ->. rewrite EW. cbn [world_step]. rewrite (g_exp _ _ _ G). reflexivity.
  Qed.

  Lemma good_fresh_signal F s sp sg s1 :
    good 0 F s -> new_signal s sp = (sg, s1) -> good 0 F s1 /\ sig_known (W s1) (next_sig s1) sg.
  Proof.
    intros G N. destruct (good_new_signal 0 F s sp G) as (G1 & K1 & _); [apply (chk_quiet F s _ G); reflexivity|].
    rewrite N in G1, K1. injection N as <- _. split; assumption.
  Qed.

  Lemma good_do_enqueue n F s sg :
    good n F s -> sig_known (W s) (next_sig s) sg ->
    n = 0 \/ (n = 2 /\ w_exc_sid (W s) = sg_id sg /\ sg_src sg = None) ->
    good 0 F (do_enqueue s sg).
  Proof.
    intros G Hk Hn.
    assert (En : (if (n =? 2)%nat then 0 else n) = 0) by (destruct Hn as [->|[-> _]]; reflexivity).
    rewrite <- En. unfold do_enqueue. destruct (force_quit s) eqn:Efq.
    - apply (good_emit n F s (EDropped (sg_id sg)) G eq_refl).
      unfold chk_C02. rewrite (g_nk _ _ _ G), (g_exp _ _ _ G).
      destruct Hn as [->|(-> & Hx & _)]; [reflexivity|]. rewrite Hx, (g_fq _ _ _ G), Efq, Nat.eqb_refl. reflexivity.
    - set (q := match route s (rev (levels s)) (sg_src sg) with Some q => q | None => active s end).
      apply (good_emit n F _ (EEnq (sg_id sg) q)); [|reflexivity|].
      + apply good_set_q; [exact G|]. intros ent He.
        change (In ent (eq_entries (get_q s q) ++ [(sg_prio sg, eq_counter (get_q s q), sg)])) in He.
        apply in_app_or in He as [He|[<-|[]]]; [|exact Hk]. eapply sigs_ok_nth; [apply G|exact He].
      + change (W (set_q s q (q_put (get_q s q) sg))) with (W s).
        unfold chk_C02. rewrite (g_nk _ _ _ G), (g_exp _ _ _ G).
        destruct Hn as [->|(-> & Hx & Hs)]; [reflexivity|].
        unfold q. rewrite Hs, route_none, Hx, (g_act _ _ _ G), !Nat.eqb_refl. reflexivity.
  Qed.

  (* close_loop's pop: the level below becomes the active one *)
  Lemma follows_close_pop s s' top rest_rev :
    rev (levels s) = top :: rest_rev ->
    trace s' = EClosePop top :: trace s -> handlers s' = handlers s -> force_quit s' = force_quit s ->
    levels s' = rev rest_rev -> active s' = match rest_rev with q :: _ => q | [] => active s end ->
    follows (EClosePop top) s s'.
  Proof.
    intros Hl Ht Hh Hf Hl' Ha.
    assert (Erl : removelast (levels s) = rev rest_rev).
    { rewrite <- (rev_involutive (levels s)), Hl. apply removelast_last. }
    unfold follows. rewrite Erl. repeat split; try assumption.
    rewrite Ha. unfold last_opt. rewrite rev_involutive. destruct rest_rev; reflexivity.
  Qed.

  Lemma good_close_pop F s s' top rest_rev :
    good 0 F s -> rev (levels s) = top :: rest_rev ->
    trace s' = EClosePop top :: trace s -> handlers s' = handlers s -> force_quit s' = force_quit s ->
    levels s' = rev rest_rev -> active s' = match rest_rev with q :: _ => q | [] => active s end ->
    qstore s' = qstore s -> next_sig s' = next_sig s ->
    good 0 F s'.
  Proof.
    intros G Hl Ht Hh Hf Hl' Ha Hq Hn.
    apply (good_neutral F s s' (EClosePop top) G eq_refl (follows_close_pop s s' top rest_rev Hl Ht Hh Hf Hl' Ha) (ws_sig _ _)).
    rewrite Hn, Hq. apply G.
  Qed.

  Lemma good_top F s : good 0 F s -> good 0 [] (emit ETop s).
  Proof. intros G. exact (good_emit 0 F s ETop G eq_refl (chk_quiet F s ETop G eq_refl)). Qed.

  Definition mkframe (sg : signal) (idx : nat) (b : bool) : frame :=
    {| f_sid := sg_id sg; f_cls := sg_cls sg; f_idx := idx; f_in := b |}.

  Lemma good_dispatch F s sg q d :
    good 0 F s -> sig_known (W s) (next_sig s) sg ->
    good 0 (mkframe sg 0 false :: F) (emit (EDispatch (sg_id sg) q d) s).
  Proof.
    intros G [_ Hc]. unfold mkframe. rewrite <- Hc.
    exact (good_emit 0 F s (EDispatch (sg_id sg) q d) G eq_refl (chk_quiet F s (EDispatch _ _ _) G eq_refl)).
  Qed.

  Lemma good_handler_start F s sg idx hs hid data :
    good 0 (mkframe sg idx false :: F) s ->
    handlers_of s (sg_cls sg) = Some hs -> force_quit s = false -> nth_error hs idx = Some (hid, data) ->
    good 0 (mkframe sg idx true :: F) (emit (EHandler hid (sg_id sg) data) s).
  Proof.
    intros G Hh Hf Hn. apply (good_emit 0 _ s (EHandler hid (sg_id sg) data) G eq_refl).
    unfold chk_C02. rewrite (g_nk _ _ _ G), (g_exp _ _ _ G), (g_fr _ _ _ G). cbn [mkframe f_sid f_in f_cls f_idx].
    rewrite (hand_link _ _ _ _ G), Hh, Hn, (g_fq _ _ _ G), Hf, !Nat.eqb_refl. reflexivity.
  Qed.

  (* a handler ends: normally or with an ordinary exception the dispatch goes on (and the monitor then
     expects the ExceptionSignal); ExitMainLoop and SystemExit unwind the frame *)
  Lemma good_handler_end F s sg idx hid how :
    good 0 (mkframe sg idx true :: F) s ->
    good (match how with Some XError => 1 | _ => 0 end)
         (match how with None | Some XError => mkframe sg (S idx) false :: F | _ => F end)
         (emit (EHandlerEnd hid (sg_id sg) how) s).
  Proof.
    intros G. pose proof (good_emit 0 _ s (EHandlerEnd hid (sg_id sg) how) G eq_refl) as R.
    unfold chk_C02 in R. rewrite (g_nk _ _ _ G), (g_exp _ _ _ G), (g_fr _ _ _ G) in R.
    destruct how as [[]|]; cbn [expect_step frames_step unwind_to mkframe f_sid tl] in R; rewrite Nat.eqb_refl in R;
      exact (R eq_refl).
  Qed.

  Lemma good_dispatch_end F s sg idx :
    good 0 (mkframe sg idx false :: F) s ->
    force_quit s = true \/ idx = hlen s (sg_cls sg) ->
    good 0 F (emit (EDispatchEnd (sg_id sg)) s).
  Proof.
    intros G Hd. apply (good_emit 0 _ s (EDispatchEnd (sg_id sg)) G eq_refl).
    unfold chk_C02. rewrite (g_nk _ _ _ G), (g_exp _ _ _ G), (g_fr _ _ _ G). cbn [mkframe f_sid f_in f_cls f_idx].
    rewrite (hand_link _ _ _ _ G), (g_fq _ _ _ G), Nat.eqb_refl.
    destruct Hd as [->| ->]; [reflexivity|]. unfold hlen. rewrite Nat.eqb_refl. apply orb_true_r.
  Qed.

  Definition dead s : Prop := acc s /\ w_killed (W s) = true.

  Lemma dead_kill F s sg :
    good 0 (mkframe sg 0 false :: F) s -> sg_cls sg = CLS_EXCEPTION -> handlers_of s CLS_EXCEPTION = None ->
    dead (emit EKill s).
  Proof.
    intros G Hc Hh. pose proof G as []. split.
    - eapply acc_step; [exact g_acc0 | reflexivity|].
      unfold chk_C02. rewrite g_nk0, g_exp0, g_fr0. simpl.
      rewrite (hand_link _ _ _ _ G), Hh, Hc. reflexivity.
    - rewrite W_emit. reflexivity.
  Qed.

  Lemma dead_unwind s h sid : dead s -> dead (emit (EHandlerEnd h sid (Some XSysExit)) s).
  Proof.
    intros [Ha Hk]. split.
    - eapply acc_step; [exact Ha | reflexivity|]. unfold chk_C02. rewrite Hk. reflexivity.
    - rewrite W_emit. simpl. exact Hk.
  Qed.
End Link.

(* InputLink.v — the screen layer / input path of ScreenSem.v against the acceptors of ScreenMon.v:
   the link between the model's state and the world the observer rebuilds from the events, and ONE proof that
   every session of the model is accepted by chk_C17sep, chk_C07, chk_C18, chk_C06 and chk_once (no input handler
   gets a second ready signal) together ([all_accepted]).
   [accepted_by] projects it on a single acceptor: props/C17sep.v, props/C07.v, props/C18.v, proofs/C06Proofs.v (chk_C06)
   and proofs/C18Proofs.v (chk_once).

   Part 1 (generic in the handlers' state U and the handler table [code]):
     [wpS n p Q s]  "running the handler program p from s with any fuel <= n ends in Q": LoopHoare's [hoare] at
     the post-condition [res Q] ([wpS_hoare]), with that file's rules for every constructor of [prog] ([wpS_seq],
     [wpS_try], [wpS_st], [wpS_while], [wpS_emit], [wpS_api_exact] for API calls that do not re-enter the loop); the API
     calls that do (execute_new_loop, close_loop, process_signals) are discharged by [Spec n], the specification of the
     loop-level calls for fuel <= n ([wpS_api_rec]);
     LoopHoare's [loop_rule] (through [Spec_of_loop]): if the invariant [Inv] is kept by the loop's own steps
     ([G_step]: one case for each step of [LoopHoare.lstep]) and every handler body satisfies its triple given
     [Spec n] (G_handler), then [Spec n] holds for all n.  Outcomes: OFuel / OBlocked leave only [A] (the trace so far is accepted), SystemExit
     leaves [D] (accepted, and the unwinding will be), every other outcome re-establishes [Inv];
     [keeps p]: started where [Inv] holds, p leaves [Inv] whatever its outcome, with one rule per constructor of
     [prog] ([keeps_seq], [keeps_try], [keeps_st], [keeps_while], [keeps_api] ...).  proofs/InputOrder.v and
     InputOrderSyn.v use them with invariants of their own.
   Part 2 (the screen layer; before Section Scr the definitions and the facts that need no invariant, and
     [session_keeps]: from [keeps] to the sessions of ScreenSem.v):
     [SW typed s] the observer's world; [mw]/[absw]/[mstep]/[mchk_all]: the part of the world the acceptors
     read, its step - defined field by field ([stack_after] of proofs/ScreenFacts.v, [req_after] ... [last_after]: which events
     write a field is read off its definition) - and the acceptors on it ([abs_step], [chk07_abs] ...: they commute with ScreenMon's);
     [Core m u l ex hs]: the link (ideal stack = concrete stack; outstanding requests, reader running, typed lines;
     error counters; request table / fired callbacks vs. the handlers' one-shot callbacks; the pending
     InputReadySignals of all queues are, as a multiset, announcements of the hand-off list ([PSub]: handler objects
     may be reused, so several entries may carry the same handler); at most one InputReceivedSignal in flight - in
     [ext] (the reader answers when the loop is idle) or already queued (type-ahead) - carrying the line the reader
     took; per handler the last ready signal it got since it last asked ([c_last], for T_WAITED); the handler table;
     and, when every request has a fresh handler ([fresh], [FreshInv]): answered handlers, the handlers of the hand-off
     list and of the request stack are pairwise distinct (for [chk_once]));
     [Inv] = accepted so far ([acc]) + the queues are well formed ([qsok]; [pendl]: the signals pending in them) + Core +
     "quiet" ([Quiet]: no follow-up pending, no line waiting for its input()); [Dead] = accepted + quiet, what is left after
     SystemExit; [Rk]/[Keep]: across a nested loop the follow-up is cleared or it and the stack are as before;
     [SigPre sg idx]: what handler number idx of a signal in hand may rely on (its ready signal is still backed by the
     hand-off list; the InputReceivedSignal is the only one), [okspec]: the signals a handler may create by a loop-level call;
     [CoreG]: Core by groups ([CStk], [CScr], [CReq], [CRes], [CFly] ...; [Core_groups]), each a predicate of exactly the
     fields it reads, so that a group none of whose fields a method writes is kept by conversion, and each with one lemma
     per situation that writes them ([CStk_cons], [CFly_start], [CFly_handoff], [CReq_ready] ...);
     [At s m u l ex hs]: symbolic state; rules a_rd, a_wr, a_ev, a_enq, ... on it; the world m stays a variable along a
     walk: in a quiet world an event leaves the C17/C18 part of its check and keeps the world quiet ([a_evq], from
     [muser_quiet], [mchk_user_quiet]); where a follow-up is pending (t_pir) its two fields are spelled out ([mw_fm]);
     "Inv-triples" [IT p] ([keeps] at [Inv]); [EndOK o s]: at the end of a handler that ends with o the follow-up check of
     its EHandlerEnd will pass (weaker than [Inv]: a follow-up may be pending), [HPost]: the post-condition of a handler body
     (after EHandlerEnd: [Inv], [Rk], [SigPre] for the next handler; [HPost_end]: from [EndOK]);
     the tactics of the walk ([step], [qsteps], [groups_open], [groups_auto] ...) are local to Section Scr: a lemma for a
     further method is written inside it;
     one lemma per Python method (same names as in ScreenSem.v; IT_x: x keeps [Inv]; t_x: a triple of x with a pre- or
     post-condition of its own; H_x: the handler x as [loop_rule] wants it; G_x: a hypothesis of [loop_rule]): IT_push, IT_replace, IT_schedule
     (compositions of the stack primitives [IT_new_sd], [IT_stack_put], [IT_stack_pop]), IT_push_modal,
     t_handler_get_input (start_input_thread, with and without type-ahead), t_get_input_rest / IT_get_input,
     IT_get_input_blocking, IT_handler_ask / IT_handler_wait / t_waited (the application's own InputHandler objects),
     IT_close_screen, IT_draw_screen (C17), IT_process_screen, t_pir (process_input_result: C07),
     t_process_input, H_ready (input_ready_handler: C06), H_received (the hand-off: C18);
     G_kill, G_step, G_unwind, G_handler: the hypotheses of [loop_rule]; [screen_spec_all]; [session_acc].
   Part 3: [Inv_init], [all_accepted].
   Hypothesis of [all_accepted]: [wf_session_gen fresh specl quit acts] - every screen id used by the
   session is one of its screens (out of range, upd_scr is a no-op and the model's counters freeze), an SConnect names
   one of the seven callbacks (k < 7: handler ids 3 .. 9, apart from those of the framework), and, when
   [fresh], the session has no SHandlerAsk (needed for chk_once only: [no_handler_objects], [wf_session_fresh]).
   Both range over ALL command lists of a screen, those of a setup() that runs commands ([sc_setup_cmds]) included:
   no hypothesis on setup() is needed here ([IT_call_setup]: T_SETUP_BEGIN is a plain event for these acceptors - beside
   sw_prev_user, which every user event sets, it changes only sw_pframes, which [absw] forgets - and the commands are in
   the situation of those of refresh()).
   The arguments clause of chk_C06 needs no hypothesis: a request's handler carries its arguments ([ih_args],
   invariant [c_cb_req]: the monitor's record of the request = (owner, ih_args)), put in place at delivery (fix of F15). *)
From SL Require Import Tac.
From RecordUpdate Require Import RecordUpdate.
From Coq Require Import Permutation.
From SL Require Import PyInt LoopSem ScreenSem ScreenMon proofs.ListFacts proofs.LoopFacts proofs.ExecEqs proofs.ScreenFacts.
From SL Require Export proofs.LoopHoare.
From SL Require proofs.LoopLink.
Import ListNotations.

Section Rules.
  Context {U : Type}.
  Variable code : nat -> signal -> nat -> prog U.
  Notation lstate := (lstate U).
  Implicit Types s : lstate.
  Implicit Types Q : outcome -> lstate -> Prop.

  Variable A : lstate -> Prop.          (* holds at every point (the trace so far is accepted) *)
  Variable D : lstate -> Prop.          (* holds while SystemExit unwinds *)

  Definition res (Q : outcome -> lstate -> Prop) (o : outcome) (s' : lstate) : Prop :=
    match o with
    | OFuel | OBlocked => A s'
    | OThrow XSysExit => D s'
    | _ => Q o s'
    end.

  Lemma res_mono (Q Q' : outcome -> lstate -> Prop) o s' :
    (forall o s', Q o s' -> Q' o s') -> res Q o s' -> res Q' o s'.
  Proof. intros H. destruct o as [|[| |]| |]; cbn; auto. Qed.

  Definition wpS (n : nat) (p : prog U) (Q : outcome -> lstate -> Prop) (s : lstate) : Prop :=
    A s /\ forall f, f <= n -> forall o s', exec code f (CProg p) s = (o, s') -> res Q o s'.

  Lemma wpS_hoare n p Q s : wpS n p Q s <-> hoare code n (CProg p) s (res Q).
  Proof.
    split; [intros [_ H] f o s' Hf E; exact (H f Hf o s' E)|].
    intros H. split; [exact (hoare_fuel _ _ _ _ _ H)|]. intros f Hf o s' E. exact (H f o s' Hf E).
  Qed.

  Lemma wpS_A n p Q s : wpS n p Q s -> A s.
  Proof. intros [H _]; exact H. Qed.

  Lemma wpS_mono n p (Q Q' : outcome -> lstate -> Prop) s :
    (forall o s', Q o s' -> Q' o s') -> wpS n p Q s -> wpS n p Q' s.
  Proof.
    intros H HW. apply wpS_hoare. apply wpS_hoare in HW. eapply hoare_conseq; [exact HW|]. intros o s'. apply res_mono, H.
  Qed.

  Lemma wpS_ret n Q s : A s -> Q ONormal s -> wpS n PRet Q s.
  Proof. intros HA HQ. apply wpS_hoare, hoare_ret; assumption. Qed.

  Lemma wpS_throw n Q e s : A s -> res Q (OThrow e) s -> wpS n (PThrow e) Q s.
  Proof. intros HA HQ. apply wpS_hoare, hoare_throw; assumption. Qed.

  Lemma wpS_seq n p q Q s :
    wpS n p (fun o s1 => match o with ONormal => wpS n q Q s1 | _ => Q o s1 end) s -> wpS n (PSeq p q) Q s.
  Proof.
    intros H. apply wpS_hoare, hoare_seq. apply wpS_hoare in H. eapply hoare_conseq; [exact H|].
    intros [|[]| |] s1 H1; try exact H1. apply wpS_hoare, H1.
  Qed.

  Lemma wpS_try n p h Q s :
    wpS n p (fun o s1 => match o with OThrow XError => wpS n h Q s1 | _ => Q o s1 end) s -> wpS n (PTry p h) Q s.
  Proof.
    intros H. apply wpS_hoare, hoare_try. apply wpS_hoare in H. eapply hoare_conseq; [exact H|].
    intros [|[]| |] s1 H1; try exact H1. apply wpS_hoare, H1.
  Qed.

  Lemma wpS_st n g Q s :
    A s -> wpS n (snd (g (ust s))) Q (s <| ust := fst (g (ust s)) |>) -> wpS n (PSt g) Q s.
  Proof. intros HA H. apply wpS_hoare, hoare_st; [exact HA|apply wpS_hoare, H]. Qed.

  (* the two uses of PSt: reading the handlers' state, and writing it *)
  Lemma wpS_rd n (f : U -> prog U) Q s : A s -> wpS n (f (ust s)) Q s -> wpS n (PSt (fun u => (u, f u))) Q s.
  Proof. intros HA HW. apply wpS_st; [exact HA|]. cbn [fst snd]. destruct s; exact HW. Qed.

  Lemma wpS_wr n (g : U -> U) Q s :
    A s -> A (s <| ust := g (ust s) |>) -> Q ONormal (s <| ust := g (ust s) |>) -> wpS n (PSt (fun u => (g u, PRet))) Q s.
  Proof. intros HA HA' HQ. apply wpS_st; [exact HA|]. apply wpS_ret; assumption. Qed.

  Lemma wpS_emit n e Q s : A s -> Q ONormal (emit (user_event e) s) -> wpS n (PEmit e) Q s.
  Proof. intros HA HQ. apply wpS_hoare, hoare_emit; assumption. Qed.

  Lemma wpS_while n c b Q (J : lstate -> Prop) s :
    J s ->
    (forall s1, J s1 -> A s1) ->
    (forall s1, J s1 -> c (ust s1) = false -> Q ONormal s1) ->
    (forall s1, J s1 -> c (ust s1) = true ->
        wpS n b (fun o s2 => match o with ONormal => J s2 | _ => Q o s2 end) s1) ->
    wpS n (PWhile c b) Q s.
  Proof.
    intros HJ JA Jout Jbody. apply wpS_hoare, (hoare_while code n c b s (res Q) J HJ JA); [|exact Jout].
    intros s1 H1 C. eapply hoare_conseq; [apply wpS_hoare, (Jbody s1 H1 C)|]. intros [|[]| |] s2 H2; exact H2.
  Qed.

  (* API calls that do not re-enter the loop: their effect is computed *)
  Lemma wpS_api_exact n a Q s s1 : api_exact a s = Some s1 -> A s -> Q ONormal s1 -> wpS n (PApi a) Q s.
  Proof. intros X HA HQ. apply wpS_hoare, hoare_api, (hoare_api_exact code n a s s1 _ X); assumption. Qed.

End Rules.

Section Gen.
  Context {U : Type}.
  Variable code : nat -> signal -> nat -> prog U.
  Notation lstate := (lstate U).
  Implicit Types s : lstate.
  Implicit Types Q : outcome -> lstate -> Prop.
  Variable A : lstate -> Prop.
  Variable D : lstate -> Prop.
  Variable Inv : lstate -> Prop.        (* holds whenever the loop itself is in control *)
  Variable R : lstate -> lstate -> Prop. (* relates the states at two such points *)
  Variable SigPre : signal -> nat -> lstate -> Prop.   (* side condition of _process_signal sg from handler idx *)
  Variable okspec : sigspec -> Prop.    (* signals the handlers may pass to execute_new_loop *)
  Notation res := (res A D).
  Notation wpS := (wpS code A D).

  Definition lcall (c : call U) : Prop :=
    match c with
    | CProg _ => False
    | CApi (ANewLoop sp) => okspec sp
    | CApi ACloseLoop | CApi (AProcess _) => True
    | CApi _ => False
    | _ => True
    end.
  Definition cpre (c : call U) (s : lstate) : Prop :=
    match c with CProcessSignal sg idx => SigPre sg idx s | _ => True end.
  Definition LPost (s : lstate) (o : outcome) (s' : lstate) : Prop := Inv s' /\ R s s'.

  Definition Spec (n : nat) : Prop :=
    forall f, f <= n -> forall c s o s', lcall c -> Inv s -> cpre c s ->
      exec code f c s = (o, s') -> res (LPost s) o s'.


  (* API calls that re-enter the loop: by the specification of the loop-level calls *)
  Lemma wpS_api_rec n a (Q : outcome -> lstate -> Prop) s :
    Spec n -> lcall (CApi a) -> Inv s ->
    (forall o s', LPost s o s' -> Q o s') -> wpS n (PApi a) Q s.
  Proof.
    intros HS LC HI HQ. apply wpS_hoare, hoare_api. intros f o s' Hf E.
    eapply res_mono; [exact HQ|]. apply (HS f Hf (CApi a) s o s' LC HI I E).
  Qed.

  Hypothesis Inv_A : forall s, Inv s -> A s.

  (* [keeps p]: run from a state where [Inv] holds (and the loop-level calls meet their specification), p leaves
     [Inv], whatever its outcome. *)
  Definition keeps (p : prog U) : Prop :=
    forall n Q s, Spec n -> Inv s -> (forall o s', Inv s' -> Q o s') -> wpS n p Q s.

  Lemma keeps_ret : keeps PRet.
  Proof. intros n Q s HS HI HQ. apply wpS_ret; auto. Qed.
  Lemma keeps_throw e : (forall s, Inv s -> D s) -> keeps (PThrow e).
  Proof. intros Inv_D n Q s HS HI HQ. apply wpS_throw; [auto|]. destruct e; cbn; auto. Qed.
  Lemma keeps_seq p q : keeps p -> keeps q -> keeps (PSeq p q).
  Proof.
    intros Hp Hq n Q s HS HI HQ. apply wpS_seq. apply Hp; [exact HS|exact HI|].
    intros o s' HI'. destruct o; try (apply HQ; exact HI'). apply Hq; auto.
  Qed.
  Lemma keeps_try p h : keeps p -> keeps h -> keeps (PTry p h).
  Proof.
    intros Hp Hh n Q s HS HI HQ. apply wpS_try. apply Hp; [exact HS|exact HI|].
    intros o s' HI'. destruct o as [|[| |]| |]; try (apply HQ; exact HI'). apply Hh; auto.
  Qed.
  Lemma keeps_st g : (forall s, Inv s -> Inv (s <| ust := fst (g (ust s)) |>) /\ keeps (snd (g (ust s)))) -> keeps (PSt g).
  Proof.
    intros H n Q s HS HI HQ. destruct (H s HI) as [HI' Hp]. apply wpS_st; [auto|]. apply Hp; assumption.
  Qed.
  Lemma keeps_rd (f : U -> prog U) : (forall u, keeps (f u)) -> keeps (PSt (fun u => (u, f u))).
  Proof. intros H n Q s HS HI HQ. apply wpS_rd; [auto|]. apply H; assumption. Qed.
  Lemma keeps_while c b : keeps b -> keeps (PWhile c b).
  Proof.
    intros Hb n Q s HS HI HQ. apply (wpS_while code A D n c b Q Inv); [exact HI|exact Inv_A| |].
    - intros s1 H1 _. apply HQ, H1.
    - intros s1 H1 _. apply Hb; [exact HS|exact H1|]. intros o s2 H2. destruct o; try (apply HQ; exact H2). exact H2.
  Qed.
  Lemma keeps_emit e : (forall s, Inv s -> Inv (emit (user_event e) s)) -> keeps (PEmit e).
  Proof. intros H n Q s HS HI HQ. apply wpS_emit; auto. Qed.
  Lemma keeps_rec a : lcall (CApi a) -> keeps (PApi a).
  Proof.
    intros LC n Q s HS HI HQ. eapply wpS_api_rec; [exact HS|exact LC|exact HI|]. intros o s' [HI' _]. apply HQ, HI'.
  Qed.
  (* an API call either has a computed effect, which must keep [Inv], or re-enters the loop and must be one the
     loop's specification allows *)
  Lemma keeps_api a :
    (forall s, Inv s -> match api_exact a s with Some s1 => Inv s1 | None => lcall (CApi a) end) -> keeps (PApi a).
  Proof.
    intros H n Q s HS HI HQ. specialize (H s HI). destruct (api_exact a s) as [s1|] eqn:E.
    - eapply wpS_api_exact; [exact E|auto|auto].
    - apply keeps_rec; assumption.
  Qed.

  (* fields the invariant does not look at *)
  Definition same (s s' : lstate) : Prop :=
    trace s' = trace s /\ ust s' = ust s /\ ext s' = ext s /\ qstore s' = qstore s /\ handlers s' = handlers s /\
    force_quit s' = force_quit s.
  Definition same_fq (s s' : lstate) : Prop :=
    trace s' = trace s /\ ust s' = ust s /\ ext s' = ext s /\ qstore s' = qstore s /\ handlers s' = handlers s.

  Lemma same_refl_upd_tickets s t : same_fq s (s <| tickets := t |>).
  Proof. repeat split. Qed.

  Definition neutral (e : event) : bool :=
    match e with
    | ERunEnter | EQuitCb _ | ERunReturn | EDispatchEnd _ | ENewLoopReturn _ | EClosePop _
    | EProcEnter _ _ | EProcReturn _ _ | EForceQuit | ENewLoopEnter _ => true
    | _ => false
    end.
  Lemma neutral0_neutral e : neutral0 e = true -> neutral e = true.
  Proof. destruct e; cbn; congruence. Qed.

  (* [Spec] is LoopHoare's [LoopSpec] with [A] for the runs cut short and [D] after SystemExit: [loop_rule] gives it *)
  Lemma Spec_of_loop : (forall n, LoopSpec code A (fun _ => D) Inv R SigPre okspec n) -> forall n, Spec n.
  Proof. intros H n f Hf c s o s' LC HI CP E. exact (H n c s LC HI CP f o s' Hf E). Qed.

  (* a handler's [wpS] leaves [D] where SystemExit came out of it; the closing EHandlerEnd must keep it *)
  Lemma handler_wpS :
    (forall s h sid, D s -> D (emit (EHandlerEnd h sid (Some XSysExit)) s)) ->
    (forall n, Spec n -> forall s sg idx hs hid data,
       Inv s -> SigPre sg idx s -> force_quit s = false ->
       handlers_of s (sg_cls sg) = Some hs -> nth_error hs idx = Some (hid, data) ->
       wpS n (code hid sg data)
           (fun o s2 => let s3 := emit (EHandlerEnd hid (sg_id sg) (how_of o)) s2 in
                        Inv s3 /\ R s s3 /\ SigPre sg (S idx) s3)
           (emit (EHandler hid (sg_id sg) data) s)) ->
    forall n, LoopSpec code A (fun _ => D) Inv R SigPre okspec n -> HandlerSpec code A (fun _ => D) Inv R SigPre n.
  Proof.
    intros Unw HW n HS s sg idx hs hid data HI SP FQ HH NE.
    assert (HS' : Spec n) by (intros f Hf c s0 o s' LC H0 CP E; exact (HS c s0 LC H0 CP f o s' Hf E)).
    eapply hoare_conseq; [apply wpS_hoare, (HW n HS' s sg idx hs hid data HI SP FQ HH NE)|].
    intros [|[]| |] s2 H; try exact H. apply Unw, H.
  Qed.
End Gen.

(* Part 2: the screen layer *)

Definition SW (typed : list (option str)) (s : lstate sstate) : sworld :=
  fold_left sworld_step (rev (trace s)) (sworld0 typed).
Arguments SW : simpl never.

Lemma SW_emit typed e (s : lstate sstate) : SW typed (emit e s) = sworld_step (SW typed s) e.
Proof. unfold SW. change (trace (emit e s)) with (e :: trace s). cbn [rev]. rewrite fold_left_app. reflexivity. Qed.

Lemma sok_snoc chk typed t e :
  sok chk typed (t ++ [e]) = true <-> sok chk typed t = true /\ chk (fold_left sworld_step t (sworld0 typed)) e = true.
Proof. rewrite !sok_iff. apply srun_mon_snoc_none. Qed.

(* an accepted trace: every event passed the check in the world made by the events before it *)
Definition sacc (chk : sworld -> event -> bool) typed (s : lstate sstate) : Prop :=
  sok chk typed (rev (trace s)) = true.
Lemma sacc_emit chk typed e s : sacc chk typed (emit e s) <-> sacc chk typed s /\ chk (SW typed s) e = true.
Proof. unfold sacc, SW. change (trace (emit e s)) with (e :: trace s). cbn [rev]. apply sok_snoc. Qed.

Lemma srun_mon_weaken (c1 c2 : sworld -> event -> bool) : (forall w e, c1 w e = true -> c2 w e = true) ->
  forall t w i, srun_mon c1 w t i = None -> srun_mon c2 w t i = None.
Proof.
  intros H t. induction t as [|e r IH]; intros w i; cbn; [auto|].
  destruct (c1 w e) eqn:E; [|discriminate]. rewrite (H _ _ E). apply IH.
Qed.
Lemma sok_weaken (c1 c2 : sworld -> event -> bool) typed t : (forall w e, c1 w e = true -> c2 w e = true) ->
  sok c1 typed t = true -> sok c2 typed t = true.
Proof. intros H. rewrite !sok_iff. apply srun_mon_weaken, H. Qed.

(* the part of the world the acceptors read *)
Record mw := {
  m_stack : list entry; m_req : list (nat * (nat * nat)); m_typed : list (option str); m_line : str;
  m_istack : list nat; m_proc : bool; m_hand : list (nat * bool * str); m_recv : list nat; m_fired : list nat;
  m_must : option (nat * nat * str); m_err : list (nat * nat); m_follow : option follow;
  m_prev : option (nat * list nat); m_last : list (nat * option (bool * str)) }.
#[export] Instance eta_mw : Settable _ :=
  settable! Build_mw <m_stack; m_req; m_typed; m_line; m_istack; m_proc; m_hand; m_recv; m_fired; m_must; m_err; m_follow; m_prev; m_last>.

Definition absw (w : sworld) : mw :=
  {| m_stack := sw_stack w; m_req := sw_req w; m_typed := sw_typed w; m_line := sw_line w; m_istack := sw_istack w;
     m_proc := sw_processing w; m_hand := sw_handoff w; m_recv := sw_received w; m_fired := sw_fired w;
     m_must := sw_must_input w; m_err := sw_err w; m_follow := sw_follow w; m_prev := sw_prev_user w; m_last := sw_last w |}.

Definition err_in (er : list (nat * nat)) (scr : nat) : nat := match alookup scr er with Some n => n | None => 0 end.
Definition merr_of (m : mw) (scr : nat) : nat := err_in (m_err m) scr.

(* The step of the world, field by field: which events write a field is read off its definition - most fields one or two
   tags; [m_istack], [m_proc], [m_hand] also the hand-off (EHandler H_RECEIVED); [m_must] also the end of a handler and
   ETop; the follow-up four tags and the loop's own events; [m_prev] every user event - so a property that is about the
   history of one field reads one definition.
   [fires]: a successful ready signal for a request with a callback that has not fired - process_input of its owner is due;
   [reads]: the prompt that starts the reader thread, which takes the next typed line. *)
Definition fires (m : mw) (a : list nat) : option (nat * nat) :=
  if (nth0 a 1 =? 1)%nat && negb (mem (nth0 a 0) (m_fired m)) then alookup (nth0 a 0) (m_req m) else None.
(* kept folded by [cbn]: the walks of Section Scr compute the fields of [muser (muser m ..) ..] by a bare [cbn] *)
Arguments fires : simpl never.
Definition reads (tag : nat) (a : list nat) : bool := (tag =? T_PROMPT)%nat && (nth0 a 1 =? 0)%nat.
Definition received (m : mw) (e : event) : bool :=
  match e, m_istack m with EHandler h _ _, _ :: _ => (h =? H_RECEIVED)%nat | _, _ => false end.

Definition req_after (m : mw) (e : event) : list (nat * (nat * nat)) :=
  match e with
  | EUser tag a _ => if (tag =? T_REQ)%nat then (nth0 a 2, (nth0 a 0, nth0 a 1)) :: m_req m else m_req m
  | _ => m_req m end.
Definition typed_after (m : mw) (e : event) : list (option str) :=
  match e with EUser tag a _ => if reads tag a then tl (m_typed m) else m_typed m | _ => m_typed m end.
Definition line_after (m : mw) (e : event) : str :=
  match e with
  | EUser tag a _ => if reads tag a then match m_typed m with Some l :: _ => l | _ => [] end else m_line m
  | _ => m_line m end.
Definition istack_after (m : mw) (e : event) : list nat :=
  match e with
  | EUser tag a _ => if (tag =? T_PROMPT)%nat then nth0 a 0 :: m_istack m else m_istack m
  | _ => if received m e then [] else m_istack m end.
Definition proc_after (m : mw) (e : event) : bool :=
  match e with
  | EUser tag a _ => if reads tag a then true else m_proc m
  | _ => if received m e then false else m_proc m end.
Definition hand_after (m : mw) (e : event) : list (nat * bool * str) :=
  match e with
  | EUser tag a text =>
    if (tag =? T_READY)%nat
    then remove_first (fun x => (fst (fst x) =? nth0 a 0)%nat && Bool.eqb (snd (fst x)) (nth0 a 1 =? 1)%nat && streq (snd x) text) (m_hand m)
    else m_hand m
  | _ => if received m e
         then m_hand m ++ (hd 0 (m_istack m), true, m_line m) :: map (fun r => (r, false, [])) (rev (tl (m_istack m)))
         else m_hand m end.
Definition recv_after (m : mw) (e : event) : list nat :=
  match e with EUser tag a _ => if (tag =? T_READY)%nat then nth0 a 0 :: m_recv m else m_recv m | _ => m_recv m end.
Definition fired_after (m : mw) (e : event) : list nat :=
  match e with
  | EUser tag a _ => if (tag =? T_READY)%nat then match fires m a with Some _ => nth0 a 0 :: m_fired m | None => m_fired m end
                     else m_fired m
  | _ => m_fired m end.
Definition must_after (m : mw) (e : event) : option (nat * nat * str) :=
  match e with
  | EUser tag a text =>
    if (tag =? T_READY)%nat then match fires m a with Some (scr, args) => Some (scr, args, text) | None => m_must m end
    else if (tag =? T_INPUT)%nat then None else m_must m
  | EHandlerEnd _ _ _ | ETop => None
  | _ => m_must m end.
Definition act_err (m : mw) (a : list nat) : nat := if (nth0 a 1 =? 4)%nat then S (merr_of m (nth0 a 0)) else 0.
Definition errs_after (m : mw) (e : event) : list (nat * nat) :=
  match e with
  | EUser tag a _ => if (tag =? T_ACTION)%nat then (nth0 a 0, act_err m a) :: m_err m else m_err m
  | _ => m_err m end.
Definition follow_after (m : mw) (e : event) : option follow :=
  match e with
  | EUser tag a _ =>
    if (tag =? T_OP)%nat then
      match m_follow m with
      | Some FClose => None
      | Some FQuit => if (nth0 a 0 =? O_PUSH_MODAL)%nat then Some (FQuitBack (nth0 a 1)) else None
      | Some (FQuitBack _) => None
      | x => x end
    else if (tag =? T_MODAL_RETURN)%nat then match m_follow m with Some (FQuitBack _) => Some FAfterQuit | x => x end
    else if (tag =? T_REQ)%nat then match m_follow m with Some FReprompt => None | x => x end
    else if (tag =? T_ACTION)%nat then
      let act := nth0 a 1 in
      Some (if (act =? 0)%nat then FEnd
            else if (act =? 1)%nat then FRedraw 0
            else if (act =? 2)%nat then FClose
            else if (act =? 3)%nat then FQuit
            else if (Nat.modulo (act_err m a) 5 =? 0)%nat then FRedraw 0 else FReprompt)
    else m_follow m
  | EHandlerEnd _ _ _ | ETop => None
  | ESigNew _ c _ _ =>
    match m_follow m with
    | Some (FRedraw 0) | Some FAfterQuit => if (c =? CLS_RENDER)%nat then Some (FRedraw 1) else m_follow m
    | x => x end
  | EEnq _ _ | EDropped _ => match m_follow m with Some (FRedraw 1) => Some FEnd | x => x end
  | _ => m_follow m end.
Definition prev_after (m : mw) (e : event) : option (nat * list nat) :=
  match e with EUser tag a _ => Some (tag, a) | _ => m_prev m end.
Definition last_after (m : mw) (e : event) : list (nat * option (bool * str)) :=
  match e with
  | EUser tag a text =>
    if (tag =? T_PROMPT)%nat then (nth0 a 0, None) :: m_last m
    else if (tag =? T_READY)%nat then (nth0 a 0, Some ((nth0 a 1 =? 1)%nat, text)) :: m_last m else m_last m
  | _ => m_last m end.

Definition mstep (m : mw) (e : event) : mw :=
  {| m_stack := stack_after (m_stack m) e; m_req := req_after m e; m_typed := typed_after m e; m_line := line_after m e;
     m_istack := istack_after m e; m_proc := proc_after m e; m_hand := hand_after m e; m_recv := recv_after m e;
     m_fired := fired_after m e; m_must := must_after m e; m_err := errs_after m e; m_follow := follow_after m e;
     m_prev := prev_after m e; m_last := last_after m e |}.
Definition muser (m : mw) (tag : nat) (a : list nat) (text : str) : mw := mstep m (EUser tag a text).

(* the view is right: it is ScreenMon's step on the fields kept *)
Lemma abs_step w e : absw (sworld_step w e) = mstep (absw w) e.
Proof.
  destruct e; try reflexivity.
  - (* ESigNew *) unfold mstep, follow_after, absw. cbn.
    destruct (sw_follow w) as [[| [|k] | | | | |]|] eqn:F; rewrite ?F; try reflexivity; destruct (cls =? CLS_RENDER)%nat; rewrite ?F; reflexivity.
  - unfold mstep, follow_after, absw. cbn. destruct (sw_follow w) as [[| [|[|k]] | | | | |]|] eqn:F; rewrite ?F; reflexivity.
  - unfold mstep, follow_after, absw. cbn. destruct (sw_follow w) as [[| [|[|k]] | | | | |]|] eqn:F; rewrite ?F; reflexivity.
  - (* EHandler *) unfold mstep, istack_after, proc_after, hand_after, received, absw. cbn.
    destruct (sw_istack w) as [|top rest] eqn:EI.
    + destruct (hid =? H_RENDER)%nat; [|destruct (hid =? H_RECEIVED)%nat]; cbn; rewrite ?EI; reflexivity.
    + destruct (Nat.eqb_spec hid H_RENDER) as [->|_]; [cbn; rewrite ?EI; reflexivity|].
      destruct (hid =? H_RECEIVED)%nat; cbn; rewrite ?EI; reflexivity.
  - (* EHandlerEnd *) cbn. destruct (hid =? H_RENDER)%nat; reflexivity.
  - (* EUser: the cascade of user_step, tag by tag *)
    unfold sworld_step, user_step.
    destruct (Nat.eqb_spec tag T_OP) as [E|?]; cbv iota.
    { subst tag. unfold mstep, follow_after, absw. cbn. destruct (sw_follow w) as [[]|]; reflexivity. }
    destruct (Nat.eqb_spec tag T_STACK) as [E|?]; cbv iota.
    { subst tag. destruct (nth0 args 0 =? K_APPEND)%nat eqn:K1.
      - unfold mstep, stack_after, entry_of_args. cbn. rewrite K1. destruct (sw_replaced w); [reflexivity|]. destruct (nth0 args 4 =? 1)%nat; reflexivity.
      - destruct (nth0 args 0 =? K_ADD_FIRST)%nat eqn:K2; [unfold mstep, stack_after; cbn; rewrite K1, K2; reflexivity|].
        unfold mstep, stack_after. cbn. rewrite K1, K2. destruct (sw_expect w) as [|[[]| |] r]; reflexivity. }
    destruct (Nat.eqb_spec tag T_SETUP) as [E|?]; cbv iota; [subst tag; cbn; destruct (nth0 args 3 =? 1)%nat; reflexivity|].
    destruct (Nat.eqb_spec tag T_REFRESH) as [E|?]; cbv iota; [subst tag; reflexivity|].
    destruct (Nat.eqb_spec tag T_SHOW) as [E|?]; cbv iota; [subst tag; reflexivity|].
    destruct (Nat.eqb_spec tag T_CLOSED) as [E|?]; cbv iota; [subst tag; reflexivity|].
    destruct (Nat.eqb_spec tag T_MODAL_RETURN) as [E|?]; cbv iota; [subst tag; reflexivity|].
    destruct (Nat.eqb_spec tag T_REQ) as [E|?]; cbv iota; [subst tag; reflexivity|].
    destruct (Nat.eqb_spec tag T_ASK) as [E|?]; cbv iota; [subst tag; reflexivity|].
    destruct (Nat.eqb_spec tag T_PROMPT) as [E|?]; cbv iota.
    { subst tag. unfold mstep, typed_after, line_after, proc_after, reads. cbn. destruct (nth0 args 1 =? 0)%nat; reflexivity. }
    destruct (Nat.eqb_spec tag T_READY) as [E|?]; cbv iota.
    { subst tag. unfold mstep, fired_after, must_after, fires. cbn. destruct (_ && _); [|reflexivity].
      destruct (alookup (nth0 args 0) (sw_req w)) as [[scr ar]|]; reflexivity. }
    destruct (Nat.eqb_spec tag T_INPUT) as [E|?]; cbv iota; [subst tag; reflexivity|].
    destruct (Nat.eqb_spec tag T_ACTION) as [E|?]; cbv iota; [subst tag; reflexivity|].
    destruct (Nat.eqb_spec tag T_SETUP_BEGIN) as [E|?]; cbv iota; [subst tag; reflexivity|].
    (* no other tag is recorded *)
    unfold mstep, stack_after, req_after, typed_after, line_after, istack_after, proc_after, hand_after, recv_after, fired_after,
      must_after, errs_after, follow_after, last_after, reads.
    repeat match goal with NE : tag <> ?X |- _ => rewrite ?(proj2 (Nat.eqb_neq tag X) NE); clear NE end.
    reflexivity.
Qed.

Lemma muser_ready_must m a data :
  m_must (muser m T_READY a data) = match fires m a with Some (scr, args) => Some (scr, args, data) | None => m_must m end.
Proof. reflexivity. Qed.

(* a handler starts: only the hand-off of InputThreadManager changes the world *)
Lemma mstep_handler m hid sid data : (hid =? H_RECEIVED)%nat = false \/ m_istack m = [] -> mstep m (EHandler hid sid data) = m.
Proof.
  intros E. destruct m as [? ? ? ? ist ? ? ? ? ? ? ? ? ?]. unfold mstep, istack_after, proc_after, hand_after, received. cbn in *.
  destruct E as [->| ->]; [destruct ist|]; reflexivity.
Qed.
Lemma mstep_received m top rest sid data : m_istack m = top :: rest ->
  mstep m (EHandler H_RECEIVED sid data) =
  m <| m_hand := m_hand m ++ (top, true, m_line m) :: map (fun r => (r, false, [])) (rev rest) |> <| m_istack := [] |> <| m_proc := false |>.
Proof. destruct m. cbn. intros ->. reflexivity. Qed.

Definition MW typed (s : lstate sstate) : mw := absw (SW typed s).
Arguments MW : simpl never.
Lemma MW_emit typed e s : MW typed (emit e s) = mstep (MW typed s) e.
Proof. unfold MW. rewrite SW_emit. apply abs_step. Qed.
Lemma MW_trace typed (s s' : lstate sstate) : trace s' = trace s -> MW typed s' = MW typed s.
Proof. unfold MW, SW. intros ->. reflexivity. Qed.

Definition hand_has (m : mw) (a : list nat) (text : str) : bool :=
  existsb (fun x => (fst (fst x) =? nth0 a 0)%nat && Bool.eqb (snd (fst x)) (nth0 a 1 =? 1)%nat && streq (snd x) text) (m_hand m).

Definition mchk06 (strict : bool) (m : mw) (e : event) : bool :=
  (match m_must m, e with
   | Some (scr, args, text), EUser tag a t =>
     (tag =? T_INPUT)%nat && (nth0 a 0 =? scr)%nat && (negb strict || (nth0 a 1 =? args)%nat) && streq t text
   | Some _, EHandlerEnd _ _ _ => false
   | _, _ => true end) &&
  match e with
  | EUser tag a text =>
    if (tag =? T_READY)%nat then hand_has m a text
    else if (tag =? T_INPUT)%nat then match m_must m with Some _ => true | None => false end
    else true
  | _ => true
  end.

Definition mtop (m : mw) : option entry := match m_stack m with e :: _ => Some e | [] => None end.

Definition mchk07 (quit : option nat) (m : mw) (e : event) : bool :=
  match m_follow m with
  | None => true
  | Some (FQuitBack _) => true
  | Some f =>
    let is_end := match e with EHandlerEnd _ _ _ => true | _ => false end in
    let is_exit := match e with EHandlerEnd _ _ (Some XExit) => true | _ => false end in
    let empty := match m_stack m with [] => true | _ => false end in
    if empty then is_exit else
    match f with
    | FEnd => is_end
    | FRedraw 0 => match e with ESigNew _ c _ None => (c =? CLS_RENDER)%nat | _ => false end
    | FRedraw _ => match e with EEnq _ _ | EDropped _ => true | _ => false end
    | FClose => match e with EUser tag a _ => (tag =? T_OP)%nat && (nth0 a 0 =? O_CLOSE)%nat && (nth0 a 1 =? 0)%nat | _ => false end
    | FQuit =>
      match quit with
      | Some qs => match e with EUser tag a _ => (tag =? T_OP)%nat && (nth0 a 0 =? O_PUSH_MODAL)%nat && (nth0 a 1 =? qs)%nat | _ => false end
      | None => is_exit
      end
    | FQuitBack _ => true
    | FAfterQuit => is_exit || match e with ESigNew _ c _ None => (c =? CLS_RENDER)%nat | _ => false end
    | FReprompt =>
      match e with
      | EUser tag a _ =>
        (tag =? T_REQ)%nat && match mtop m with Some t => (en_scr t =? nth0 a 0)%nat && (en_args t =? nth0 a 1)%nat | None => false end
      | EHandlerEnd _ _ None => true
      | _ => false
      end
    end
  end.

Definition mchk18 (m : mw) (e : event) : bool :=
  match e with
  | EUser tag a text =>
    if (tag =? T_REFUSED)%nat then
      negb (length (m_istack m) =? 0)%nat && (length a =? S (length (m_istack m)))%nat &&
      forallb (fun p => (fst p =? snd p)%nat) (combine (removelast a) (rev (m_istack m)))
    else if (tag =? T_PROMPT)%nat then Bool.eqb (nth0 a 1 =? 0)%nat (negb (m_proc m))
    else if (tag =? T_READY)%nat then hand_has m a text
    else if (tag =? T_GOT)%nat then mem (nth0 a 1) (m_recv m)
    else if (tag =? T_WAITED)%nat then
      match alookup (nth0 a 1) (m_last m) with
      | Some (Some (ok, v)) =>
        Bool.eqb ok (nth0 a 2 =? 1)%nat && (negb ok || ((nth0 a 3 =? 1)%nat && streq v text))
      | _ => false
      end
    else true
  | _ => true
  end.

Definition mchk17 (nosep : list bool) (m : mw) (e : event) : bool :=
  match e with
  | EUser tag a _ =>
    if (tag =? T_SHOW)%nat then
      let scr := nth0 a 1 in
      let prev_is_sep := match m_prev m with Some (t, pa) => (t =? T_SEPARATOR)%nat && (nth0 pa 0 =? scr)%nat | None => false end in
      Bool.eqb prev_is_sep (negb (nth scr nosep false))
    else if (tag =? T_SEPARATOR)%nat then negb (nth (nth0 a 0) nosep false)
    else true
  | _ => true
  end.

(* chk_C06 without the comparison of the arguments *)
Definition chk_C06_noargs (w : sworld) (e : event) : bool :=
  (match sw_must_input w, e with
   | Some (scr, args, text), EUser tag a t => (tag =? T_INPUT)%nat && (nth0 a 0 =? scr)%nat && streq t text
   | Some _, EHandlerEnd _ _ _ => false
   | _, _ => true end) &&
  match e with
  | EUser tag a text =>
    if (tag =? T_READY)%nat then
      existsb (fun x => (fst (fst x) =? nth0 a 0)%nat && Bool.eqb (snd (fst x)) (nth0 a 1 =? 1)%nat && streq (snd x) text)
              (sw_handoff w)
    else if (tag =? T_INPUT)%nat then match sw_must_input w with Some _ => true | None => false end
    else true
  | _ => true
  end.

Lemma chk06_abs w e : chk_C06 w e = mchk06 true (absw w) e.
Proof. reflexivity. Qed.
Lemma chk06n_abs w e : chk_C06_noargs w e = mchk06 false (absw w) e.
Proof.
  unfold chk_C06_noargs, mchk06. cbn [absw m_must m_hand]. f_equal.
  destruct (sw_must_input w) as [[[scr args] text]|]; [|reflexivity]. destruct e; try reflexivity.
  cbn [negb orb]. rewrite andb_true_r. reflexivity.
Qed.
Lemma chk07_abs q w e : chk_C07 q w e = mchk07 q (absw w) e.
Proof. reflexivity. Qed.
Lemma chk18_abs w e : chk_C18 w e = mchk18 (absw w) e.
Proof. reflexivity. Qed.
Lemma chk17_abs ns w e : chk_C17sep ns w e = mchk17 ns (absw w) e.
Proof. reflexivity. Qed.

(* an additional acceptor: no input handler gets a second ready signal (every requester is answered at most once) *)
Definition chk_once (w : sworld) (e : event) : bool :=
  match e with
  | EUser tag a _ => if (tag =? T_READY)%nat then negb (mem (nth0 a 0) (sw_received w)) else true
  | _ => true
  end.
Definition mchk_once (m : mw) (e : event) : bool :=
  match e with
  | EUser tag a _ => if (tag =? T_READY)%nat then negb (mem (nth0 a 0) (m_recv m)) else true
  | _ => true
  end.
Lemma chk_once_abs w e : chk_once w e = mchk_once (absw w) e.
Proof. reflexivity. Qed.

(* [mchk06 true] = chk_C06 with the comparison of the arguments; [fresh]: with chk_once *)
Definition mchk_all (fresh : bool) (quit : option nat) (nosep : list bool) (m : mw) (e : event) : bool :=
  mchk17 nosep m e && mchk07 quit m e && mchk18 m e && mchk06 true m e && (mchk_once m e || negb fresh).
Definition chk_all (fresh : bool) quit nosep (w : sworld) (e : event) : bool := mchk_all fresh quit nosep (absw w) e.

Lemma chk_all_split fresh quit nosep w e : chk_all fresh quit nosep w e = true ->
  chk_C17sep nosep w e = true /\ chk_C07 quit w e = true /\ chk_C18 w e = true /\ chk_C06 w e = true /\
  (fresh = true -> chk_once w e = true).
Proof.
  unfold chk_all, mchk_all. rewrite chk17_abs, chk07_abs, chk18_abs, chk06_abs, chk_once_abs. intros H.
  repeat (apply andb_true_iff in H; destruct H as [H ?]). repeat split; try assumption.
  intros ->. rewrite <- (orb_false_r (mchk_once _ _)). assumption.
Qed.




Lemma remove_first_in {A} (f : A -> bool) l x : In x l -> f x = false -> In x (remove_first f l).
Proof.
  induction l as [|y r IH]; cbn; intros I F; [destruct I|]. destruct (f y) eqn:E.
  - destruct I as [<-|I]; [congruence|exact I].
  - destruct I as [<-|I]; [left; reflexivity|right; auto].
Qed.
Lemma remove_first_nodup {A B} (g : A -> B) (f : A -> bool) l : NoDup (map g l) -> NoDup (map g (remove_first f l)).
Proof.
  induction l as [|y r IH]; cbn; intros ND; [constructor|]. inversion ND; subst. destruct (f y); [assumption|].
  cbn. constructor; [|auto]. intros I. apply H1. apply in_map_iff in I. destruct I as (z & E & I).
  apply in_map_iff. exists z. split; [exact E|]. eapply remove_first_sub, I.
Qed.




Definition qcnt (e : LoopSem.entry) : nat := snd (fst e).
Definition pq (q : equeue) : list signal := map snd (eq_entries q).
Definition pendl (s : lstate sstate) : list signal := flat_map pq (qstore s).
Definition qok (q : equeue) : Prop :=
  NoDup (map qcnt (eq_entries q)) /\ Forall (fun e => qcnt e < eq_counter q) (eq_entries q).
Definition qsok (s : lstate sstate) : Prop := Forall qok (qstore s).

Definition PSub {A} (a l : list A) : Prop := exists r, Permutation l (a ++ r).
Lemma PSub_refl {A} (a : list A) : PSub a a.
Proof. exists []. rewrite app_nil_r. apply Permutation_refl. Qed.
Lemma PSub_cons {A} (a l : list A) x : PSub a l -> PSub a (x :: l).
Proof. intros [r H]. exists (x :: r). eapply perm_trans; [apply perm_skip, H|]. apply Permutation_middle. Qed.
Lemma PSub_cons2 {A} (a a' l : list A) x : Permutation a' (x :: a) -> PSub a l -> PSub a' (x :: l).
Proof.
  intros P [r H]. exists r. eapply perm_trans; [apply perm_skip, H|].
  change (x :: a ++ r) with ((x :: a) ++ r). apply Permutation_app_tail. apply Permutation_sym, P.
Qed.
Lemma PSub_perm {A} (a a' l : list A) : Permutation a a' -> PSub a l -> PSub a' l.
Proof. intros P [r H]. exists r. eapply perm_trans; [exact H|]. apply Permutation_app_tail, P. Qed.
Lemma PSub_drop {A} (a l : list A) x : PSub (x :: a) l -> PSub a l.
Proof. intros [r H]. exists (x :: r). eapply perm_trans; [exact H|]. cbn. apply Permutation_middle. Qed.
Lemma PSub_trans {A} (a b c : list A) : PSub a b -> PSub b c -> PSub a c.
Proof.
  intros [r1 H1] [r2 H2]. exists (r1 ++ r2). eapply perm_trans; [exact H2|].
  rewrite app_assoc. apply Permutation_app_tail, H1.
Qed.
Lemma PSub_in {A} (a l : list A) x : PSub a l -> In x a -> In x l.
Proof. intros [r H] I. eapply Permutation_in; [apply Permutation_sym, H|]. apply in_or_app; auto. Qed.
Lemma PSub_filter {A} (f : A -> bool) (a l : list A) : PSub a l -> PSub (filter f a) (filter f l).
Proof.
  intros [r H]. exists (filter f r). rewrite <- filter_app. apply perm_filter, H.
Qed.
Lemma PSub_map {A B} (f : A -> B) (a l : list A) : PSub a l -> PSub (map f a) (map f l).
Proof. intros [r H]. exists (map f r). rewrite <- map_app. apply Permutation_map, H. Qed.
Lemma PSub_nodup {A} (a l : list A) : PSub a l -> NoDup l -> NoDup a.
Proof.
  intros [r H] ND. assert (X : NoDup (a ++ r)) by (eapply Permutation_NoDup; eauto).
  apply NoDup_app_remove_r in X. exact X.
Qed.
Lemma PSub_length {A} (a l : list A) : PSub a l -> length a <= length l.
Proof. intros [r H]. rewrite (Permutation_length H), app_length. lia. Qed.

Lemma PSub_cons_mono {A} (x : A) a b : PSub a b -> PSub (x :: a) (x :: b).
Proof. intros [r P]. exists r. cbn. apply perm_skip, P. Qed.
Lemma PSub_handoff {A} (old hand : list A) (x : A) (m m' : list A) :
  PSub old hand -> Permutation m m' -> PSub (m' ++ x :: old) (hand ++ x :: m).
Proof.
  intros [r P] PM. exists r.
  replace ((m' ++ x :: old) ++ r) with (m' ++ x :: (old ++ r)) by (rewrite <- app_assoc; reflexivity).
  eapply perm_trans; [apply Permutation_app_comm|]. cbn [app].
  eapply perm_trans; [|apply Permutation_middle]. apply perm_skip.
  apply Permutation_app; [exact PM|exact P].
Qed.

Lemma q_pop_pq q p c sg q' : qok q -> q_pop q = Some ((p, c, sg), q') ->
  Permutation (pq q) (sg :: pq q') /\ qok q' /\ qok (q_put_entry q' (p, c, sg)) /\
  Permutation (pq (q_put_entry q' (p, c, sg))) (pq q).
Proof.
  intros [ND LT] P. destruct (LoopLink.q_pop_perm _ _ _ ND P) as (PM & C & _).
  pose proof (Permutation_trans PM (Permutation_cons_append _ _)) as PM'.
  pose proof (Permutation_NoDup (Permutation_map qcnt PM) ND) as ND1. pose proof (Permutation_Forall PM LT) as LT1.
  inversion ND1; inversion LT1; subst. unfold qok, pq, q_put_entry. cbn [eq_entries eq_counter set]. rewrite C.
  repeat split; try assumption.
  - apply (Permutation_map snd PM).
  - apply (Permutation_NoDup (Permutation_map qcnt PM') ND).
  - apply (Permutation_Forall PM' LT).
  - apply (Permutation_map snd (Permutation_sym PM')).
Qed.

Lemma get_q_out (s : lstate sstate) q : length (qstore s) <= q -> get_q s q = empty_queue.
Proof. intros H. unfold get_q. apply nth_overflow, H. Qed.

Lemma qok_nth (s : lstate sstate) q : qsok s -> qok (get_q s q).
Proof.
  intros H. unfold get_q. destruct (Nat.lt_ge_cases q (length (qstore s))) as [L|L].
  - unfold qsok in H. rewrite Forall_forall in H. apply H. apply nth_In, L.
  - rewrite nth_overflow by exact L. split; cbn; constructor.
Qed.

Lemma qsok_set_q (s : lstate sstate) q v : qsok s -> qok v -> qsok (set_q s q v).
Proof.
  intros H K. unfold qsok, set_q. cbn [qstore set].
  destruct (Nat.lt_ge_cases q (length (qstore s))) as [L|L].
  - destruct (set_nth_split (qstore s) empty_queue q v L) as (a & b & E1 & E2). rewrite E2.
    unfold qsok in H. rewrite E1 in H. apply Forall_app in H. destruct H as [Ha Hb]. inversion Hb; subst.
    apply Forall_app. split; [exact Ha|]. constructor; assumption.
  - rewrite set_nth_out by exact L. exact H.
Qed.

(* replacing queue q: the pending list changes like the queue's own list *)
Lemma pendl_set_q_sub (s : lstate sstate) q v l : Permutation (pq v) (l ++ pq (get_q s q)) ->
  PSub (pendl (set_q s q v)) (l ++ pendl s).
Proof.
  intros P. unfold pendl, set_q. cbn [qstore set].
  destruct (Nat.lt_ge_cases q (length (qstore s))) as [L|L].
  - destruct (set_nth_split (qstore s) empty_queue q v L) as (a & b & E1 & E2). rewrite E2. rewrite E1 at 1.
    rewrite !flat_map_app. cbn [flat_map]. unfold get_q in P. exists []. rewrite app_nil_r, P, <- app_assoc.
    rewrite (app_assoc l (flat_map pq a)), (app_assoc (flat_map pq a) l). apply Permutation_app_tail, Permutation_app_comm.
  - rewrite set_nth_out by exact L. exists l. apply Permutation_app_comm.
Qed.
Lemma pendl_set_q_del (s : lstate sstate) q v x : q < length (qstore s) -> Permutation (pq (get_q s q)) (x :: pq v) ->
  Permutation (pendl s) (x :: pendl (set_q s q v)).
Proof.
  intros L P. unfold pendl, set_q. cbn [qstore set].
  destruct (set_nth_split (qstore s) empty_queue q v L) as (a & b & E1 & E2). rewrite E2. rewrite E1 at 1.
  rewrite !flat_map_app. cbn [flat_map]. unfold get_q in P.
  eapply perm_trans; [|apply Permutation_sym, Permutation_middle].
  apply Permutation_app_head. rewrite app_comm_cons. apply Permutation_app_tail. exact P.
Qed.

Lemma qok_put q sg : qok q -> qok (q_put q sg) /\ pq (q_put q sg) = pq q ++ [sg].
Proof.
  intros [ND LT]. unfold q_put, qok, pq. cbn [eq_entries eq_counter set]. repeat split.
  - rewrite map_app. cbn [map]. apply NoDup_snoc; [exact ND|]. cbn [qcnt fst snd].
    intros I. apply in_map_iff in I. destruct I as (e & E & I). rewrite Forall_forall in LT. specialize (LT e I). lia.
  - apply Forall_app. split.
    + rewrite Forall_forall in *. intros e I. specialize (LT e I). lia.
    + constructor; [cbn; lia|constructor].
  - rewrite map_app. reflexivity.
Qed.
Lemma qok_add_source q o : qok q -> qok (q_add_source q o) /\ pq (q_add_source q o) = pq q.
Proof. intros H. unfold q_add_source. destruct (existsb _ _); split; auto. Qed.

Lemma do_enqueue_facts (s : lstate sstate) sg : qsok s ->
  let s' := do_enqueue s sg in
  ust s' = ust s /\ ext s' = ext s /\ handlers s' = handlers s /\ qsok s' /\ PSub (pendl s') (sg :: pendl s) /\
  (exists e, (e = EDropped (sg_id sg) \/ exists q, e = EEnq (sg_id sg) q) /\ trace s' = e :: trace s).
Proof.
  intros Q. unfold do_enqueue. destruct (force_quit s).
  - cbn. repeat split; auto. { apply PSub_cons, PSub_refl. } eexists; split; [left; reflexivity|reflexivity].
  - set (q := match route s (rev (levels s)) (sg_src sg) with Some q => q | None => active s end).
    destruct (qok_put (get_q s q) sg (qok_nth s q Q)) as [K E].
    cbn [emit ust ext handlers set set_q trace]. repeat split; auto.
    + apply (qsok_set_q s q _ Q K).
    + apply (pendl_set_q_sub s q _ [sg]). rewrite E. apply Permutation_sym, Permutation_cons_append.
    + eexists; split; [right; eexists; reflexivity|reflexivity].
Qed.

(* well-formed sessions: screen ids are in range *)
(* [fresh]: the application has no InputHandler objects of its own (no SHandlerAsk): every request has a fresh handler *)
Fixpoint scmd_wf (N : nat) (fresh : bool) (c : scmd) : bool :=
  match c with
  | SPush s _ | SPushModal s _ | SReplace s _ | SSchedule s _ => (s <? N)%nat
  | SHandlerAsk _ _ => negb fresh
  | SConnect _ k => (k <? 7)%nat                       (* H_CUSTOM k < 10: not the id of an InputHandler's handler *)
  | SIfCount _ t e => forallb (scmd_wf N fresh) t && forallb (scmd_wf N fresh) e
  | _ => true
  end.
Definition cmds_wf N fresh (l : list scmd) : bool := forallb (scmd_wf N fresh) l.
Definition spec_wf N fresh (sp : screen_spec) : bool :=
  cmds_wf N fresh (sc_setup_cmds sp) && cmds_wf N fresh (sc_refresh sp) && cmds_wf N fresh (sc_show sp) && cmds_wf N fresh (sc_closed sp) &&
  forallb (fun x => cmds_wf N fresh (fst (snd x))) (sc_input sp) && cmds_wf N fresh (fst (sc_input_default sp)) &&
  forallb (cmds_wf N fresh) (sc_custom sp).
Definition quit_wf N (quit : option nat) : bool :=
  match quit with Some q => (q <? N)%nat | None => true end.
Definition acts_wf N fresh (acts : list saction) : bool :=
  forallb (fun a => match a with SACmds l => cmds_wf N fresh l | SARun => true end) acts.
Definition wf_session_gen (fresh : bool) (specl : list screen_spec) (quit : option nat) (acts : list saction) : bool :=
  forallb (spec_wf (length specl) fresh) specl && quit_wf (length specl) quit &&
  acts_wf (length specl) fresh acts.
Definition wf_session := wf_session_gen false.

(* the application has no InputHandler objects of its own: no SHandlerAsk anywhere in the session *)
Fixpoint scmd_noask (c : scmd) : bool :=
  match c with
  | SHandlerAsk _ _ => false
  | SIfCount _ t e => forallb scmd_noask t && forallb scmd_noask e
  | _ => true
  end.
Definition spec_noask (sp : screen_spec) : bool :=
  forallb scmd_noask (sc_setup_cmds sp) && forallb scmd_noask (sc_refresh sp) && forallb scmd_noask (sc_show sp) && forallb scmd_noask (sc_closed sp) &&
  forallb (fun x => forallb scmd_noask (fst (snd x))) (sc_input sp) && forallb scmd_noask (fst (sc_input_default sp)) &&
  forallb (forallb scmd_noask) (sc_custom sp).
Definition no_handler_objects (specl : list screen_spec) (acts : list saction) : bool :=
  forallb spec_noask specl &&
  forallb (fun a => match a with SACmds l => forallb scmd_noask l | SARun => true end) acts.

Lemma scmd_ind2 (P : scmd -> Prop) :
  (forall c, (match c with SIfCount _ _ _ => False | _ => True end) -> P c) ->
  (forall k t e, Forall P t -> Forall P e -> P (SIfCount k t e)) -> forall c, P c.
Proof.
  intros H1 H2 c. induction c as [c IH] using scmd_ind'. destruct c; try (apply H1; exact I). apply H2; apply IH.
Qed.

(* the handler table: the scheduler's and the input manager's own handlers, H_READY 0 .. k-1 of the k InputHandler
   objects created so far, and for ExceptionSignal (class 0) and the application's own signal classes (>= 5) callbacks
   with ids 3 .. 9 *)
Definition hlist (hs : list (nat * list (nat * nat))) (cls : nat) : list (nat * nat) :=
  match option_map snd (find (fun p : nat * list (nat * nat) => (fst p =? cls)%nat) hs) with Some l => l | None => [] end.
Definition HsOK (k : nat) (hs : list (nat * list (nat * nat))) : Prop :=
  hlist hs CLS_RENDER = [(H_RENDER, 0)] /\ hlist hs CLS_CLOSE = [(H_CLOSE, 0)] /\ hlist hs CLS_RECEIVED = [(H_RECEIVED, 0)] /\
  hlist hs CLS_READY = map (fun j => (H_READY j, 0)) (seq 0 k) /\
  forall cls, (cls = 0 \/ 5 <= cls) -> Forall (fun hd => 3 <= fst hd < 10) (hlist hs cls).
(* like [fires]: not to be unfolded by the bare [cbn] of the walks ([groups_open], [groups_auto]) *)
#[local] Arguments H_READY : simpl never.
#[local] Arguments Nat.modulo : simpl never.
Lemma hlist_add hs cls hid data cls' :
  hlist (add_handler hs cls hid data) cls' = if (cls' =? cls)%nat then hlist hs cls ++ [(hid, data)] else hlist hs cls'.
Proof.
  unfold hlist. induction hs as [|[c l] r IH]; cbn [add_handler].
  - cbn [find fst option_map snd]. rewrite (Nat.eqb_sym cls cls'). destruct (cls' =? cls)%nat; reflexivity.
  - destruct (c =? cls)%nat eqn:E.
    + apply Nat.eqb_eq in E. subst c. cbn [find fst]. rewrite Nat.eqb_refl. cbn [option_map snd].
      rewrite (Nat.eqb_sym cls cls'). destruct (cls' =? cls)%nat; reflexivity.
    + cbn [find fst]. rewrite E. destruct (c =? cls')%nat eqn:E2; cbn [option_map snd].
      * apply Nat.eqb_eq in E2. subst c. rewrite E. reflexivity.
      * exact IH.
Qed.
Lemma HsOK_add_ready k hs : HsOK k hs -> HsOK (S k) (add_handler hs CLS_READY (H_READY k) 0).
Proof.
  intros (H1 & H2 & H3 & H4 & H5). unfold HsOK. rewrite !hlist_add. cbn [Nat.eqb CLS_RENDER CLS_CLOSE CLS_RECEIVED CLS_READY].
  repeat split; auto.
  - rewrite H4, (seq_S k 0), map_app. reflexivity.
  - intros cls C. rewrite hlist_add. destruct (cls =? CLS_READY)%nat eqn:E; [|apply H5, C].
    apply Nat.eqb_eq in E. unfold CLS_READY in E. lia.
Qed.
Lemma HsOK_nth k hs cls idx hid data : HsOK k hs -> nth_error (hlist hs cls) idx = Some (hid, data) ->
  (cls = CLS_RENDER /\ hid = H_RENDER) \/ (cls = CLS_CLOSE /\ hid = H_CLOSE) \/ (cls = CLS_RECEIVED /\ hid = H_RECEIVED /\ idx = 0) \/
  (cls = CLS_READY /\ hid = H_READY idx /\ idx < k) \/ (cls <> CLS_READY /\ cls <> CLS_RECEIVED /\ 3 <= hid < 10).
Proof.
  intros (T1 & T2 & T3 & T4 & T5) NE.
  assert (One : forall h, nth_error [(h, 0)] idx = Some (hid, data) -> hid = h /\ idx = 0)
    by (intros h X; destruct idx as [|[|i]]; cbn in X; inversion X; auto).
  destruct (Nat.eq_dec cls CLS_RENDER) as [->|N1]; [rewrite T1 in NE; left; split; [reflexivity|apply (One _ NE)]|].
  destruct (Nat.eq_dec cls CLS_CLOSE) as [->|N2]; [rewrite T2 in NE; right; left; split; [reflexivity|apply (One _ NE)]|].
  destruct (Nat.eq_dec cls CLS_RECEIVED) as [->|N3]; [rewrite T3 in NE; right; right; left; split; [reflexivity|apply (One _ NE)]|].
  destruct (Nat.eq_dec cls CLS_READY) as [->|N4].
  - right; right; right; left. rewrite T4, nth_error_map in NE.
    assert (L : idx < k) by (rewrite <- (seq_length k 0); apply nth_error_Some; destruct (nth_error (seq 0 k) idx); [discriminate|discriminate NE]).
    rewrite (nth_error_nth' _ 0), seq_nth in NE by (rewrite ?seq_length; exact L). cbn in NE. inversion NE. auto.
  - right; right; right; right. split; [exact N4|split; [exact N3|]].
    assert (C : cls = 0 \/ 5 <= cls) by (unfold CLS_RENDER, CLS_CLOSE, CLS_RECEIVED, CLS_READY in *; lia).
    pose proof (T5 _ C) as F. rewrite Forall_forall in F. exact (F _ (nth_error_In _ _ NE)).
Qed.
Lemma HsOK_add_custom k hs cls hid data : HsOK k hs -> (cls = 0 \/ 5 <= cls) -> 3 <= hid < 10 -> HsOK k (add_handler hs cls hid data).
Proof.
  intros (H1 & H2 & H3 & H4 & H5) C Hh. unfold HsOK. rewrite !hlist_add.
  assert (E : forall c, 1 <= c < 5 -> (c =? cls)%nat = false) by (intros c L; apply Nat.eqb_neq; lia).
  rewrite !E by (unfold CLS_RENDER, CLS_CLOSE, CLS_RECEIVED, CLS_READY; lia).
  repeat split; auto. intros cls' C'. rewrite hlist_add. destruct (cls' =? cls)%nat; [|apply H5, C'].
  apply Forall_app. split; [apply H5; exact C|]. constructor; [exact Hh|constructor].
Qed.

Definition en_of (d : sdata) : ScreenMon.entry :=
  {| en_id := sd_id d; en_scr := sd_scr d; en_args := sd_args d; en_modal := sd_modal d |}.
Definition isready (sg : signal) : bool := (sg_cls sg =? CLS_READY)%nat.
Definition isrecv (sg : signal) : bool := (sg_cls sg =? CLS_RECEIVED)%nat.
Definition triple (sg : signal) : nat * bool * str := (sg_a sg, sg_b sg, sg_data sg).
Definition hid_of (x : nat * bool * str) : nat := fst (fst x).

(* when every request has a fresh handler: handlers that got their ready signal are gone for good; the handlers of the
   hand-off list and of the request stack are pairwise distinct *)
Record FreshInv (recv : list nat) (hand : list (nat * bool * str)) (ist : list nat) (len : nat) : Prop := {
  f_recv : forall n, mem n recv = true -> n < len /\ ~ In n ist /\ ~ In n (map hid_of hand);
  f_hand_nd : NoDup (map hid_of hand);
  f_hand_lt : forall x, In x hand -> hid_of x < len /\ ~ In (hid_of x) ist;
  f_ist_nd : NoDup ist;
  f_ist_lt : forall n, In n ist -> n < len }.

Lemma FreshInv_len r h i len len' : len <= len' -> FreshInv r h i len -> FreshInv r h i len'.
Proof.
  intros L [A B C D E]. constructor; auto.
  - intros n M. destruct (A n M) as (X & Y & Z). repeat split; auto; lia.
  - intros x I. destruct (C x I). split; auto; lia.
  - intros n I. specialize (E n I). lia.
Qed.

Lemma FreshInv_handoff r h top rest len (ln : str) : FreshInv r h (top :: rest) len ->
  FreshInv r (h ++ (top, true, ln) :: map (fun x : nat => (x, false, [])) (rev rest)) [] len.
Proof.
  intros [A B C D E].
  assert (TNI : ~ In top rest) by (inversion D; assumption).
  assert (RND : NoDup rest) by (inversion D; assumption).
  assert (DISJ : forall x, In x (top :: rest) -> ~ In x (map hid_of h)).
  { intros x I J. apply in_map_iff in J. destruct J as (y & Ey & J). destruct (C y J) as [_ K]. apply K. rewrite Ey. exact I. }
  assert (IDS : map hid_of (h ++ (top, true, ln) :: map (fun x : nat => (x, false, [])) (rev rest)) = map hid_of h ++ top :: rev rest).
  { rewrite map_app. cbn [map hid_of fst]. rewrite map_map. cbn [hid_of fst]. rewrite map_id. reflexivity. }
  constructor.
  - intros n M. destruct (A n M) as (X & Y & Z). split; [exact X|]. split; [intros []|]. rewrite IDS.
    intros I. apply in_app_or in I. destruct I as [I|[<-|I]]; [auto|apply Y; left; reflexivity|].
    rewrite <- in_rev in I. apply Y. right. exact I.
  - rewrite IDS. apply nodup_app; [exact B| |].
    + constructor; [rewrite <- in_rev; exact TNI|]. apply NoDup_rev. exact RND.
    + intros x I [<-|J]; [apply (DISJ top); [left; reflexivity|exact I]|]. rewrite <- in_rev in J. apply (DISJ x); [right; exact J|exact I].
  - intros x I. split; [|auto]. apply in_app_or in I. destruct I as [I|[<-|I]].
    + apply C, I.
    + apply E. left. reflexivity.
    + apply in_map_iff in I. destruct I as (y & <- & I). rewrite <- in_rev in I. apply E. right. exact I.
  - constructor.
  - intros ? [].
Qed.


Lemma FreshInv_new r h i len : FreshInv r h i len ->
  ~ In len i /\ ~ In len (map hid_of h) /\ mem len r = false.
Proof.
  intros [A B C D E]. repeat split.
  - intros I. specialize (E _ I). lia.
  - intros I. apply in_map_iff in I. destruct I as (x & X & I). destruct (C x I). lia.
  - destruct (mem len r) eqn:M; [|reflexivity]. destruct (A _ M). lia.
Qed.

Lemma FreshInv_push r h i len k : k < len -> ~ In k i -> ~ In k (map hid_of h) -> mem k r = false ->
  FreshInv r h i len -> FreshInv r h (k :: i) len.
Proof.
  intros KL KI KH KR [A B C D E]. constructor; auto.
  - intros n M. destruct (A n M) as (X & Y & Z). repeat split; auto. intros [<-|I]; [congruence|auto].
  - intros x I. destruct (C x I) as [X Y]. split; [exact X|]. intros [E1|I2]; [|auto]. apply KH. rewrite E1. apply in_map, I.
  - constructor; assumption.
  - intros n [<-|I]; auto.
Qed.



Definition rmatch (a : nat) (b : bool) (d : str) (x : nat * bool * str) : bool :=
  (fst (fst x) =? a)%nat && Bool.eqb (snd (fst x)) b && streq (snd x) d.

Lemma rmatch_spec a b d x : rmatch a b d x = true <-> x = (a, b, d).
Proof.
  unfold rmatch. destruct x as [[a' b'] d']. cbn [fst snd]. split.
  - intros H. apply andb_true_iff in H. destruct H as [H H3]. apply andb_true_iff in H. destruct H as [H1 H2].
    apply Nat.eqb_eq in H1. apply eqb_prop in H2. apply streq_eq in H3. congruence.
  - intros E. inversion E; subst. rewrite Nat.eqb_refl, eqb_reflx, streq_refl. reflexivity.
Qed.


Lemma PSub_remove_match (hand rest : list (nat * bool * str)) a b d :
  PSub ((a, b, d) :: rest) hand -> PSub rest (remove_first (rmatch a b d) hand).
Proof.
  intros S. assert (I : In (a, b, d) hand) by (eapply PSub_in; [exact S|left; reflexivity]).
  pose proof (remove_first_perm (rmatch a b d) (a, b, d) hand I (proj2 (rmatch_spec a b d _) eq_refl)
                (fun y H => proj1 (rmatch_spec a b d y) H)) as P.
  destruct S as [r Pr]. exists r. apply (Permutation_cons_inv (a := (a, b, d))).
  eapply perm_trans; [apply Permutation_sym, P|exact Pr].
Qed.

Lemma FreshInv_ready r h i len a b d : FreshInv r h i len -> In (a, b, d) h ->
  FreshInv (a :: r) (remove_first (rmatch a b d) h) i len /\ mem a r = false.
Proof.
  intros [A B C D E] I.
  pose proof (remove_first_perm (rmatch a b d) (a, b, d) h I (proj2 (rmatch_spec a b d _) eq_refl)
                (fun y H => proj1 (rmatch_spec a b d y) H)) as P.
  assert (ND : NoDup (a :: map hid_of (remove_first (rmatch a b d) h))).
  { apply (Permutation_NoDup (l := map hid_of h)); [|exact B]. apply (Permutation_map hid_of P). }
  assert (SUB : forall x, In x (remove_first (rmatch a b d) h) -> In x h) by (intros x; apply remove_first_sub).
  destruct (C _ I) as [AL AI]. cbn [hid_of fst] in AL, AI.
  split.
  - constructor.
    + intros n M. rewrite mem_cons in M. apply orb_true_iff in M. destruct M as [M|M].
      * apply Nat.eqb_eq in M. subst n. split; [exact AL|]. split; [exact AI|]. inversion ND; assumption.
      * destruct (A n M) as (X & Y & Z). split; [exact X|]. split; [exact Y|].
        intros J. apply Z. apply in_map_iff in J. destruct J as (x & Ex & J). apply in_map_iff. exists x. split; [exact Ex|auto].
    + inversion ND; assumption.
    + intros x J. apply C, SUB, J.
    + exact D.
    + exact E.
  - destruct (mem a r) eqn:M; [|reflexivity]. destruct (A a M) as (_ & _ & Z). exfalso. apply Z.
    apply in_map_iff. exists (a, b, d). split; [reflexivity|exact I].
Qed.



(* a session: the application's actions keep the loop's invariant [Inv], so [A] holds of the state it ends in *)
Section Session.
  Variable specs : nat -> screen_spec.
  Notation lst := (lstate sstate).
  Variables A D Inv : lst -> Prop.
  Variable R : lst -> lst -> Prop.
  Variable SigPre : signal -> nat -> lst -> Prop.
  Variable okspec : sigspec -> Prop.
  Notation SP := (Spec (screen_code specs) A D Inv R SigPre okspec).

  Theorem session_keeps (okact : saction -> Prop) fuel :
    (forall s, Inv s -> A s) -> (forall s, D s -> A s) -> (forall n, SP n) -> (forall s, Inv s -> Inv (emit ETop s)) ->
    (forall l, okact (SACmds l) -> keeps (screen_code specs) A D Inv R SigPre okspec (run_cmds specs 0 0 l)) ->
    forall acts s, Inv s -> Forall okact acts -> A (snd (app_session specs fuel acts s)).
  Proof.
    intros Inv_A D_A HSP Top Cmds acts s HI OK.
    refine (proj1 (app_sessions_inv specs fuel A Inv okact goes_on Inv_A (fun _ G => G) _ acts s OK HI)).
    clear acts s HI OK. intros a s Oa HI. pose proof (Top s HI) as HT.
    assert (STEP : forall r, res A D (fun _ s' => Inv s') (fst r) (snd r) -> A (snd r) /\ (goes_on (fst r) -> Inv (snd r))).
    { intros [o s1] HR. cbn [fst snd] in *.
      destruct o as [|[| |]| |]; cbn in HR; (split; [auto | intros (N1 & N2 & N3); auto; congruence]). }
    destruct a as [l|]; cbn [app_call].
    - apply STEP. destruct (exec (screen_code specs) fuel (CProg (run_cmds specs 0 0 l)) (emit ETop s)) as [o s1] eqn:E.
      destruct (Cmds l Oa fuel (fun _ s' => Inv s') (emit ETop s) (HSP fuel) HT (fun _ _ H => H)) as [_ HW].
      apply (HW fuel (le_n _) _ _ E).
    - destruct (st_stack (ust s)); [destruct (st_run_empty (ust s))|]; try (apply (STEP (OThrow XError, emit ETop s)); exact HT);
        apply STEP; destruct (exec (screen_code specs) fuel CRun (emit ETop s)) as [o s1] eqn:E;
        (eapply res_mono; [|apply (HSP fuel fuel (le_n _) CRun (emit ETop s) o s1 I HT I E)]); intros ? ? [H _]; exact H.
  Qed.
End Session.

Section Scr.
  Variable specs : nat -> screen_spec.
  Variable N : nat.
  Variable typed : list (option str).
  Variable quit : option nat.
  Variable nosep : list bool.
  Variable fresh : bool.
  Hypothesis Hwf : forall scr, spec_wf N fresh (specs scr) = true.
  Hypothesis Hquit : quit_wf N quit = true.
  Hypothesis Hnosep : forall scr, nth scr nosep false = sc_no_separator (specs scr).
  Notation lst := (lstate sstate).
  Implicit Types s : lst.
  Implicit Types Q : outcome -> lst -> Prop.

  Definition mchk := mchk_all fresh quit nosep.
  Definition acc s : Prop := sacc (chk_all fresh quit nosep) typed s.
  Notation MWs := (MW typed).

  Lemma acc_emit e s : acc (emit e s) <-> acc s /\ mchk (MWs s) e = true.
  Proof. unfold acc. rewrite sacc_emit. reflexivity. Qed.
  Lemma acc_trace s s' : trace s' = trace s -> acc s -> acc s'.
  Proof. unfold acc, sacc. intros ->. auto. Qed.

  Record Core (m : mw) (u : sstate) (l : list signal) (ex : list sigspec) (hs : list (nat * list (nat * nat))) : Prop := {
    c_stack : m_stack m = map en_of (st_stack u);
    c_istack : m_istack m = st_istack u;
    c_proc : m_proc m = st_processing u;
    c_typed : m_typed m = st_typed u;
    c_err : forall scr, scr < N -> sc_prompt_none (specs scr) = false -> merr_of m scr = ss_err (scr_of u scr);
    c_cb_req : forall n, ih_cb (ih_of u n) = true ->
       alookup n (m_req m) = Some (ih_owner (ih_of u n), ih_args (ih_of u n)) /\ mem n (m_fired m) = false;
    c_cb_no : forall n, ih_cb (ih_of u n) = false -> alookup n (m_req m) = None \/ mem n (m_fired m) = true;
    c_req_lt : forall n, length (st_ih u) <= n -> alookup n (m_req m) = None /\ mem n (m_fired m) = false;
    c_owner : forall n, ih_cb (ih_of u n) = true ->
       ih_owner (ih_of u n) < N /\ sc_prompt_none (specs (ih_owner (ih_of u n))) = false;
    c_recv : forall n, ih_received (ih_of u n) = true -> mem n (m_recv m) = true;
    c_last : forall n, ih_received (ih_of u n) = true ->
       exists v, alookup n (m_last m) = Some (Some (ih_success (ih_of u n), v)) /\
                 (ih_success (ih_of u n) = true -> ih_value (ih_of u n) = Some v);
    c_fresh : fresh = true -> FreshInv (m_recv m) (m_hand m) (st_istack u) (length (st_ih u));
    c_sep : forall pa, m_prev m = Some (T_SEPARATOR, pa) -> sc_no_separator (specs (nth0 pa 0)) = false;
    c_quit : st_quit u = quit;
    c_nscr : length (st_scr u) = N;
    c_stk_wf : forall d, In d (st_stack u) -> sd_scr d < N;
    c_hs : HsOK (length (st_ih u)) hs;
    c_p_ready : PSub (map triple (filter isready l)) (m_hand m);
    c_p_recv : forall sg, In sg l -> sg_cls sg = CLS_RECEIVED -> sg_data sg = m_line m;
    c_e_recv : forall sp, In sp ex -> sp_cls sp = CLS_RECEIVED /\ sp_data sp = m_line m;
    c_fl_cnt : length (filter isrecv l) + length ex <= 1;
    c_fl_proc : length (filter isrecv l) + length ex = 1 -> st_processing u = true }.

  (* where the follow-up is not idle its two fields are spelled out, so that the checks compute *)
  Lemma mw_fm (m : mw) fo mu : m_follow m = fo -> m_must m = mu -> m = m <| m_follow := fo |> <| m_must := mu |>.
  Proof. destruct m. cbn. intros <- <-. reflexivity. Qed.

  Lemma Core_set_follow m u l ex hs fo mu : Core m u l ex hs -> Core (m <| m_follow := fo |> <| m_must := mu |>) u l ex hs.
  Proof. intros HC. destruct HC. constructor; assumption. Qed.

  (* Core by groups. Each group is given exactly the fields it reads, so a group none of whose fields a method writes is kept
     by conversion ([assumption]); a group that is written has one lemma per situation. (Only [g_sep] is written by every
     user event, through [m_prev]: see [groups_auto].) *)
  Definition ihn (ih : list ihandler) (n : nat) : ihandler :=
    nth n ih {| ih_src := None; ih_owner := 0; ih_cb := false; ih_received := false; ih_success := false; ih_value := None; ih_args := 0 |}.
  Lemma ih_of_ihn u n : ih_of u n = ihn (st_ih u) n.
  Proof. reflexivity. Qed.
  Record CStk (ms : list entry) (st : list sdata) : Prop := {
    stk_map : ms = map en_of st;
    stk_wf : forall d, In d st -> sd_scr d < N }.
  Record CScr (er : list (nat * nat)) (sc : list scrst) : Prop := {
    scr_err : forall scr, scr < N -> sc_prompt_none (specs scr) = false -> err_in er scr = ss_err (nth scr sc (scr0 default_spec));
    scr_len : length sc = N }.
  Record CReq (rq : list (nat * (nat * nat))) (fi : list nat) (ih : list ihandler) : Prop := {
    req_cb : forall n, ih_cb (ihn ih n) = true -> alookup n rq = Some (ih_owner (ihn ih n), ih_args (ihn ih n)) /\ mem n fi = false;
    req_nocb : forall n, ih_cb (ihn ih n) = false -> alookup n rq = None \/ mem n fi = true;
    req_lt : forall n, length ih <= n -> alookup n rq = None /\ mem n fi = false;
    req_owner : forall n, ih_cb (ihn ih n) = true -> ih_owner (ihn ih n) < N /\ sc_prompt_none (specs (ih_owner (ihn ih n))) = false }.
  Record CRes (rc : list nat) (la : list (nat * option (bool * str))) (ih : list ihandler) : Prop := {
    res_recv : forall n, ih_received (ihn ih n) = true -> mem n rc = true;
    res_last : forall n, ih_received (ihn ih n) = true ->
       exists v, alookup n la = Some (Some (ih_success (ihn ih n), v)) /\ (ih_success (ihn ih n) = true -> ih_value (ihn ih n) = Some v) }.
  (* what is in flight: ready signals are backed by the hand-off list; at most one InputReceived, carrying the line, and only
     while a reader runs *)
  Definition CFly (hd : list (nat * bool * str)) (ln : str) (pr : bool) (l : list signal) (ex : list sigspec) : Prop :=
    PSub (map triple (filter isready l)) hd /\
    (forall sg, In sg l -> sg_cls sg = CLS_RECEIVED -> sg_data sg = ln) /\
    (forall sp, In sp ex -> sp_cls sp = CLS_RECEIVED /\ sp_data sp = ln) /\
    length (filter isrecv l) + length ex <= 1 /\
    (length (filter isrecv l) + length ex = 1 -> pr = true).

  Record CoreG (m : mw) (u : sstate) (l : list signal) (ex : list sigspec) (hs : list (nat * list (nat * nat))) : Prop := {
    g_stk : CStk (m_stack m) (st_stack u);
    g_ist : m_istack m = st_istack u;
    g_proc : m_proc m = st_processing u;
    g_typed : m_typed m = st_typed u;
    g_scr : CScr (m_err m) (st_scr u);
    g_req : CReq (m_req m) (m_fired m) (st_ih u);
    g_res : CRes (m_recv m) (m_last m) (st_ih u);
    g_fresh : fresh = true -> FreshInv (m_recv m) (m_hand m) (st_istack u) (length (st_ih u));
    g_sep : forall pa, m_prev m = Some (T_SEPARATOR, pa) -> sc_no_separator (specs (nth0 pa 0)) = false;
    g_quit : st_quit u = quit;
    g_hs : HsOK (length (st_ih u)) hs;
    g_fly : CFly (m_hand m) (m_line m) (st_processing u) l ex }.

  Lemma Core_groups m u l ex hs : Core m u l ex hs <-> CoreG m u l ex hs.
  Proof.
    split.
    - intros []. constructor; try assumption; [constructor..|repeat apply conj]; assumption.
    - intros [[] ? ? ? [] [] [] ? ? ? ? (? & ? & ? & ? & ?)]. constructor; assumption.
  Qed.

  Lemma CStk_cons ms st e d : e = en_of d -> sd_scr d < N -> CStk ms st -> CStk (e :: ms) (d :: st).
  Proof. intros -> L [-> W]. split; [reflexivity|]. intros x [<-|I]; auto. Qed.
  Lemma CStk_snoc ms st e d : e = en_of d -> sd_scr d < N -> CStk ms st -> CStk (ms ++ [e]) (st ++ [d]).
  Proof. intros -> L [-> W]. split; [rewrite map_app; reflexivity|]. intros x I. apply in_app_or in I. destruct I as [I|[<-|[]]]; auto. Qed.
  Lemma CStk_tl ms st : CStk ms st -> CStk (tl ms) (tl st).
  Proof. intros [-> W]. destruct st as [|t r]; split; auto. intros x I. apply W. right. exact I. Qed.

  Lemma CFly_sub hd ln pr l l' ex : PSub l l' -> CFly hd ln pr l' ex -> CFly hd ln pr l ex.
  Proof.
    intros S (F1 & F2 & F3 & F4 & F5). pose proof (PSub_length _ _ (PSub_filter isrecv _ _ S)) as L.
    split; [eapply PSub_trans; [apply PSub_map, PSub_filter, S|exact F1]|].
    split; [intros sg I; apply F2; eapply PSub_in; eauto|]. split; [exact F3|]. split; [lia|]. intros H. apply F5. lia.
  Qed.
  Lemma CFly_cons_other hd ln pr l ex sg : isready sg = false -> isrecv sg = false -> CFly hd ln pr l ex -> CFly hd ln pr (sg :: l) ex.
  Proof.
    intros R1 R2 (F1 & F2 & F3 & F45). unfold CFly. cbn [filter]. rewrite R1, R2. split; [exact F1|]. split; [|split; assumption].
    intros sg' [<-|I] E; [|auto]. unfold isrecv in R2. rewrite E in R2. discriminate R2.
  Qed.
  Lemma CFly_ext_move hd ln pr l sp r id : CFly hd ln pr l (sp :: r) -> CFly hd ln pr (mk_signal id sp :: l) r.
  Proof.
    intros (F1 & F2 & F3 & F4 & F5). destruct (F3 sp (or_introl eq_refl)) as [CL DT].
    unfold CFly. cbn [filter]. unfold isready at 1, isrecv at 1 3. cbn [sg_cls mk_signal]. rewrite CL. cbn [Nat.eqb CLS_RECEIVED CLS_READY length] in *.
    split; [exact F1|]. split; [|split; [|split]].
    - intros sg [<-|I] E; [exact DT|auto].
    - intros sp' I. apply F3. right. exact I.
    - lia.
    - intros H. apply F5. lia.
  Qed.
  (* no reader runs, so nothing is in flight: the reader that starts is free in its line, and its one InputReceivedSignal may be
     enqueued at once or wait outside the loop *)
  Lemma CFly_start hd ln pr l ex : CFly hd ln pr l ex -> pr = false ->
    ex = [] /\ forall ln', CFly hd ln' true l [] /\
    (forall sp, sp_cls sp = CLS_RECEIVED -> sp_data sp = ln' -> CFly hd ln' true l [sp]) /\
    (forall sg, sg_cls sg = CLS_RECEIVED -> sg_data sg = ln' -> CFly hd ln' true (sg :: l) []).
  Proof.
    intros (F1 & F2 & F3 & F4 & F5) ->.
    assert (Z : filter isrecv l = [] /\ ex = []).
    { destruct (filter isrecv l), ex; auto; exfalso; cbn [length] in F4, F5; first [lia|discriminate F5; lia]. }
    destruct Z as [Z ->]. split; [reflexivity|]. intros ln'.
    assert (NR : forall sg, In sg l -> sg_cls sg = CLS_RECEIVED -> sg_data sg = ln').
    { intros sg I E. pose proof (filter_nil_in isrecv l sg Z I) as X. unfold isrecv in X. rewrite E in X. discriminate X. }
    unfold CFly. cbn [filter]. rewrite Z. split; [|split].
    - split; [exact F1|]. split; [exact NR|]. split; [intros sp []|]. split; [cbn; lia|reflexivity].
    - intros sp CL DT. split; [exact F1|]. split; [exact NR|]. split; [intros ? [<-|[]]; auto|]. split; [cbn; lia|reflexivity].
    - intros sg CL DT. assert (R1 : isready sg = false) by (unfold isready; rewrite CL; reflexivity).
      assert (R2 : isrecv sg = true) by (unfold isrecv; rewrite CL; reflexivity). rewrite R1, R2.
      split; [exact F1|]. split; [intros ? [<-|I] E; auto|]. split; [intros sp []|]. split; [cbn; lia|reflexivity].
  Qed.

  (* a signal leaves the queues to be dispatched: what its first handler may rely on *)
  Lemma CFly_take hd ln pr l l0 sg ex : Permutation l (sg :: l0) -> CFly hd ln pr l ex ->
    (sg_cls sg = CLS_READY -> PSub (triple sg :: map triple (filter isready l0)) hd) /\
    (sg_cls sg = CLS_RECEIVED -> sg_data sg = ln /\ filter isrecv l0 = [] /\ ex = []).
  Proof.
    intros PD (F1 & F2 & _ & F4 & _). split; intros CL.
    - eapply PSub_perm; [|exact F1]. pose proof (Permutation_map triple (perm_filter isready _ _ PD)) as PF.
      cbn [filter] in PF. unfold isready at 2 in PF. rewrite CL, Nat.eqb_refl in PF. exact PF.
    - split; [apply F2; [eapply Permutation_in; [apply Permutation_sym, PD|left; reflexivity]|exact CL]|].
      pose proof (Permutation_length (perm_filter isrecv _ _ PD)) as PF.
      cbn [filter] in PF. unfold isrecv at 2 in PF. rewrite CL, Nat.eqb_refl in PF. cbn [length] in PF.
      split; apply length_zero_iff_nil; lia.
  Qed.
  Lemma CFly_ready hd ln pr l ex idx b d : PSub ((idx, b, d) :: map triple (filter isready l)) hd ->
    CFly hd ln pr l ex -> CFly (remove_first (rmatch idx b d) hd) ln pr l ex.
  Proof. intros PS (_ & F). split; [apply PSub_remove_match, PS|exact F]. Qed.

  (* the hand-off: the line goes to the request on top, a failure to each request below it; nothing is in flight afterwards *)
  Lemma CFly_handoff hd ln pr l (top : nat) (rest : list nat) x news :
    CFly hd ln pr l [] -> filter isrecv l = [] -> sg_cls x = CLS_READY -> triple x = (top, true, ln) ->
    map triple news = rev (map (fun r => (r, false, ([] : str))) (rev rest)) -> Forall (fun sg => sg_cls sg = CLS_READY) news ->
    CFly (hd ++ (top, true, ln) :: map (fun r => (r, false, [])) (rev rest)) ln false (news ++ x :: l) [].
  Proof.
    intros (F1 & F2 & _) NF CX TX EN FN. rewrite Forall_forall in FN. rewrite map_rev, rev_involutive in EN.
    assert (RX : isready x = true /\ isrecv x = false) by (unfold isready, isrecv; rewrite CX; split; reflexivity).
    assert (Z : filter isrecv news = []) by (apply filter_none; intros a Ha; unfold isrecv; rewrite (FN a Ha); reflexivity).
    unfold CFly. rewrite !filter_app. cbn [filter]. rewrite (proj1 RX), (proj2 RX), Z, NF.
    rewrite (filter_all isready news) by (intros a Ha; unfold isready; rewrite (FN a Ha); reflexivity).
    split; [|split; [|split; [intros sp []|split; [cbn; lia|cbn; discriminate]]]].
    - rewrite map_app. cbn [map]. rewrite EN, TX. apply PSub_handoff; [exact F1|]. apply Permutation_map, Permutation_sym, Permutation_rev.
    - intros sg' I CR. apply in_app_or in I. destruct I as [I|[<-|I]]; [rewrite (FN _ I) in CR; discriminate CR|unfold triple in TX; congruence|auto].
  Qed.

  Lemma CScr_upd er sc scr (f : scrst -> scrst) : (forall x, ss_err (f x) = ss_err x) -> CScr er sc -> CScr er (upd_nth sc scr f).
  Proof.
    intros F [E L]. split; [|rewrite length_upd_nth; exact L]. intros j L1 L2. rewrite nth_upd_nth.
    destruct ((j =? scr)%nat && (scr <? length sc)%nat); [rewrite F|]; auto.
  Qed.

  Lemma CScr_upd_none er sc scr (f : scrst -> scrst) : sc_prompt_none (specs scr) = true -> CScr er sc -> CScr er (upd_nth sc scr f).
  Proof.
    intros PN [E L]. split; [|rewrite length_upd_nth; exact L]. intros j L1 L2. rewrite nth_upd_nth.
    destruct (Nat.eqb_spec j scr) as [->|_]; [congruence|]. apply E; assumption.
  Qed.

  (* T_ACTION records the new rejection streak of the screen *)
  Lemma CScr_action er sc scr (f : scrst -> scrst) (g : nat -> nat) : scr < N -> sc_prompt_none (specs scr) = false ->
    (forall x, ss_err (f x) = g (ss_err x)) -> CScr er sc -> CScr ((scr, g (err_in er scr)) :: er) (upd_nth sc scr f).
  Proof.
    intros SL PN F [E L]. split; [|rewrite length_upd_nth; exact L]. intros j L1 L2. rewrite nth_upd_nth. unfold err_in at 1. cbn [alookup].
    destruct (Nat.eqb_spec j scr) as [->|_]; cbn [andb]; [|apply E; assumption].
    rewrite (proj2 (Nat.ltb_lt scr (length sc))) by (rewrite L; exact SL). rewrite F, (E scr SL PN). reflexivity.
  Qed.

  Lemma ihn_upd ih k g j : ihn (upd_nth ih k g) j = if (j =? k)%nat && (k <? length ih)%nat then g (ihn ih j) else ihn ih j.
  Proof. apply nth_upd_nth. Qed.
  Lemma ihn_snoc ih h j : ihn (ih ++ [h]) j = if (j =? length ih)%nat then h else ihn ih j.
  Proof.
    unfold ihn. rewrite nth_snoc. destruct (j <? length ih)%nat eqn:L.
    - apply Nat.ltb_lt in L. destruct (Nat.eqb_spec j (length ih)); [lia|reflexivity].
    - destruct (j =? length ih)%nat; [reflexivity|]. apply Nat.ltb_ge in L. rewrite nth_overflow by exact L. reflexivity.
  Qed.
  Lemma ihn_out ih j : length ih <= j -> ihn ih j = ihn [] 0.
  Proof. intros L. unfold ihn. rewrite nth_overflow by exact L. reflexivity. Qed.

  (* a handler record changes, but not its callback *)
  Lemma CReq_upd rq fi ih k g :
    (forall h, ih_cb (g h) = ih_cb h /\ ih_owner (g h) = ih_owner h /\ ih_args (g h) = ih_args h) ->
    CReq rq fi ih -> CReq rq fi (upd_nth ih k g).
  Proof.
    intros G [R1 R2 R3 R4].
    assert (P : forall j, ih_cb (ihn (upd_nth ih k g) j) = ih_cb (ihn ih j) /\ ih_owner (ihn (upd_nth ih k g) j) = ih_owner (ihn ih j) /\
                          ih_args (ihn (upd_nth ih k g) j) = ih_args (ihn ih j))
      by (intros j; rewrite ihn_upd; destruct (_ && _); [apply G|auto]).
    split; rewrite ?length_upd_nth; [| |exact R3|]; intros j; destruct (P j) as (E1 & E2 & E3); rewrite E1, ?E2, ?E3; auto.
  Qed.
  (* ... nor, unless it is forgotten, its result *)
  Lemma CRes_upd rc la ih k g :
    (forall h, ih_received (g h) = true -> ih_received h = true /\ ih_success (g h) = ih_success h /\ ih_value (g h) = ih_value h) ->
    CRes rc la ih -> CRes rc la (upd_nth ih k g).
  Proof.
    intros G [R1 R2]. split; intros j; rewrite ihn_upd; destruct (_ && _); auto; intros X; destruct (G _ X) as (R & E1 & E2); [|rewrite E1, E2]; auto.
  Qed.
  (* InputHandler._clear_input() of handler k: only k gets a new last entry, and it has not received anything *)
  Lemma CRes_clear rc la ih k : CRes rc la ih ->
    CRes rc ((k, None) :: la) (upd_nth ih k (fun h => h <| ih_received := false |> <| ih_value := None |>)).
  Proof.
    intros HR. apply (CRes_upd _ _ _ k (fun h => h <| ih_received := false |> <| ih_value := None |>)) in HR; [|intros h X; discriminate X].
    destruct HR as [R1 R2]. split; [exact R1|]. intros j X. cbn [alookup]. destruct (Nat.eqb_spec j k) as [->|_]; [|exact (R2 j X)].
    exfalso. rewrite ihn_upd, Nat.eqb_refl in X. cbn [andb] in X. destruct (k <? length ih)%nat eqn:L; [discriminate X|].
    apply Nat.ltb_ge in L. rewrite (ihn_out _ _ L) in X. discriminate X.
  Qed.
  (* new_input_handler: with a callback (InputManager.get_input) its request has just been recorded *)
  Lemma CReq_new rq fi ih h : CReq rq fi ih ->
    (ih_cb h = true -> ih_owner h < N /\ sc_prompt_none (specs (ih_owner h)) = false) ->
    CReq (if ih_cb h then (length ih, (ih_owner h, ih_args h)) :: rq else rq) fi (ih ++ [h]).
  Proof.
    intros [R1 R2 R3 R4] HO. destruct (R3 _ (le_n _)) as [NR NF].
    set (rq' := if ih_cb h then _ else rq).
    assert (RQ : forall j, j <> length ih -> alookup j rq' = alookup j rq).
    { intros j NE. unfold rq'. destruct (ih_cb h); [|reflexivity]. cbn [alookup]. apply Nat.eqb_neq in NE. rewrite NE. reflexivity. }
    assert (RK : alookup (length ih) rq' = if ih_cb h then Some (ih_owner h, ih_args h) else None).
    { unfold rq'. destruct (ih_cb h); [|exact NR]. cbn [alookup]. rewrite Nat.eqb_refl. reflexivity. }
    split; intros j; rewrite ?ihn_snoc; try destruct (Nat.eqb_spec j (length ih)) as [->|NE].
    - intros CB. rewrite RK, CB. auto.
    - rewrite (RQ j NE). apply R1.
    - intros CB. rewrite RK, CB. auto.
    - rewrite (RQ j NE). apply R2.
    - rewrite app_length. cbn [length]. lia.
    - rewrite app_length. cbn [length]. intros L. rewrite (RQ j NE). apply R3. lia.
    - exact HO.
    - apply R4.
  Qed.
  Lemma CRes_new rc la ih h : CRes rc la ih -> ih_received h = false -> CRes rc la (ih ++ [h]).
  Proof.
    intros [R1 R2] HR. split; intros j; rewrite ihn_snoc; destruct (j =? length ih)%nat; auto; rewrite HR; discriminate.
  Qed.
  (* the ready signal (idx, b, data) has reached handler idx; [fire]: its one-shot callback is used up *)
  Lemma CReq_ready (fire : bool) g idx rq fi ih :
    (forall h, ih_owner (g h) = ih_owner h) -> (forall h, ih_args (g h) = ih_args h) ->
    (forall h, ih_cb (g h) = if fire then false else ih_cb h) ->
    (fire = true -> mem idx fi = false /\ idx < length ih) ->
    CReq rq fi ih -> CReq rq (if fire then idx :: fi else fi) (upd_nth ih idx g).
  Proof.
    intros G1 G5 G2 FI [R1 R2 R3 R4]. split; rewrite ?length_upd_nth; intros j; rewrite ?ihn_upd.
    - destruct ((j =? idx)%nat && (idx <? length ih)%nat) eqn:C; rewrite ?G1, ?G5, ?G2.
      + destruct fire; [discriminate|]. apply R1.
      + intros X. destruct (R1 _ X) as [A B]. split; [exact A|]. destruct fire; [|exact B].
        rewrite mem_cons, B, orb_false_r. apply andb_false_iff in C. destruct C as [C|C]; [exact C|].
        apply Nat.ltb_ge in C. destruct (Nat.eqb_spec j idx) as [->|]; [|reflexivity].
        rewrite (ihn_out _ _ C) in X. discriminate X.
    - destruct ((j =? idx)%nat && (idx <? length ih)%nat) eqn:C; rewrite ?G2.
      + apply andb_true_iff in C. destruct C as [C _]. apply Nat.eqb_eq in C. subst j.
        destruct fire; [intros _; right; rewrite mem_cons, Nat.eqb_refl; reflexivity|apply R2].
      + intros X. destruct (R2 _ X) as [A|B]; [left; exact A|right]. destruct fire; [rewrite mem_cons, B; apply orb_true_r|exact B].
    - intros L. destruct (R3 j L) as [A B]. split; [exact A|]. destruct fire; [|exact B].
      rewrite mem_cons, B, orb_false_r. destruct (Nat.eqb_spec j idx) as [->|]; [|reflexivity].
      destruct (FI eq_refl) as [_ FL]. lia.
    - destruct ((j =? idx)%nat && (idx <? length ih)%nat); rewrite ?G1, ?G2; [destruct fire; [discriminate|]|]; apply R4.
  Qed.
  Lemma CRes_ready (b : bool) g idx data rc la ih :
    (forall h, ih_success (g h) = b) -> (b = true -> forall h, ih_value (g h) = Some data) ->
    CRes rc la ih -> CRes (idx :: rc) ((idx, Some (b, data)) :: la) (upd_nth ih idx g).
  Proof.
    intros G3 G4 [R1 R2]. split; intros j; rewrite ihn_upd, ?mem_cons; cbn [alookup]; destruct (Nat.eqb_spec j idx) as [->|_]; cbn [andb orb].
    - reflexivity.
    - apply R1.
    - destruct (idx <? length ih)%nat eqn:LK.
      + intros _. rewrite G3. exists data. split; [reflexivity|]. intros X. apply G4, X.
      + apply Nat.ltb_ge in LK. rewrite (ihn_out _ _ LK). discriminate.
    - apply R2.
  Qed.

  Lemma Core_fly m u l l' ex ex' hs : Core m u l ex hs ->
    (CFly (m_hand m) (m_line m) (st_processing u) l ex -> CFly (m_hand m) (m_line m) (st_processing u) l' ex') -> Core m u l' ex' hs.
  Proof. rewrite !Core_groups. intros [] F. constructor; auto. Qed.
  Lemma Core_sub m u l l' ex hs : PSub l l' -> Core m u l' ex hs -> Core m u l ex hs.
  Proof using Hwf Hnosep. intros S C. apply (Core_fly _ _ _ _ _ _ _ C), CFly_sub, S. Qed.

  Definition Quiet (m : mw) : Prop :=
    (m_follow m = None \/ exists q, m_follow m = Some (FQuitBack q)) /\ m_must m = None.

  Definition Inv s : Prop :=
    acc s /\ qsok s /\ Core (MWs s) (ust s) (pendl s) (ext s) (handlers s) /\ Quiet (MWs s).
  Definition Dead s : Prop := acc s /\ Quiet (MWs s).
  Definition Keep (m : mw) (u : sstate) (s' : lst) : Prop :=
    m_follow (MWs s') = None \/ (m_follow (MWs s') = m_follow m /\ st_stack (ust s') = st_stack u).
  Definition Rk (s s' : lst) : Prop := Keep (MWs s) (ust s) s'.

  Record At (s : lst) (m : mw) (u : sstate) (l : list signal) (ex : list sigspec) (hs : list (nat * list (nat * nat))) : Prop := {
    at_m : MWs s = m; at_u : ust s = u; at_l : PSub (pendl s) l; at_e : ext s = ex; at_h : handlers s = hs;
    at_q : qsok s; at_a : acc s }.

  Lemma At_self s : Inv s -> At s (MWs s) (ust s) (pendl s) (ext s) (handlers s).
  Proof. intros (a & q & _ & _). constructor; auto. apply PSub_refl. Qed.
  Lemma At_Inv s m u l ex hs : At s m u l ex hs -> Core m u l ex hs -> Quiet m -> Inv s.
  Proof using Hwf Hnosep.
    intros [Hm Hu Hl He Hh Hq Ha] C Qt. subst. split; [auto|split; [auto|split; [eapply Core_sub; eauto|exact Qt]]].
  Qed.

  Definition SigPre (sg : signal) (idx : nat) (s : lst) : Prop :=
    (sg_cls sg = CLS_READY -> idx <= sg_a sg ->
       PSub (triple sg :: map triple (filter isready (pendl s))) (m_hand (MWs s))) /\
    (sg_cls sg = CLS_RECEIVED -> idx = 0 ->
       sg_data sg = m_line (MWs s) /\ filter isrecv (pendl s) = [] /\ ext s = []).
  Definition okspec (sp : sigspec) : Prop := sp_cls sp <> CLS_READY /\ sp_cls sp <> CLS_RECEIVED.

  Notation W := (wpS (screen_code specs) acc Dead).
  Notation SP := (Spec (screen_code specs) acc Dead Inv Rk SigPre okspec).

  Lemma a_rd n (f : sstate -> sprog) Q s m u l ex hs : At s m u l ex hs -> W n (f u) Q s -> W n (rd f) Q s.
  Proof.
    intros H HW. unfold rd. apply wpS_st; [apply (at_a _ _ _ _ _ _ H)|]. cbn [fst snd].
    rewrite ust_eta. rewrite (at_u _ _ _ _ _ _ H). exact HW.
  Qed.

  (* only the trace is held: every other component of the state may have changed *)
  Lemma At_frame s s' m u l ex hs u' l' ex' hs' : At s m u l ex hs ->
    trace s' = trace s -> ust s' = u' -> handlers s' = hs' -> ext s' = ex' -> qsok s' -> PSub (pendl s') l' ->
    At s' m u' l' ex' hs'.
  Proof.
    intros [Hm _ _ _ _ _ Ha] T U1 H E K P. constructor; [|exact U1|exact P|exact E|exact H|exact K|].
    - rewrite <- Hm. apply MW_trace, T.
    - eapply acc_trace; eauto.
  Qed.

  Lemma a_wr n (g : sstate -> sstate) Q s m u l ex hs :
    At s m u l ex hs -> (forall s', At s' m (g u) l ex hs -> Q ONormal s') -> W n (wr g) Q s.
  Proof.
    intros H HQ. unfold wr. apply wpS_st; [apply (at_a _ _ _ _ _ _ H)|]. cbn [fst snd].
    assert (H' : At (s <| ust := g (ust s) |>) m (g u) l ex hs)
      by (eapply At_frame; [exact H|reflexivity|cbn; rewrite (at_u _ _ _ _ _ _ H); reflexivity|apply H..]).
    apply wpS_ret; [apply (at_a _ _ _ _ _ _ H')|]. apply HQ, H'.
  Qed.

  Lemma At_same s s' m u l ex hs : At s m u l ex hs ->
    trace s' = trace s -> ust s' = ust s -> ext s' = ext s -> handlers s' = handlers s -> qstore s' = qstore s ->
    At s' m u l ex hs.
  Proof.
    intros HAt T U1 E H Qs.
    eapply At_frame; [exact HAt|exact T|rewrite U1|rewrite H|rewrite E|unfold qsok; rewrite Qs|unfold pendl; rewrite Qs]; apply HAt.
  Qed.

  Lemma At_emit s m u l ex hs e : At s m u l ex hs -> mchk m e = true -> At (emit e s) (mstep m e) u l ex hs.
  Proof.
    intros [Hm Hu Hl He Hh Hq Ha] C. constructor; [| exact Hu | exact Hl | exact He | exact Hh | exact Hq |].
    - rewrite MW_emit. congruence.
    - apply acc_emit. split; [exact Ha|]. rewrite Hm. exact C.
  Qed.

  Lemma a_ev n tag a t Q s m u l ex hs :
    At s m u l ex hs -> mchk m (EUser tag a t) = true ->
    (forall s', At s' (muser m tag a t) u l ex hs -> Q ONormal s') -> W n (evt tag a t) Q s.
  Proof.
    intros H C HQ. unfold evt.
    pose proof (At_emit _ _ _ _ _ _ (EUser tag a t) H C) as H'.
    apply wpS_emit; [apply (at_a _ _ _ _ _ _ H)|]. apply HQ, H'.
  Qed.

  Lemma mchk07_idle m e : (m_follow m = None \/ exists q, m_follow m = Some (FQuitBack q)) -> mchk07 quit m e = true.
  Proof. intros [E|[q E]]; unfold mchk07; rewrite E; reflexivity. Qed.
  Lemma mchk07_quiet m e : Quiet m -> mchk07 quit m e = true.
  Proof. intros [H _]. apply mchk07_idle, H. Qed.

  Lemma mchk_quiet m e : Quiet m -> match e with EUser _ _ _ => False | _ => True end -> mchk m e = true.
  Proof.
    intros HQt NU. unfold mchk, mchk_all. rewrite (mchk07_quiet m e HQt). destruct HQt as [_ HM].
    unfold mchk06. rewrite HM. destruct e; try contradiction; reflexivity.
  Qed.

  (* user events in a quiet world: all but four tags keep it quiet, and only the checks of C17 and C18 are left *)
  Definition qtag (tag : nat) : bool :=
    negb ((tag =? T_MODAL_RETURN) || (tag =? T_READY) || (tag =? T_INPUT) || (tag =? T_ACTION))%nat.
  Lemma muser_quiet m tag a t : Quiet m -> qtag tag = true -> Quiet (muser m tag a t).
  Proof.
    intros [HF HM] QT. unfold qtag in QT. apply negb_true_iff in QT.
    apply orb_false_iff in QT. destruct QT as [QT E4]. apply orb_false_iff in QT. destruct QT as [QT E3].
    apply orb_false_iff in QT. destruct QT as [E1 E2].
    split; unfold muser, mstep; cbn [m_follow m_must]; unfold follow_after, must_after.
    - rewrite E1, E4. destruct (tag =? T_OP)%nat; [destruct HF as [->|[q ->]]; auto|].
      destruct (tag =? T_REQ)%nat; [destruct HF as [->|[q ->]]; eauto|exact HF].
    - rewrite E2, E3. exact HM.
  Qed.
  Lemma mchk_user_quiet m tag a t : Quiet m -> (tag =? T_READY)%nat = false -> (tag =? T_INPUT)%nat = false ->
    mchk m (EUser tag a t) = mchk17 nosep m (EUser tag a t) && mchk18 m (EUser tag a t).
  Proof.
    intros HQt E2 E3. unfold mchk, mchk_all. rewrite (mchk07_quiet _ _ HQt). unfold mchk06, mchk_once. rewrite (proj2 HQt), E2, E3.
    cbn [andb orb]. rewrite !andb_true_r. reflexivity.
  Qed.
  Lemma a_evq n tag a t Q s m u l ex hs :
    At s m u l ex hs -> Quiet m -> qtag tag = true ->
    mchk17 nosep m (EUser tag a t) && mchk18 m (EUser tag a t) = true ->
    (forall s', At s' (muser m tag a t) u l ex hs -> Quiet (muser m tag a t) -> Q ONormal s') -> W n (evt tag a t) Q s.
  Proof.
    intros H HQt QT C HQ. eapply a_ev; [exact H| |intros s' H'; apply HQ; [exact H'|apply muser_quiet; assumption]].
    unfold qtag in QT. apply negb_true_iff in QT. apply orb_false_iff in QT. destruct QT as [QT _].
    apply orb_false_iff in QT. destruct QT as [QT E3]. apply orb_false_iff in QT. destruct QT as [_ E2].
    rewrite mchk_user_quiet; assumption.
  Qed.

  (* the events the acceptors neither check nor record once nothing is pending *)
  Definition passive (e : event) : Prop :=
    match e with
    | EDispatch _ _ _ | ERequeue _ _ | EExt _ | ERegSource _ _ | ERegHandler _ _ _ | ESetQuitCb _ | EKill
    | ESigNew _ _ _ _ | EEnq _ _ | EDropped _ => True
    | _ => neutral e = true
    end.
  Lemma quiet_passive m e : Quiet m -> passive e -> mstep m e = m /\ mchk m e = true.
  Proof.
    intros HQt NE. split; [|apply mchk_quiet; [exact HQt|destruct e; try exact I; discriminate NE]].
    destruct HQt as [HQf _]. destruct m. cbn in HQf. unfold mstep.
    destruct e; try discriminate NE; try reflexivity; cbn; destruct HQf as [->|[? ->]]; reflexivity.
  Qed.
  Lemma quiet_neutral m e : Quiet m -> neutral e = true -> mstep m e = m /\ mchk m e = true.
  Proof. intros HQt NE. apply quiet_passive; [exact HQt|]. destruct e; try discriminate NE; exact NE. Qed.

  Lemma At_emit_passive s m u l ex hs e : At s m u l ex hs -> Quiet m -> passive e -> At (emit e s) m u l ex hs.
  Proof.
    intros HAt HQt P. destruct (quiet_passive m e HQt P) as [E1 E2].
    pose proof (At_emit _ _ _ _ _ _ e HAt E2) as H'. rewrite E1 in H'. exact H'.
  Qed.

  (* enqueue_signal(Signal(...)) *)
  Definition m_signew (m : mw) (sp : sigspec) : mw := mstep m (ESigNew 0 (sp_cls sp) (sp_prio sp) (sp_src sp)).
  Definition m_enq (m : mw) (sp : sigspec) : mw := mstep (m_signew m sp) (EDropped 0).
  Definition c_enq (m : mw) (sp : sigspec) : bool :=
    mchk m (ESigNew 0 (sp_cls sp) (sp_prio sp) (sp_src sp)) && mchk (m_signew m sp) (EDropped 0).

  Lemma At_signew s m u l ex hs sp : At s m u l ex hs -> mchk m (ESigNew 0 (sp_cls sp) (sp_prio sp) (sp_src sp)) = true ->
    At (snd (new_signal s sp)) (m_signew m sp) u l ex hs.
  Proof.
    intros H C. unfold new_signal. cbn [snd].
    apply (At_emit _ _ _ _ _ _ (ESigNew (next_sig s) (sp_cls sp) (sp_prio sp) (sp_src sp))); [|exact C].
    eapply At_same; [exact H|reflexivity..].
  Qed.

  (* the acceptors do not tell EEnq from EDropped *)
  Lemma At_do_enq s m u l ex hs sg : At s m u l ex hs -> mchk m (EDropped 0) = true ->
    At (do_enqueue s sg) (mstep m (EDropped 0)) u (sg :: l) ex hs.
  Proof.
    intros HAt C.
    destruct (do_enqueue_facts s sg (at_q _ _ _ _ _ _ HAt)) as (Eu & Ee & Eh & Eq & Ep & (e & Ee2 & Et)).
    destruct HAt as [Hm Hu Hl He Hh Hq Ha]. constructor.
    - rewrite (MW_trace typed (emit e s) _ Et), MW_emit, Hm. destruct Ee2 as [->|[q ->]]; reflexivity.
    - congruence.
    - eapply PSub_trans; [exact Ep|]. destruct Hl as [r Pr]. exists r. cbn. apply perm_skip, Pr.
    - congruence.
    - congruence.
    - exact Eq.
    - apply (acc_trace (emit e s)); [exact Et|]. apply acc_emit. split; [exact Ha|]. rewrite Hm.
      destruct Ee2 as [->|[q ->]]; exact C.
  Qed.

  (* in a quiet world neither step is seen *)
  Lemma At_new_signal s m u l ex hs sp : At s m u l ex hs -> Quiet m -> At (snd (new_signal s sp)) m u l ex hs.
  Proof.
    intros HAt HQt. destruct (quiet_passive m (ESigNew 0 (sp_cls sp) (sp_prio sp) (sp_src sp)) HQt I) as [E1 E2].
    pose proof (At_signew _ _ _ _ _ _ sp HAt E2) as H. unfold m_signew in H. rewrite E1 in H. exact H.
  Qed.

  Lemma At_do_enqueue s m u l ex hs sg : At s m u l ex hs -> Quiet m -> At (do_enqueue s sg) m u (sg :: l) ex hs.
  Proof.
    intros HAt HQt. destruct (quiet_passive m (EDropped 0) HQt I) as [E1 E2].
    pose proof (At_do_enq _ _ _ _ _ _ sg HAt E2) as H. rewrite E1 in H. exact H.
  Qed.

  Lemma At_enq s m u l ex hs sp : At s m u l ex hs -> c_enq m sp = true ->
    At (do_enqueue (snd (new_signal s sp)) (fst (new_signal s sp))) (m_enq m sp) u (mk_signal (next_sig s) sp :: l) ex hs.
  Proof.
    intros H C. apply andb_true_iff in C. destruct C as [C1 C2].
    exact (At_do_enq _ _ _ _ _ _ _ (At_signew _ _ _ _ _ _ sp H C1) C2).
  Qed.

  Lemma a_enq n sp Q s m u l ex hs :
    At s m u l ex hs -> c_enq m sp = true ->
    (forall s' id, At s' (m_enq m sp) u (mk_signal id sp :: l) ex hs -> Q ONormal s') -> W n (PApi (AEnqueue sp)) Q s.
  Proof.
    intros H C HQ. eapply wpS_api_exact; [reflexivity|apply (at_a _ _ _ _ _ _ H)|].
    eapply HQ. apply At_enq; eassumption.
  Qed.

  Lemma a_enqq n sp Q s m u l ex hs :
    At s m u l ex hs -> Quiet m ->
    (forall s' id, At s' m u (mk_signal id sp :: l) ex hs -> Q ONormal s') -> W n (PApi (AEnqueue sp)) Q s.
  Proof.
    intros H HQt HQ. eapply wpS_api_exact; [reflexivity|apply (at_a _ _ _ _ _ _ H)|].
    eapply HQ. apply At_do_enqueue; [apply At_new_signal|]; assumption.
  Qed.

  Lemma a_reg_source n o Q s m u l ex hs :
    At s m u l ex hs -> Quiet m ->
    (forall s', At s' m u l ex hs -> Q ONormal s') -> W n (PApi (ARegSource o)) Q s.
  Proof.
    intros H HQt HQ. eapply wpS_api_exact; [reflexivity|apply (at_a _ _ _ _ _ _ H)|]. apply HQ.
    destruct (qok_add_source (get_q s (active s)) o (qok_nth s (active s) (at_q _ _ _ _ _ _ H))) as [K E].
    assert (H0 : At (set_q s (active s) (q_add_source (get_q s (active s)) o)) m u l ex hs).
    { destruct H as [Hm Hu Hl He Hh Hq Ha]. constructor; [exact Hm|exact Hu| |exact He|exact Hh| |exact Ha].
      - eapply PSub_trans; [apply (pendl_set_q_sub s _ _ []); rewrite E; apply Permutation_refl|exact Hl].
      - apply qsok_set_q; assumption. }
    apply (At_emit_passive _ _ _ _ _ _ (ERegSource o (active s)) H0 HQt I).
  Qed.

  Lemma a_reg_handler n cls hid data Q s m u l ex hs :
    At s m u l ex hs -> Quiet m ->
    (forall s', At s' m u l ex (add_handler hs cls hid data) -> Q ONormal s') -> W n (PApi (ARegHandler cls hid data)) Q s.
  Proof.
    intros H HQt HQ. eapply wpS_api_exact; [reflexivity|apply (at_a _ _ _ _ _ _ H)|]. apply HQ.
    assert (H0 : At (s <| handlers := add_handler (handlers s) cls hid data |>) m u l ex (add_handler hs cls hid data))
      by (eapply At_frame; [exact H|reflexivity|apply H|cbn; rewrite (at_h _ _ _ _ _ _ H); reflexivity|apply H..]).
    apply (At_emit_passive _ _ _ _ _ _ (ERegHandler cls hid data) H0 HQt I).
  Qed.

  Lemma a_force_quit n Q s m u l ex hs :
    At s m u l ex hs -> Quiet m ->
    (forall s', At s' m u l ex hs -> Q ONormal s') -> W n (PApi AForceQuit) Q s.
  Proof.
    intros H HQt HQ. eapply wpS_api_exact; [reflexivity|apply (at_a _ _ _ _ _ _ H)|]. apply HQ.
    apply (At_emit_passive _ _ _ _ _ _ EForceQuit); [|exact HQt|reflexivity].
    eapply At_same; [exact H|reflexivity..].
  Qed.

  Lemma a_ext_add n sp Q s m u l ex hs :
    At s m u l ex hs -> (forall s', At s' m u l (ex ++ [sp]) hs -> Q ONormal s') -> W n (PApi (AExtAdd sp)) Q s.
  Proof.
    intros H HQ. eapply wpS_api_exact; [reflexivity|apply (at_a _ _ _ _ _ _ H)|]. apply HQ.
    eapply At_frame; [exact H|reflexivity|apply H|apply H|cbn; rewrite (at_e _ _ _ _ _ _ H); reflexivity|apply H..].
  Qed.

  Lemma a_rec n a Q s m u l ex hs :
    SP n -> At s m u l ex hs -> Core m u l ex hs -> Quiet m -> lcall (U:=sstate) okspec (CApi a) ->
    (forall o s', Inv s' -> Keep m u s' -> Q o s') -> W n (PApi a) Q s.
  Proof.
    intros HS H C Qt LC HQ.
    eapply wpS_api_rec; [exact HS|exact LC|eapply At_Inv; eauto|].
    intros o s' [HI HR]. apply HQ; [exact HI|]. unfold Rk in HR. rewrite (at_m _ _ _ _ _ _ H), (at_u _ _ _ _ _ _ H) in HR. exact HR.
  Qed.

  Lemma a_ret n Q s m u l ex hs : At s m u l ex hs -> Q ONormal s -> W n PRet Q s.
  Proof. intros H HQ. apply wpS_ret; [apply (at_a _ _ _ _ _ _ H)|exact HQ]. Qed.
  Lemma a_throw n e Q s m u l ex hs : At s m u l ex hs -> res acc Dead Q (OThrow e) s -> W n (PThrow e) Q s.
  Proof. intros H HQ. apply wpS_throw; [apply (at_a _ _ _ _ _ _ H)|exact HQ]. Qed.

  Lemma Inv_open_eq s : Inv s -> exists m u hs, At s m u (pendl s) (ext s) hs /\ Core m u (pendl s) (ext s) hs /\ Quiet m.
  Proof. intros HI. exists (MWs s), (ust s), (handlers s). split; [apply At_self, HI|]. destruct HI as (_ & _ & C & Qt). auto. Qed.
  Lemma Inv_open s : Inv s -> exists m u l ex hs, At s m u l ex hs /\ Core m u l ex hs /\ Quiet m.
  Proof. intros HI. destruct (Inv_open_eq s HI) as (m & u & hs & H). exists m, u, (pendl s), (ext s), hs. exact H. Qed.

  (* "Inv-triples": the method keeps the invariant, whatever way it ends *)
  Definition IT (p : sprog) : Prop :=
    forall n Q s, SP n -> Inv s -> (forall o s', Inv s' -> Q o s') -> W n p Q s.

  Lemma Inv_acc s : Inv s -> acc s.
  Proof. intros H. apply H. Qed.
  Lemma Inv_Dead s : Inv s -> Dead s.
  Proof. intros H. split; apply H. Qed.

  Lemma IT_seq p q : IT p -> IT q -> IT (p ;; q).
  Proof. apply keeps_seq. Qed.
  Lemma IT_ret : IT PRet.
  Proof. apply keeps_ret, Inv_acc. Qed.
  Lemma IT_throw e : IT (PThrow e).
  Proof. apply keeps_throw; [exact Inv_acc|exact Inv_Dead]. Qed.
  Lemma IT_rd (f : sstate -> sprog) : (forall u, IT (f u)) -> IT (rd f).
  Proof. apply keeps_rd, Inv_acc. Qed.
  Lemma IT_rec a : lcall (U:=sstate) okspec (CApi a) -> IT (PApi a).
  Proof. apply keeps_rec. Qed.

  (* a walk that has entered "p ;; q" or "try p except h" and reached the invariant inside p: the post-conditions the
     rules wpS_seq, wpS_try left hold wherever the invariant does if the continuation starts from there *)
  Lemma post_seq n q Q : (forall s, Inv s -> W n q Q s) -> (forall o s, Inv s -> Q o s) ->
    forall o s, Inv s -> match o with ONormal => W n q Q s | _ => Q o s end.
  Proof. intros Hq HQ o s HI. destruct o; auto. Qed.
  Lemma post_try n h Q : (forall s, Inv s -> W n h Q s) -> (forall o s, Inv s -> Q o s) ->
    forall o s, Inv s -> match o with OThrow XError => W n h Q s | _ => Q o s end.
  Proof. intros Hh HQ o s HI. destruct o as [|[| |]| |]; auto. Qed.

  Lemma Core_cons_other m u l ex hs sg : sg_cls sg <> CLS_READY -> sg_cls sg <> CLS_RECEIVED ->
    Core m u l ex hs -> Core m u (sg :: l) ex hs.
  Proof.
    intros N1 N2 C. apply (Core_fly _ _ _ _ _ _ _ C), CFly_cons_other; apply Nat.eqb_neq; assumption.
  Qed.

  Lemma scr_of_upd_scr k f u scr :
    scr_of (upd_scr k f u) scr = if (scr =? k)%nat && (k <? length (st_scr u))%nat then f (scr_of u scr) else scr_of u scr.
  Proof using Type.
    unfold scr_of, upd_scr. cbn [st_scr set]. apply nth_upd_nth.
  Qed.

  (* The walk (these tactics are local to the section: a lemma for a further method is written here).
     [At s m u l ex hs] is stepped by the rules [a_*]; the world [m] stays a variable, and the groups of Core read the fields
     of [muser (muser m ..) ..] by computation: a bare [cbn], under which [fires], [H_READY] and [Nat.modulo] stay folded
     (see their [Arguments]). [groups_open] puts the groups in the context under fixed names. At an exit [groups_auto]
     computes the fields and closes by [auto] every group that then stands in the context: the opened groups whose fields
     were not written, and those a proof has prepared beforehand under primed names ([GReq'], [GRes'] ...: said at the exit).
     [g_sep] is never among them, every user event rewrites [m_prev]: it goes by the final [discriminate], the new [m_prev]
     not being a separator. What is left is for the group lemmas. *)
  Ltac groups_open HC :=
    destruct (proj1 (Core_groups _ _ _ _ _) HC) as [GStk GIst GProc GTyp GScr GReq GRes GFresh GSep GQuit GHs GFly];
    cbn in GStk, GIst, GProc, GTyp, GScr, GReq, GRes, GFresh, GSep, GQuit, GHs, GFly.
  Ltac groups_auto := apply Core_groups; constructor; cbn; rewrite ?length_upd_nth; auto; try (intros ? E; discriminate E).
  Ltac open_inv HI := destruct (Inv_open _ HI) as (m & u & l & ex & hs & HAt & HC & HQt).
  Ltac finish_inv HAt HQt := eapply At_Inv; [exact HAt| groups_auto | exact HQt].

  Ltac into HAt := let s' := fresh "s" in let H' := fresh "HAt" in intros s' H'; cbv beta iota; clear HAt; rename H' into HAt.
  Ltac step HAt :=
    lazymatch goal with
    | |- wpS _ _ _ _ (PSeq _ _) _ _ => apply wpS_seq
    | |- wpS _ _ _ _ (rd _) _ _ => eapply a_rd; [exact HAt|]; cbv beta
    | |- wpS _ _ _ _ (wr _) _ _ => eapply a_wr; [exact HAt|into HAt]; cbv beta in HAt
    | |- wpS _ _ _ _ (PApi (AExtAdd _)) _ _ => eapply a_ext_add; [exact HAt|into HAt]
    | |- wpS _ _ _ _ PRet _ _ => eapply a_ret; [exact HAt|]
    end.
  (* in a quiet world an event leaves the C17/C18 part of its check ([a_evq]: [reflexivity] for most tags) and keeps it quiet *)
  Ltac evq HAt HQt :=
    let Q' := fresh "HQt" in
    eapply a_evq; [exact HAt|exact HQt|reflexivity| |into HAt; intros Q'; clear HQt; rename Q' into HQt].
  Ltac qstep HAt HQt :=
    lazymatch goal with
    | |- wpS _ _ _ _ (ev _ _) _ _ => evq HAt HQt
    | |- wpS _ _ _ _ (evt _ _ _) _ _ => evq HAt HQt
    | |- wpS _ _ _ _ (PApi (ARegSource _)) _ _ => eapply a_reg_source; [exact HAt|exact HQt|into HAt]
    | |- wpS _ _ _ _ (PApi (ARegHandler _ _ _)) _ _ => eapply a_reg_handler; [exact HAt|exact HQt|into HAt]
    | |- wpS _ _ _ _ (PApi AForceQuit) _ _ => eapply a_force_quit; [exact HAt|exact HQt|into HAt]
    | |- _ => step HAt
    end.
  (* leaves, in program order, every event check that [reflexivity] could not close, then the continuation *)
  Ltac qsteps HAt HQt := repeat ((qstep HAt HQt; [reflexivity|..]) || qstep HAt HQt).

  Lemma IT_enq_other sp : sp_cls sp <> CLS_READY -> sp_cls sp <> CLS_RECEIVED -> IT (PApi (AEnqueue sp)).
  Proof.
    intros N1 N2 n Q s HS HI HQ. open_inv HI.
    eapply a_enqq; [exact HAt|exact HQt|]. intros s' id HAt'.
    apply HQ. eapply At_Inv; [exact HAt'|apply Core_cons_other; assumption|exact HQt].
  Qed.

  Lemma IT_sched_redraw : IT sched_redraw.
  Proof. apply IT_enq_other; discriminate. Qed.

  (* events that only change "previous event" (and end a pending quit-dialog tracking) *)
  Definition plain_tag (t : nat) : bool :=
    (t =? T_SETUP)%nat || (t =? T_SETUP_BEGIN)%nat || (t =? T_REFRESH)%nat || (t =? T_CLOSED)%nat || (t =? T_MARK)%nat || (t =? T_ASK)%nat || (t =? T_OP)%nat || (t =? T_CUSTOM)%nat.
  Lemma IT_ev_plain tag a : plain_tag tag = true -> IT (ev tag a).
  Proof.
    intros P n Q s HS HI HQ. open_inv HI. groups_open HC. unfold plain_tag in P.
    repeat (apply orb_true_iff in P; destruct P as [P|P]); apply Nat.eqb_eq in P; subst tag.
    all: qstep HAt HQt; [reflexivity|]; apply HQ; finish_inv HAt HQt.
  Qed.

  (* writes to the fields of the state that Core does not read *)
  Lemma IT_wr (g : sstate -> sstate) : (forall m u l ex hs, Core m u l ex hs -> Core m (g u) l ex hs) -> IT (wr g).
  Proof.
    intros G n Q s HS HI HQ. open_inv HI.
    eapply a_wr; [exact HAt|]. intros s' HAt'. apply HQ. eapply At_Inv; [exact HAt'|apply G, HC|exact HQt].
  Qed.
  Lemma IT_wr_free (g : sstate -> sstate) :
    (forall u, st_stack (g u) = st_stack u /\ st_quit (g u) = st_quit u /\ st_scr (g u) = st_scr u /\ st_ih (g u) = st_ih u /\
               st_istack (g u) = st_istack u /\ st_processing (g u) = st_processing u /\ st_typed (g u) = st_typed u) ->
    IT (wr g).
  Proof.
    intros G. apply IT_wr. intros m u l ex hs HC. destruct (G u) as (G1 & G2 & G3 & G4 & G5 & G6 & G7).
    apply Core_groups in HC. apply Core_groups. destruct HC. constructor; rewrite ?G1, ?G2, ?G3, ?G4, ?G5, ?G6, ?G7; assumption.
  Qed.
  Lemma IT_wr_first : IT (wr (fun u => u <| st_first := true |>)).
  Proof. apply IT_wr_free. intros u. repeat split. Qed.

  (* The stack primitives. Between the write of [st_stack] and its T_STACK event the two stacks differ, so the pair is one
     step: [put] and [kind] come with the lemma of [CStk] that says they do the same to both. *)
  Lemma IT_new_sd sc a b (k : sdata -> sprog) : (forall d, sd_scr d = sc -> IT (k d)) -> IT (new_sd sc a b k).
  Proof.
    intros Hk. unfold new_sd. apply IT_rd. intros u. apply IT_seq; [apply IT_wr_free; intros u'; repeat split|apply Hk; reflexivity].
  Qed.
  Lemma IT_stack_put kind d (put : list sdata -> list sdata) (k : sprog) :
    (forall ms st, CStk ms st -> CStk (stack_after ms (EUser T_STACK (sargs kind d) [])) (put st)) -> IT k ->
    IT (wr (fun u => u <| st_stack := put (st_stack u) |>) ;; ev_stack kind d ;; k).
  Proof.
    intros P Hk n Q s HS HI HQ. open_inv HI. groups_open HC. pose proof (P _ _ GStk) as GStk'. unfold ev_stack.
    qsteps HAt HQt. apply Hk; [exact HS| |exact HQ]. finish_inv HAt HQt (* uses GStk' *).
  Qed.
  Lemma IT_stack_pop (k : sdata -> sprog) : (forall t, IT (k t)) ->
    IT (rd (fun u => match st_stack u with
                     | [] => PThrow XError
                     | t :: r => wr (fun u => u <| st_stack := r |>) ;; ev_stack K_POP t ;; k t end)).
  Proof.
    intros Hk n Q s HS HI HQ. open_inv HI. groups_open HC. step HAt. destruct (st_stack u) as [|t r] eqn:ES.
    - apply IT_throw; [exact HS|exact HI|exact HQ].
    - unfold ev_stack. qsteps HAt HQt. apply Hk; [exact HS| |exact HQ]. finish_inv HAt HQt. exact (CStk_tl _ _ GStk).
  Qed.
  Lemma IT_append_new sc a b : sc < N ->
    IT (new_sd sc a b (fun d => wr (fun u => u <| st_stack := d :: st_stack u |>) ;; ev_stack K_APPEND d ;; sched_redraw)).
  Proof.
    intros L. apply IT_new_sd. intros d <-. apply (IT_stack_put K_APPEND d (cons d)); [|apply IT_sched_redraw].
    intros ms st. apply CStk_cons; [apply entry_of_sargs|exact L].
  Qed.

  Lemma IT_push (sc a : nat) : scmd_wf N fresh (SPush sc a) = true -> forall cn self cnt, IT (do_scmd specs cn self cnt (SPush sc a)).
  Proof.
    intros WF cn self cnt. cbn [scmd_wf] in WF. apply Nat.ltb_lt in WF.
    apply IT_seq; [apply IT_ev_plain; reflexivity|apply IT_append_new, WF].
  Qed.

  Lemma IT_schedule (sc a : nat) : scmd_wf N fresh (SSchedule sc a) = true -> forall cn self cnt, IT (do_scmd specs cn self cnt (SSchedule sc a)).
  Proof.
    intros WF cn self cnt. cbn [scmd_wf] in WF. apply Nat.ltb_lt in WF.
    apply IT_seq; [apply IT_ev_plain; reflexivity|]. apply IT_new_sd. intros d <-.
    apply (IT_stack_put K_ADD_FIRST d (fun st => st ++ [d])); [intros ms st; apply CStk_snoc; [apply entry_of_sargs|exact WF]|].
    apply IT_rd. intros u. destruct (st_first u); [apply IT_ret|apply IT_seq; [apply IT_sched_redraw|apply IT_wr_first]].
  Qed.

  Lemma IT_replace (sc a : nat) : scmd_wf N fresh (SReplace sc a) = true -> forall cn self cnt, IT (do_scmd specs cn self cnt (SReplace sc a)).
  Proof.
    intros WF cn self cnt. cbn [scmd_wf] in WF. apply Nat.ltb_lt in WF.
    apply IT_seq; [apply IT_ev_plain; reflexivity|]. apply IT_stack_pop. intros top. apply IT_append_new, WF.
  Qed.

  Lemma ih_of_upd_ih k f u j :
    ih_of (upd_ih k f u) j = if (j =? k)%nat && (k <? length (st_ih u))%nat then f (ih_of u j) else ih_of u j.
  Proof.
    unfold ih_of, upd_ih. cbn [st_ih set]. apply nth_upd_nth.
  Qed.
  Lemma len_upd_ih k f u : length (st_ih (upd_ih k f u)) = length (st_ih u).
  Proof. unfold upd_ih. cbn [st_ih set]. apply length_upd_nth. Qed.

  Lemma chk_refused_ok (k : nat) (ist : list nat) : ist <> [] ->
    negb (length ist =? 0)%nat && (length (rev (k :: ist)) =? S (length ist))%nat &&
    forallb (fun p => (fst p =? snd p)%nat) (combine (removelast (rev (k :: ist))) (rev ist)) = true.
  Proof.
    intros NE. destruct ist as [|x r]; [contradiction|]. cbn [length Nat.eqb negb andb].
    rewrite rev_length. cbn [length]. rewrite Nat.eqb_refl. cbn [andb].
    change (rev (k :: x :: r)) with (rev (x :: r) ++ [k]). rewrite removelast_last.
    induction (rev (x :: r)) as [|y t IH]; cbn; [reflexivity|]. rewrite Nat.eqb_refl. exact IH.
  Qed.

  Ltac simp_if := match goal with |- wpS _ _ _ _ (if ?c then _ else _) _ _ => let c' := eval cbn in c in change c with c' end.
  Ltac simp_match := match goal with |- wpS _ _ _ _ (match ?c with _ => _ end) _ _ => let c' := eval cbn in c in change c with c' end.
  Ltac seqs := repeat lazymatch goal with |- wpS _ _ _ _ (PSeq _ _) _ _ => apply wpS_seq end.

  (* new_input_handler; with a callback (InputManager.get_input) its request has just been recorded *)
  Lemma Core_new_ih h m u l ex hs :
    Core m u l ex hs -> (ih_cb h = true -> ih_owner h < N /\ sc_prompt_none (specs (ih_owner h)) = false) -> ih_received h = false ->
    Core (if ih_cb h then m <| m_req := (length (st_ih u), (ih_owner h, ih_args h)) :: m_req m |> else m)
         (u <| st_ih := st_ih u ++ [h] |>) l ex (add_handler hs CLS_READY (H_READY (length (st_ih u))) 0).
  Proof.
    intros HC HO HR. groups_open HC. pose proof (CReq_new _ _ _ h GReq HO) as GReq'. pose proof (CRes_new _ _ _ h GRes HR) as GRes'.
    assert (L : length (st_ih u ++ [h]) = S (length (st_ih u))) by (rewrite app_length; cbn; lia).
    destruct (ih_cb h); groups_auto (* uses GReq', GRes' *); rewrite L.
    1,3: intros F; apply (FreshInv_len _ _ _ (length (st_ih u))); auto.
    all: apply HsOK_add_ready, GHs.
  Qed.
  Lemma new_ih_fresh h m u l ex hs : Core m u l ex hs -> fresh = true ->
    length (st_ih u) < length (st_ih u ++ [h]) /\ ~ In (length (st_ih u)) (st_istack u) /\
    ~ In (length (st_ih u)) (map hid_of (m_hand m)) /\ mem (length (st_ih u)) (m_recv m) = false.
  Proof. intros HC F. split; [rewrite app_length; cbn; lia|exact (FreshInv_new _ _ _ _ (c_fresh _ _ _ _ _ HC F))]. Qed.

  (* InputHandler.get_input: _clear_input(), start_input_thread; when every request has a fresh handler (fresh = true)
     the handler must be one that never asked *)
  Lemma t_handler_get_input k skip nf Q s m u l ex hs :
    SP nf -> At s m u l ex hs -> Core m u l ex hs -> Quiet m ->
    (fresh = true -> k < length (st_ih u) /\ ~ In k (st_istack u) /\ ~ In k (map hid_of (m_hand m)) /\ mem k (m_recv m) = false) ->
    (forall o s', Inv s' -> Q o s') -> W nf (handler_get_input k skip) Q s.
  Proof.
    intros HS HAt HC HQt KF HQ. groups_open HC.
    assert (GFresh' : fresh = true -> FreshInv (m_recv m) (m_hand m) (k :: st_istack u) (length (st_ih u))).
    { intros F. destruct (KF F) as (A & B & C & D). apply FreshInv_push; auto. }
    assert (GReq' : CReq (m_req m) (m_fired m) (upd_nth (st_ih u) k (fun h => h <| ih_received := false |> <| ih_value := None |>)))
      by (apply CReq_upd; [intros h; repeat split|exact GReq]).
    pose proof (CRes_clear _ _ _ k GRes) as GRes'. pose proof (f_equal (cons k) GIst) as GIst'.
    (* every exit below is closed by [GReq'] (all), and, where handler k stays on the request stack, [GRes'], [GFresh'], [GIst'] *)
    unfold handler_get_input, start_input_thread.
    qsteps HAt HQt. cbn [st_istack set upd_ih] in *.
    destruct (negb (length (k :: st_istack u) =? 1)%nat && negb skip) eqn:CND.
    - apply andb_true_iff in CND. destruct CND as [CND _]. apply negb_true_iff, Nat.eqb_neq in CND. cbn [length] in CND.
      assert (NE : st_istack u <> []).
      { revert CND. destruct (st_istack u); intros CND; [exfalso; apply CND; reflexivity|discriminate]. }
      seqs. qstep HAt HQt; [(* T_REFUSED: the request stack, oldest first, with k on top *) cbn; rewrite GIst; apply (chk_refused_ok k _ NE)|].
      qsteps HAt HQt. eapply a_throw; [exact HAt|]. cbn. apply HQ.
      (* the refused request is popped again: the old request stack, and no new last entry for k *)
      finish_inv HAt HQt. apply CRes_upd; [intros h X; discriminate X|exact GRes].
    - apply andb_false_iff in CND.
      seqs. step HAt. cbv beta iota. qsteps HAt HQt. simp_if.
      destruct (st_processing u) eqn:PR in |- *.
      + (* a reader is already running: only the prompt is printed again *)
        qstep HAt HQt; [(* T_PROMPT [k; 1]: a reader runs *) cbn; rewrite GProc, PR; reflexivity|].
        apply HQ. finish_inv HAt HQt.
      + (* start the reader thread: nothing is in flight, so the line is the reader's *)
        destruct (CFly_start _ _ _ _ _ GFly PR) as (-> & FS).
        qsteps HAt HQt. unfold start_thread. qsteps HAt HQt; [(* T_PROMPT [k; 0]: no reader runs *) cbn; rewrite GProc, PR; reflexivity|].
        simp_match.
        destruct (st_typed u) as [|ln rest] eqn:TY in |- *.
        * step HAt. apply HQ. finish_inv HAt HQt; [rewrite GTyp, TY; reflexivity|apply (FS _)].
        * seqs. step HAt. simp_if. destruct (st_typeahead u).
          -- (* type-ahead: the reader thread's enqueue_signal(InputReceivedSignal) lands at once *)
             eapply a_enqq; [exact HAt|exact HQt|]. intros s' id HAt'.
             apply HQ. finish_inv HAt' HQt; [rewrite GTyp, TY; reflexivity|apply FS; [reflexivity|rewrite GTyp, TY; reflexivity]].
          -- step HAt. apply HQ. finish_inv HAt HQt; [rewrite GTyp, TY; reflexivity|apply FS; [reflexivity|rewrite GTyp, TY; reflexivity]].
  Qed.

  Definition reprompt_ok (m : mw) (scr args : nat) : Prop :=
    m_follow m = Some FReprompt /\ exists t r, m_stack m = t :: r /\ en_scr t = scr /\ en_args t = args.

  (* the rest of InputManager.get_input after the prompt was obtained (T_REQ) *)
  Lemma t_get_input_rest nf scr args Q s m u l ex hs :
    SP nf -> At s (muser m T_REQ [scr; args; length (st_ih u)] []) u l ex hs -> Core m u l ex hs ->
    Quiet (muser m T_REQ [scr; args; length (st_ih u)] []) ->
    sc_prompt_none (specs scr) = false -> scr < N ->
    (forall o s', Inv s' -> Q o s') ->
    W nf (wr (upd_scr scr (fun x => x <| ss_input_args := args |>)) ;;
          new_input_handler (Some scr) scr true (fun n =>
            wr (upd_ih n (fun h => h <| ih_args := args |>)) ;; handler_get_input n (sc_skip_check (specs scr)))) Q s.
  Proof.
    intros HS HAt HC HQt PN SL HQ. unfold new_input_handler.
    qsteps HAt HQt.
    unfold upd_ih in HAt. cbn [st_ih set upd_scr] in HAt. rewrite upd_nth_snoc in HAt. cbn [set ih_args] in HAt.
    match type of HAt with context [st_ih u ++ [?h]] =>
      pose proof (Core_new_ih h _ _ _ _ _ HC (fun _ => conj SL PN) eq_refl) as HC' end.
    eapply t_handler_get_input; [exact HS|exact HAt| |exact HQt|exact (new_ih_fresh _ _ _ _ _ _ HC)|exact HQ].
    groups_open HC'. groups_auto. apply CScr_upd; [reflexivity|exact GScr].
  Qed.

  Lemma IT_get_input scr args : scr < N -> IT (get_input specs scr args).
  Proof.
    intros SL n Q s HS HI HQ. open_inv HI. groups_open HC. unfold get_input.
    destruct (sc_prompt_none (specs scr)) eqn:PN.
    - step HAt. apply HQ. finish_inv HAt HQt. apply CScr_upd_none; assumption.
    - seqs. step HAt. qstep HAt HQt; [reflexivity|].
      eapply t_get_input_rest; [exact HS|exact HAt|exact HC|exact HQt|exact PN|exact SL|exact HQ].
  Qed.

  (* wait_on_input: while not self._input_received: process_signals(InputReadySignal) *)
  Lemma t_wait k n q Q s : SP n -> Inv s -> (forall o s', Inv s' -> Q o s') ->
    (forall s', Inv s' -> ih_received (ih_of (ust s') k) = true -> W n q Q s') ->
    W n (PWhile (fun u => negb (ih_received (ih_of u k))) (PApi (AProcess (Some CLS_READY))) ;; q) Q s.
  Proof.
    intros HS HI HQ Hq. apply wpS_seq.
    apply (wpS_while _ _ _ n _ _ _ Inv); [exact HI|intros sa H1; apply H1| |].
    - intros sa HI1 C. apply negb_false_iff in C. apply Hq; assumption.
    - intros sa HI1 C. apply IT_rec; [exact I|exact HS|exact HI1|].
      intros o sb HI2. destruct o; try (apply HQ; exact HI2). exact HI2.
  Qed.

  Lemma t_got scr k n Q s : Inv s -> ih_received (ih_of (ust s) k) = true ->
    (forall o s', Inv s' -> Q o s') -> W n (ev T_GOT [scr; k]) Q s.
  Proof.
    intros HI C HQ. open_inv HI. groups_open HC. rewrite (at_u _ _ _ _ _ _ HAt), ih_of_ihn in C.
    qstep HAt HQt; [exact (res_recv _ _ _ GRes _ C)|].
    apply HQ. finish_inv HAt HQt.
  Qed.

  Lemma IT_get_input_blocking scr : IT (get_input_blocking specs scr).
  Proof.
    intros n Q s HS HI HQ. open_inv HI. unfold get_input_blocking, new_input_handler.
    qsteps HAt HQt.
    match type of HAt with context [st_ih u ++ [?h]] =>
      pose proof (Core_new_ih h _ _ _ _ _ HC (fun X => False_ind _ (Bool.diff_false_true X)) eq_refl) as HC' end.
    eapply t_handler_get_input; [exact HS|exact HAt| |exact HQt|exact (new_ih_fresh _ _ _ _ _ _ HC)|].
    - groups_open HC'. groups_auto.
    - apply post_seq; [|exact HQ]. intros s' HI'. apply t_wait; [exact HS|exact HI'|exact HQ|].
      intros sa HI1 C. apply t_got; assumption.
  Qed.

  (* push_screen_modal after its T_OP: new entry, execute_new_loop, T_MODAL_RETURN *)
  Definition modal_body (sc a : nat) : sprog :=
    new_sd sc a true (fun d => wr (fun u => u <| st_stack := d :: st_stack u |>) ;; ev_stack K_APPEND d ;;
                               PApi (ANewLoop (render_spec None)) ;; ev T_MODAL_RETURN [sd_id d; sc]).

  Lemma do_push_modal cn self cnt sc a :
    do_scmd specs cn self cnt (SPushModal sc a) = ev T_OP [O_PUSH_MODAL; sc; a] ;; modal_body sc a.
  Proof. reflexivity. Qed.

  Lemma t_modal_body nf sc a Q s m u l ex hs :
    SP nf -> At s m u l ex hs -> Core m u l ex hs -> Quiet m -> sc < N ->
    (forall o s', o <> ONormal -> Inv s' -> Q o s') ->
    (forall s' m' u' l' ex' hs', At s' m' u' l' ex' hs' -> Core m' u' l' ex' hs' -> m_must m' = None ->
        (m_follow m' = None \/
         ((exists q, m_follow m = Some (FQuitBack q)) /\ m_follow m' = Some FAfterQuit /\ st_stack u' <> [])) ->
        Q ONormal s') ->
    W nf (modal_body sc a) Q s.
  Proof.
    intros HS HAt HC HQt SL HQx HQn. pose proof (proj1 HQt) as HQf. unfold modal_body, new_sd, ev_stack.
    qsteps HAt HQt.
    eapply a_rec; [exact HS|exact HAt| |exact HQt|split; discriminate|].
    - groups_open HC. groups_auto. apply CStk_cons; [reflexivity|exact SL|exact GStk].
    - intros o s' HI' KP. destruct o; try (apply HQx; [discriminate|exact HI']).
      clear HAt. destruct (Inv_open _ HI') as (m' & u' & l' & ex' & hs' & HAt' & HC' & HQt').
      unfold Keep in KP. rewrite (at_m _ _ _ _ _ _ HAt'), (at_u _ _ _ _ _ _ HAt') in KP. cbn in KP.
      eapply a_ev; [exact HAt'|rewrite mchk_user_quiet; [reflexivity|exact HQt'|reflexivity|reflexivity]|]. intros sr H2.
      eapply HQn; [exact H2| |exact (proj2 HQt')|].
      + groups_open HC'. groups_auto.
      + cbn. destruct KP as [E|[E ES]]; [left; rewrite E; reflexivity|]. rewrite E.
        destruct HQf as [F|[q F]]; rewrite F; [left; reflexivity|]. right. split; [eauto|]. split; [reflexivity|].
        rewrite ES. discriminate.
  Qed.

  Lemma IT_push_modal (sc a : nat) : scmd_wf N fresh (SPushModal sc a) = true ->
    forall cn self cnt, IT (do_scmd specs cn self cnt (SPushModal sc a)).
  Proof.
    intros WF cn self cnt n Q s0 HS HI HQ. open_inv HI. pose proof (proj1 HQt) as HQf.
    cbn [scmd_wf] in WF. apply Nat.ltb_lt in WF.
    rewrite do_push_modal. step HAt. qstep HAt HQt; [reflexivity|].
    eapply t_modal_body; [exact HS|exact HAt| |exact HQt|exact WF| |].
    - groups_open HC. groups_auto.
    - intros o s' _ HI'. apply HQ, HI'.
    - intros s' m' u' l' ex' hs' A1 C1 M1 [F1|[[q F1] _]].
      + apply HQ. eapply At_Inv; [exact A1|exact C1|]. split; [left; exact F1|exact M1].
      + exfalso. cbn in F1. destruct HQf as [E|[q' E]]; rewrite E in F1; discriminate F1.
  Qed.

  Lemma IT_wr_typeahead b : IT (wr (fun u => u <| st_typeahead := b |>)).
  Proof. apply IT_wr_free. intros u. repeat split. Qed.

  Lemma IT_handler_ask self h skip : fresh = false -> IT (handler_ask self h skip).
  Proof.
    intros NF n Q s HS HI HQ. open_inv HI. unfold handler_ask, new_input_handler.
    step HAt. destruct (hlookup h (st_hobj u)) as [k|].
    - eapply t_handler_get_input; [exact HS|exact HAt|exact HC|exact HQt| |exact HQ]. intros F. congruence.
    - qsteps HAt HQt.
      match type of HAt with context [st_ih u ++ [?h]] =>
        pose proof (Core_new_ih h _ _ _ _ _ HC (fun X => False_ind _ (Bool.diff_false_true X)) eq_refl) as HC' end.
      eapply t_handler_get_input; [exact HS|exact HAt| |exact HQt| |exact HQ]; [|intros F; congruence].
      groups_open HC'. groups_auto.
  Qed.

  (* what the application sees after wait_on_input(): the flags / the value of the last ready signal of the handler *)
  Lemma t_waited h k n Q s : Inv s -> ih_received (ih_of (ust s) k) = true ->
    (forall o s', Inv s' -> Q o s') ->
    W n (rd (fun u => evt T_WAITED [h; k; b2n (ih_success (ih_of u k));
                                      b2n (match ih_value (ih_of u k) with Some _ => true | None => false end)]
                          (match ih_value (ih_of u k) with Some v => v | None => [] end))) Q s.
  Proof.
    intros HI C HQ. open_inv HI. groups_open HC. rewrite (at_u _ _ _ _ _ _ HAt), ih_of_ihn in C.
    destruct (res_last _ _ _ GRes _ C) as (v & LA & LV).
    step HAt. qstep HAt HQt.
    { unfold mchk17, mchk18. cbn [T_SHOW T_SEPARATOR T_REFUSED T_PROMPT T_READY T_GOT T_WAITED Nat.eqb andb nth0 nth].
      rewrite !ih_of_ihn, LA, b2n_eqb, eqb_reflx. cbn [andb].
      destruct (ih_success _) eqn:SU; [|reflexivity]. rewrite (LV eq_refl). cbn [negb orb b2n Nat.eqb andb]. apply streq_refl. }
    apply HQ. finish_inv HAt HQt.
  Qed.

  Lemma IT_handler_wait h : IT (handler_wait h).
  Proof.
    intros n Q s HS HI HQ. open_inv HI. unfold handler_wait.
    step HAt. destruct (hlookup h (st_hobj u)) as [k|]; [|apply IT_ret; assumption].
    apply t_wait; [exact HS|exact HI|exact HQ|]. intros sa HI1 C. apply t_waited; assumption.
  Qed.

  Lemma IT_force_quit : IT (PApi AForceQuit).
  Proof. intros n Q s HS HI HQ. open_inv HI. qsteps HAt HQt. apply HQ. eapply At_Inv; eassumption. Qed.
  Lemma IT_reg_source o : IT (PApi (ARegSource o)).
  Proof. intros n Q s HS HI HQ. open_inv HI. qsteps HAt HQt. apply HQ. eapply At_Inv; eassumption. Qed.

  Lemma Core_upd_scr m u l ex hs scr (f : scrst -> scrst) :
    (forall x, ss_err (f x) = ss_err x) -> Core m u l ex hs -> Core m (upd_scr scr f u) l ex hs.
  Proof. intros F1 HC. groups_open HC. groups_auto. apply CScr_upd; assumption. Qed.
  Lemma IT_wr_scr scr (f : scrst -> scrst) :
    (forall x, ss_err (f x) = ss_err x) -> IT (wr (upd_scr scr f)).
  Proof. intros F1. apply IT_wr. intros m u l ex hs. apply Core_upd_scr, F1. Qed.

  (* the application's own signals: self.connect(Custom_c, callback_k) / self.emit(self.create_signal(Custom_c, prio)) *)
  Lemma IT_connect c k self : k < 7 -> IT (PApi (ARegHandler (CLS_CUSTOM c) (H_CUSTOM k) self)).
  Proof.
    intros K n Q s HS HI HQ. open_inv HI. groups_open HC. qsteps HAt HQt. apply HQ.
    finish_inv HAt HQt.
    apply HsOK_add_custom; [exact GHs|unfold CLS_CUSTOM, CLS_EXCEPTION; destruct (c =? 99)%nat; [left; reflexivity|right; lia]|unfold H_CUSTOM; lia].
  Qed.
  Lemma IT_emit_custom c p self : IT (PApi (AEnqueue {| sp_cls := CLS_CUSTOM c; sp_prio := p; sp_src := Some self; sp_a := 0;
                                                         sp_b := false; sp_data := [] |})).
  Proof. apply IT_enq_other; cbn [sp_cls]; unfold CLS_CUSTOM, CLS_READY, CLS_RECEIVED, CLS_EXCEPTION; destruct (c =? 99)%nat; lia. Qed.

  Lemma IT_cmds cn : IT cn -> (forall c, scmd_wf N fresh c = true -> forall self cnt, IT (do_scmd specs cn self cnt c)) /\
    (forall l, cmds_wf N fresh l = true -> forall self cnt, IT (do_scmds specs cn self cnt l)).
  Proof.
    intros Hcn. apply (do_scmd_closed specs IT (scmd_wf N fresh) cn IT_ret IT_seq).
    - intros k t e WF. apply andb_true_iff, WF.
    - intros c Hc WF self cnt. destruct c; try contradiction.
      + apply IT_push, WF. + apply IT_push_modal, WF. + apply IT_replace, WF. + apply IT_schedule, WF.
      + apply IT_enq_other; discriminate.
      + exact Hcn.
      + apply IT_enq_other; discriminate.
      + apply IT_sched_redraw.
      + apply IT_throw. + apply IT_throw. + apply IT_force_quit.
      + apply IT_throw.
      + apply IT_enq_other; discriminate.
      + apply IT_enq_other; discriminate.
      + apply IT_connect. cbn [scmd_wf] in WF. apply Nat.ltb_lt, WF.
      + apply IT_emit_custom.
      + apply IT_rec. exact I.                     (* process_signals() from a callback: the loop re-entered, as in wait_on_input *)
      + apply IT_get_input_blocking.
      + apply IT_wr_typeahead.
      + apply IT_handler_ask. cbn [scmd_wf] in WF. destruct fresh; [discriminate WF|reflexivity].
      + apply IT_handler_wait.
      + apply IT_wr_scr; reflexivity.
      + apply IT_wr_scr; reflexivity.
      + apply IT_ev_plain. reflexivity.
  Qed.
  Definition IT_do_scmds cn (H : IT cn) := proj2 (IT_cmds cn H).

  Lemma wf_parts scr : lists_ok (fun l => cmds_wf N fresh l = true) (specs scr).
  Proof. exact (lists_okb_ok _ _ (Hwf scr)). Qed.

  Lemma IT_call_closed d : IT (call_closed specs d).
  Proof.
    unfold call_closed. apply IT_rd. intros u0.
    apply IT_seq; [apply IT_wr_scr; reflexivity|]. apply IT_seq; [apply IT_ev_plain; reflexivity|].
    apply IT_do_scmds; [apply IT_ev_plain; reflexivity|exact (ok_closed (wf_parts _))].
  Qed.

  Definition close_body (closed_from : option nat) : sprog :=
    rd (fun u => match st_stack u with
      | [] => PThrow XError
      | top :: r =>
        wr (fun u => u <| st_stack := r |>) ;; ev_stack K_POP top ;;
        call_closed specs top ;;
        (match closed_from with
         | Some c => if (c =? sd_scr top)%nat then PRet else PThrow XError
         | None => PRet end) ;;
        (if sd_modal top then PApi ACloseLoop else PRet) ;;
        rd (fun u => match st_stack u with
                     | _ :: _ => if sd_modal top then PRet else sched_redraw
                     | [] => PRet end) ;;
        rd (fun u => match st_stack u with [] => PThrow XExit | _ => PRet end)
      end).

  Lemma close_screen_eq cf :
    close_screen specs cf = ev T_OP [O_CLOSE; match cf with Some c => S c | None => 0 end; 0] ;; close_body cf.
  Proof. reflexivity. Qed.

  Lemma IT_close_body cf : IT (close_body cf).
  Proof.
    unfold close_body. apply IT_stack_pop. intros top.
    apply IT_seq; [apply IT_call_closed|].
    apply IT_seq; [destruct cf as [c|]; [destruct (c =? sd_scr top)%nat|]; first [apply IT_ret|apply IT_throw]|].
    apply IT_seq; [destruct (sd_modal top); [apply IT_rec; exact I|apply IT_ret]|].
    apply IT_seq.
    - apply IT_rd. intros u1. destruct (st_stack u1); [apply IT_ret|]. destruct (sd_modal top); [apply IT_ret|apply IT_sched_redraw].
    - apply IT_rd. intros u1. destruct (st_stack u1); [apply IT_throw|apply IT_ret].
  Qed.

  Lemma IT_close_screen cf : IT (close_screen specs cf).
  Proof.
    rewrite close_screen_eq.
    apply IT_seq; [apply IT_ev_plain; reflexivity|apply IT_close_body].
  Qed.

  Lemma IT_run_cmds self cnt l : cmds_wf N fresh l = true -> IT (run_cmds specs self cnt l).
  Proof. intros WF. unfold run_cmds. apply IT_do_scmds; [apply IT_close_screen|exact WF]. Qed.

  Lemma IT_wr_rb b : IT (wr (fun u => u <| st_rb := b |>)).
  Proof. apply IT_wr_free. intros u. repeat split. Qed.
  Lemma IT_wr_rv b : IT (wr (fun u => u <| st_rv := b |>)).
  Proof. apply IT_wr_free. intros u. repeat split. Qed.

  Lemma IT_call_refresh d : IT (call_refresh specs d).
  Proof.
    unfold call_refresh. apply IT_rd. intros u0.
    apply IT_seq; [apply IT_wr_scr; reflexivity|]. apply IT_seq; [apply IT_ev_plain; reflexivity|].
    apply IT_run_cmds. exact (ok_refresh (wf_parts _)).
  Qed.

  Lemma IT_call_setup_plain d : IT (call_setup_plain specs d).
  Proof.
    unfold call_setup_plain. apply IT_rd. intros u0.
    apply IT_seq; [apply IT_wr_scr; reflexivity|]. apply IT_seq; [apply IT_ev_plain; reflexivity|].
    apply IT_seq; [|apply IT_wr_rb].
    destruct (nth_last _ _); [|apply IT_ret].
    apply IT_seq; [apply IT_wr_scr; reflexivity|apply IT_reg_source].
  Qed.

  (* a setup() with commands of its own: the commands are in the same situation as those of refresh() *)
  Lemma IT_call_setup_cmds d cmds : cmds_wf N fresh cmds = true -> IT (call_setup_cmds specs d cmds).
  Proof using Hwf Hnosep.
    intros WF. unfold call_setup_cmds. apply IT_rd. intros u0.
    apply IT_seq; [apply IT_wr_scr; reflexivity|]. apply IT_seq; [apply IT_ev_plain; reflexivity|].
    apply IT_seq; [apply IT_run_cmds; exact WF|].
    apply IT_seq; [apply IT_ev_plain; reflexivity|].
    apply IT_seq; [|apply IT_wr_rb].
    destruct (nth_last _ _); [|apply IT_ret].
    apply IT_seq; [apply IT_wr_scr; reflexivity|apply IT_reg_source].
  Qed.

  Lemma IT_call_setup d : IT (call_setup specs d).
  Proof.
    unfold call_setup. pose proof (ok_setup (wf_parts (sd_scr d))) as WF.
    destruct (sc_setup_cmds (specs (sd_scr d))) as [|c l]; [apply IT_call_setup_plain|apply IT_call_setup_cmds; exact WF].
  Qed.

  Lemma IT_ask_pages scr k : IT (ask_pages specs scr k).
  Proof. induction k as [|k IH]; cbn [ask_pages]; [apply IT_ret|]. apply IT_seq; [apply IT_get_input_blocking|exact IH]. Qed.

  Lemma IT_draw_screen d : IT (draw_screen specs d).
  Proof.
    intros n Q s HS HI HQ. unfold draw_screen. apply wpS_try.
    pose proof (post_try n _ Q (fun s' HI' => IT_enq_other exception_spec ltac:(discriminate) ltac:(discriminate) n Q s' HS HI' HQ) HQ)
      as HQ'.
    pose proof (fun k => post_seq n _ _ (fun s' HI' => IT_run_cmds (sd_scr d) k _ (ok_show (wf_parts (sd_scr d))) n _ s' HS HI' HQ') HQ')
      as HQ2.
    open_inv HI. groups_open HC. unfold call_show_all.
    destruct (sc_no_separator (specs (sd_scr d))) eqn:NS; qsteps HAt HQt.
    - (* without separator, the check of T_SHOW: no separator has been printed for this screen *)
      unfold mchk17. cbn. rewrite Hnosep, NS. cbn. destruct (m_prev m) as [[t pa]|] eqn:PV; [|reflexivity].
      destruct (Nat.eqb_spec t T_SEPARATOR) as [->|]; [|reflexivity]. destruct (Nat.eqb_spec (nth0 pa 0) (sd_scr d)) as [E|]; [|reflexivity].
      specialize (GSep pa eq_refl). rewrite E in GSep. congruence.
    - (* ... and the rest of call_show_all *)
      apply IT_ask_pages; [exact HS|finish_inv HAt HQt; apply CScr_upd; [reflexivity|exact GScr]|apply HQ2].
    - (* with separator, the check of T_SEPARATOR: the screen has one *)
      unfold mchk17. cbn. rewrite Hnosep, NS. reflexivity.
    - (* ... of T_SHOW: the separator of this screen is the previous event *)
      unfold mchk17. cbn. rewrite Hnosep, NS, Nat.eqb_refl. reflexivity.
    - apply IT_ask_pages; [exact HS|finish_inv HAt HQt; apply CScr_upd; [reflexivity|exact GScr]|apply HQ2].
  Qed.

  Lemma IT_pop_top : IT (rd (fun u => match st_stack u with
                       | t :: r => wr (fun u => u <| st_stack := r |>) ;; ev_stack K_POP t
                       | [] => PThrow XError end)).
  Proof.
    intros n Q s HS HI HQ. open_inv HI. groups_open HC. step HAt. destruct (st_stack u) as [|t r] eqn:ES.
    - apply IT_throw; [exact HS|exact HI|exact HQ].
    - unfold ev_stack. qsteps HAt HQt. apply HQ. finish_inv HAt HQt. exact (CStk_tl _ _ GStk).
  Qed.

  Lemma IT_with_top (k : sdata -> sprog) : (forall t, sd_scr t < N -> IT (k t)) -> IT (with_top k).
  Proof.
    intros H n Q s HS HI HQ. open_inv HI. unfold with_top. step HAt. pose proof (c_stk_wf _ _ _ _ _ HC) as WF.
    destruct (st_stack u) as [|t r]; [apply IT_throw|apply H; [apply WF; left; reflexivity|..]]; assumption.
  Qed.

  Lemma IT_process_screen : IT (process_screen specs).
  Proof.
    unfold process_screen. apply IT_with_top. intros top TL. apply IT_seq.
    - apply IT_rd. intros u1. destruct (ss_ready _); [apply IT_wr_rb|apply IT_call_setup].
    - apply IT_rd. intros u1. destruct (negb (st_rb u1)).
      + apply IT_seq; [apply IT_pop_top|]. destruct (sd_modal top); [apply IT_rec; exact I|apply IT_sched_redraw].
      + apply IT_seq; [apply IT_reg_source|].
        apply keeps_try; [|apply IT_enq_other; discriminate].
        apply IT_seq; [apply IT_call_refresh|]. apply IT_with_top. intros top' _.
        destruct (sd_id top' =? sd_id top)%nat; [|apply IT_ret].
        apply IT_seq; [apply IT_draw_screen|]. apply IT_rd. intros u2.
        destruct (ss_input_required _); [|apply IT_ret]. apply IT_get_input; assumption.
  Qed.

  Lemma t_emit_ready nf req data ok Q s m u l ex hs :
    At s m u l ex hs -> Quiet m ->
    (forall s' id, At s' m u (mk_signal id (ready_spec (ih_src (ih_of u req)) req data ok) :: l) ex hs -> Q ONormal s') ->
    W nf (emit_ready req data ok) Q s.
  Proof.
    intros HAt HQt HQ. unfold emit_ready. eapply a_rd; [exact HAt|]. eapply a_enqq; [exact HAt|exact HQt|exact HQ].
  Qed.

  Lemma t_emit_failed_all nf reqs : forall Q s m u l ex hs,
    At s m u l ex hs -> Quiet m ->
    (forall s' news, At s' m u (news ++ l) ex hs ->
        map triple news = rev (map (fun r => (r, false, ([] : str))) reqs) ->
        Forall (fun sg => sg_cls sg = CLS_READY) news -> Q ONormal s') ->
    W nf (emit_failed_all reqs) Q s.
  Proof.
    induction reqs as [|r rest IH]; intros Q s m u l ex hs HAt HQt HQ; cbn [emit_failed_all].
    - eapply a_ret; [exact HAt|]. apply (HQ s []); [exact HAt|reflexivity|constructor].
    - apply wpS_seq. eapply t_emit_ready; [exact HAt|exact HQt|]. intros s1 id H1. cbv beta iota.
      eapply IH; [exact H1|exact HQt|]. intros s2 news H2 E F.
      apply (HQ s2 (news ++ [mk_signal id (ready_spec (ih_src (ih_of u r)) r [] false)])).
      + rewrite <- app_assoc. exact H2.
      + rewrite map_app, E. cbn [map rev]. reflexivity.
      + apply Forall_app. split; [exact F|]. constructor; [reflexivity|constructor].
  Qed.

  Definition EndOK (o : outcome) (s : lst) : Prop :=
    exists m u l ex hs, At s m u l ex hs /\ Core m u l ex hs /\ m_must m = None /\
                        mchk07 quit m (EHandlerEnd 0 0 (how_of o)) = true.

  Lemma EndOK_of s o m u l ex hs : At s m u l ex hs -> Core m u l ex hs -> m_must m = None ->
    mchk07 quit m (EHandlerEnd 0 0 (how_of o)) = true -> EndOK o s.
  Proof. intros. exists m, u, l, ex, hs. auto. Qed.
  Lemma EndOK_quiet o s m u l ex hs : At s m u l ex hs -> Core m u l ex hs -> Quiet m -> EndOK o s.
  Proof. intros HAt HC HQt. exact (EndOK_of s o m u l ex hs HAt HC (proj2 HQt) (mchk07_quiet _ _ HQt)). Qed.
  Lemma Inv_EndOK o s : Inv s -> EndOK o s.
  Proof. intros HI. open_inv HI. eapply EndOK_quiet; eassumption. Qed.

  Definition HPost (s : lst) (sg : signal) (idx hid : nat) (o : outcome) (s2 : lst) : Prop :=
    let s3 := emit (EHandlerEnd hid (sg_id sg) (how_of o)) s2 in Inv s3 /\ Rk s s3 /\ SigPre sg (S idx) s3.

  (* the end of a handler: its EHandlerEnd passes, clears the follow-up and touches neither the queues nor the hand-off list;
     the next handler of a ready signal is owed what this one leaves (an InputReceivedSignal has one handler) *)
  Lemma HPost_end s sg idx hid o s2 : EndOK o s2 ->
    (sg_cls sg = CLS_READY -> S idx <= sg_a sg ->
       PSub (triple sg :: map triple (filter isready (pendl s2))) (m_hand (MWs s2))) ->
    HPost s sg idx hid o s2.
  Proof.
    intros (m & u & l & ex & hs & HAt & HC & HM & H7) SR. unfold HPost. cbn zeta.
    assert (C : mchk m (EHandlerEnd hid (sg_id sg) (how_of o)) = true).
    { unfold mchk, mchk_all, mchk06. rewrite HM.
      change (mchk07 quit m (EHandlerEnd hid (sg_id sg) (how_of o))) with (mchk07 quit m (EHandlerEnd 0 0 (how_of o))).
      rewrite H7. reflexivity. }
    pose proof (At_emit _ _ _ _ _ _ _ HAt C) as H'.
    split; [eapply At_Inv; [exact H'|apply Core_set_follow, HC|split; [left; reflexivity|reflexivity]]|].
    split; [left; rewrite MW_emit; reflexivity|]. split; [|intros _ X; discriminate X].
    rewrite MW_emit. exact SR.
  Qed.

  Lemma Inv_handler_start s hid sid data : Inv s -> hid <> H_RECEIVED -> Inv (emit (EHandler hid sid data) s).
  Proof.
    intros HI NE. open_inv HI.
    pose proof (At_emit _ _ _ _ _ _ _ HAt (mchk_quiet m (EHandler hid sid data) HQt I)) as H'.
    apply Nat.eqb_neq in NE. rewrite (mstep_handler _ _ _ _ (or_introl NE)) in H'. eapply At_Inv; eassumption.
  Qed.

  (* handlers that keep the invariant and whose signal class carries no side condition *)
  Lemma handler_of_IT p n s sg idx hid data :
    IT p -> SP n -> Inv s -> hid <> H_RECEIVED -> sg_cls sg <> CLS_READY -> sg_cls sg <> CLS_RECEIVED ->
    W n p (HPost s sg idx hid) (emit (EHandler hid (sg_id sg) data) s).
  Proof.
    intros Hp HS HI NE N1 N2. apply Hp; [exact HS|apply Inv_handler_start; assumption|].
    intros o s2 HI2. apply HPost_end; [apply Inv_EndOK, HI2|intros X; contradiction].
  Qed.

  (* InputThreadManager._input_received_handler *)
  Lemma H_received n s sg data : SP n -> Inv s -> SigPre sg 0 s -> sg_cls sg = CLS_RECEIVED ->
    W n (input_received_handler sg) (HPost s sg 0 H_RECEIVED) (emit (EHandler H_RECEIVED (sg_id sg) data) s).
  Proof.
    intros HS HI [_ SPR] CL. destruct (SPR CL eq_refl) as (SD & NF & NE). clear SPR.
    destruct (Inv_open_eq _ HI) as (m & u & hs & HAt & HC & HQt).
    set (l := pendl s) in *. set (ex := ext s) in *. rewrite (at_m _ _ _ _ _ _ HAt) in SD. clearbody l ex. subst ex.
    pose proof (At_emit _ _ _ _ _ _ _ HAt (mchk_quiet m (EHandler H_RECEIVED (sg_id sg) data) HQt I)) as H1. clear HAt.
    groups_open HC.
    assert (FIN : forall o s2, EndOK o s2 -> HPost s sg 0 H_RECEIVED o s2).
    { intros o s2 EO. apply HPost_end; [exact EO|]. intros X. rewrite CL in X. discriminate X. }
    unfold input_received_handler. eapply a_rd; [exact H1|].
    destruct (st_istack u) as [|top rest] eqn:EI; [rewrite (mstep_handler _ _ _ _ (or_intror GIst)) in H1|rewrite (mstep_received _ _ _ _ _ GIst) in H1].
    - (* pop from an empty list *)
      eapply a_throw; [exact H1|]. cbn [res]. apply FIN. eapply EndOK_quiet; [exact H1|exact HC|exact HQt].
    - set (m1 := m <| m_hand := _ |> <| m_istack := [] |> <| m_proc := false |>) in H1.
      assert (QT : Quiet m1) by exact HQt.
      apply wpS_seq. step H1. apply wpS_seq. eapply t_emit_ready; [exact H1|exact QT|]. intros s2 id1 H2. cbv beta iota.
      apply wpS_seq. eapply t_emit_failed_all; [exact H2|exact QT|]. intros s3 news H3 EN FN. cbv beta iota.
      step H3. apply FIN. eapply EndOK_quiet; [exact H3| |exact QT].
      groups_auto.
      + intros F. apply FreshInv_handoff, GFresh, F.
      + eapply CFly_handoff; [exact GFly|exact NF|reflexivity|unfold triple; cbn; rewrite SD; reflexivity|exact EN|exact FN].
  Qed.

  Definition follow_of (act : action) (sr : bool) : follow :=
    match act with
    | ANoop => FEnd | ARedraw => FRedraw 0 | AClose => FClose | AQuit => FQuit
    | AError => if sr then FRedraw 0 else FReprompt
    end.


  (* schedule_screen's redraw as the last act of a handler: either nothing is expected, or just this on a non-empty stack *)
  Lemma t_redraw_end nf Q s m u l ex hs :
    At s m u l ex hs -> Core m u l ex hs -> m_must m = None ->
    (m_follow m = None \/ (m_stack m <> [] /\ (m_follow m = Some (FRedraw 0) \/ m_follow m = Some FAfterQuit))) ->
    (forall o s', EndOK o s' -> Q o s') -> W nf sched_redraw Q s.
  Proof.
    intros HAt HC HM HF HQ. unfold sched_redraw. destruct HF as [F|[NE [F|F]]]; rewrite (mw_fm m _ _ F HM) in HAt.
    all: (eapply a_enq; [exact HAt|unfold c_enq, m_signew, mchk, mchk_all; cbn; destruct (m_stack m); first [reflexivity|congruence]|]).
    all: intros s' id H'; apply HQ; eapply EndOK_of; [exact H'| |reflexivity|cbn; destruct (m_stack m); first [reflexivity|congruence]].
    all: apply Core_cons_other; [discriminate|discriminate|]; groups_open HC; groups_auto.
  Qed.

  Lemma t_pir nf act sr Q s m u l ex hs :
    SP nf -> At s m u l ex hs -> Core m u l ex hs -> m_follow m = Some (follow_of act sr) -> m_must m = None ->
    (forall o s', EndOK o s' -> Q o s') -> W nf (process_input_result specs act sr) Q s.
  Proof.
    intros HS HAt HC HF HM HQ. groups_open HC. unfold process_input_result, with_top.
    eapply a_rd; [exact HAt|]. pose proof (stk_map _ _ GStk) as ESm. destruct (st_stack u) as [|top r] eqn:ES in ESm |- *; cbn [map] in ESm.
    - (* the stack is empty: ExitMainLoop *)
      eapply a_throw; [exact HAt|]. cbn [res]. apply HQ. eapply EndOK_of; [exact HAt|exact HC|exact HM|].
      unfold mchk07. rewrite HF, ESm. destruct act; [| | | |destruct sr]; reflexivity.
    - assert (TL : sd_scr top < N) by (apply (stk_wf _ _ GStk); rewrite ES; left; reflexivity).
      assert (NEm : m_stack m <> []) by (rewrite ESm; discriminate).
      assert (HQi : forall o s', Inv s' -> Q o s') by (intros o s' HI'; apply HQ, Inv_EndOK, HI').
      destruct act; cbn [follow_of] in HF.
      + (* NOOP *)
        eapply a_ret; [exact HAt|]. apply HQ. eapply EndOK_of; [exact HAt|exact HC|exact HM|].
        unfold mchk07. rewrite HF, ESm. reflexivity.
      + (* REDRAW *)
        eapply t_redraw_end; [exact HAt|exact HC|exact HM|right; split; [exact NEm|left; exact HF]|exact HQ].
      + (* CLOSE *)
        rewrite close_screen_eq. apply wpS_seq. rewrite (mw_fm m _ _ HF HM) in HAt.
        eapply a_ev; [exact HAt|unfold mchk, mchk_all; cbn; rewrite ESm; reflexivity|]. intros s1 H1.
        apply IT_close_body; [exact HS| |exact HQi].
        eapply At_Inv; [exact H1|groups_auto|split; [left; reflexivity|reflexivity]].
      + (* QUIT *)
        eapply a_rd; [exact HAt|]. destruct (st_quit u) as [qs|] eqn:EQ in |- *.
        * assert (QL : qs < N) by (pose proof Hquit as X; rewrite <- GQuit, EQ in X; apply Nat.ltb_lt, X).
          unfold push_screen_modal. rewrite do_push_modal.
          apply wpS_seq. apply wpS_seq. rewrite (mw_fm m _ _ HF HM) in HAt.
          eapply a_ev; [exact HAt|unfold mchk, mchk_all; cbn; rewrite <- GQuit, EQ, ESm; cbn; rewrite Nat.eqb_refl; reflexivity|].
          intros s1 H1.
          eapply t_modal_body; [exact HS|exact H1|groups_auto|split; [right; eexists; reflexivity|reflexivity]|exact QL| |].
          -- intros o s' NO HI'. destruct o; [contradiction|..]; apply HQi, HI'.
          -- intros s' m' u' l' ex' hs' A1 C1 M1 F1. cbv beta iota.
             eapply a_rd; [exact A1|].
             assert (F2 : m_follow m' = None \/ (m_stack m' <> [] /\ m_follow m' = Some FAfterQuit)).
             { destruct F1 as [F|(_ & F & NE)]; [left; exact F|right; split; [|exact F]].
               rewrite (c_stack _ _ _ _ _ C1). destruct (st_stack u'); [contradiction|discriminate]. }
             assert (XE : W nf (PThrow XExit) Q s').
             { eapply a_throw; [exact A1|]. cbn [res]. apply HQ. eapply EndOK_of; [exact A1|exact C1|exact M1|].
               unfold mchk07. destruct F2 as [->|[NE ->]]; [reflexivity|]. destruct (m_stack m'); [congruence|reflexivity]. }
             destruct (ss_answer _); [exact XE|exact XE|].
             eapply t_redraw_end; [exact A1|exact C1|exact M1| |exact HQ].
             destruct F2 as [F|[NE F]]; [left; exact F|right; split; [exact NE|right; exact F]].
        * eapply a_throw; [exact HAt|]. cbn [res]. apply HQ. eapply EndOK_of; [exact HAt|exact HC|exact HM|].
          unfold mchk07. rewrite HF, ESm, <- GQuit, EQ. reflexivity.
      + (* INPUT_ERROR *)
        destruct sr; cbn [follow_of] in HF.
        * eapply t_redraw_end; [exact HAt|exact HC|exact HM|right; split; [exact NEm|left; exact HF]|exact HQ].
        * unfold get_input. destruct (sc_prompt_none (specs (sd_scr top))) eqn:PN.
          -- step HAt. apply HQ. eapply EndOK_of; [exact HAt| |exact HM|unfold mchk07; rewrite HF, ESm; reflexivity].
             groups_auto. apply CScr_upd_none; assumption.
          -- seqs. step HAt. rewrite (mw_fm m _ _ HF HM) in HAt.
             eapply a_ev; [exact HAt|unfold mchk, mchk_all; cbn; unfold mtop; cbn; rewrite ESm; cbn; rewrite !Nat.eqb_refl; reflexivity|]. intros s1 H1.
             eapply t_get_input_rest; [exact HS|exact H1|apply Core_set_follow, HC|split; [left; reflexivity|reflexivity]|exact PN|exact TL|exact HQi].
  Qed.

  Definition pi_tail (scr : nat) : sprog :=
    rd (fun u => if st_rb u then
      let act := action_of (st_rv u) in
      ev T_ACTION [scr; match act with ANoop => 0 | ARedraw => 1 | AClose => 2 | AQuit => 3 | AError => 4 end] ;;
      wr (upd_scr scr (fun x => match act with AError => x <| ss_err := S (ss_err x) |> | _ => x <| ss_err := 0 |> end)) ;;
      rd (fun u => process_input_result specs act (Nat.modulo (ss_err (scr_of u scr)) 5 =? 0)%nat)
    else PRet).

  Definition err_after (act : action) (n : nat) : nat := match act with AError => S n | _ => 0 end.

  Lemma muser_action m scr act :
    muser m T_ACTION [scr; match act with ANoop => 0 | ARedraw => 1 | AClose => 2 | AQuit => 3 | AError => 4 end] [] =
    m <| m_prev := Some (T_ACTION, [scr; match act with ANoop => 0 | ARedraw => 1 | AClose => 2 | AQuit => 3 | AError => 4 end]) |>
      <| m_err := (scr, err_after act (merr_of m scr)) :: m_err m |>
      <| m_follow := Some (follow_of act (Nat.modulo (err_after act (merr_of m scr)) 5 =? 0)%nat) |>.
  Proof. destruct act; reflexivity. Qed.

  Lemma t_pi_tail nf scr Q s : SP nf -> Inv s -> scr < N -> sc_prompt_none (specs scr) = false ->
    (forall o s', EndOK o s' -> Q o s') -> W nf (pi_tail scr) Q s.
  Proof.
    intros HS HI SL PN HQ. open_inv HI. groups_open HC. unfold pi_tail. eapply a_rd; [exact HAt|].
    destruct (st_rb u); [|eapply a_ret; [exact HAt|]; apply HQ, Inv_EndOK, HI].
    cbv zeta. generalize (action_of (st_rv u)). intros act. pose proof (scr_err _ _ GScr scr SL PN) as ER.
    assert (L : (scr <? length (st_scr u))%nat = true) by (apply Nat.ltb_lt; rewrite (scr_len _ _ GScr); exact SL).
    set (f := fun x : scrst => match act with AError => x <| ss_err := S (ss_err x) |> | _ => x <| ss_err := 0 |> end).
    assert (F : forall x, ss_err (f x) = err_after act (ss_err x)) by (intros x; unfold f; destruct act; reflexivity).
    seqs. eapply a_ev; [exact HAt|rewrite mchk_user_quiet; [reflexivity|exact HQt|reflexivity|reflexivity]|]. intros s1 H1.
    cbv beta iota. apply wpS_seq. eapply a_wr; [exact H1|]. intros s2 H2. cbv beta iota. eapply a_rd; [exact H2|].
    rewrite scr_of_upd_scr, Nat.eqb_refl, L. cbn [andb]. rewrite F. unfold scr_of. rewrite <- ER.
    eapply t_pir; [exact HS|exact H2| | |exact (proj2 HQt)|exact HQ]; rewrite muser_action; [|reflexivity].
    groups_auto. apply CScr_action; assumption.
  Qed.

  (* InputManager.process_input, entered right after the ready signal announced the line *)
  Lemma t_process_input nf scr line args Q s m u l ex hs :
    SP nf -> At s m u l ex hs -> Core m u l ex hs ->
    (m_follow m = None \/ exists q, m_follow m = Some (FQuitBack q)) -> m_must m = Some (scr, args, line) ->
    scr < N -> sc_prompt_none (specs scr) = false -> ss_input_args (scr_of u scr) = args ->
    (forall o s', EndOK o s' -> Q o s') -> W nf (process_input specs scr line) Q s.
  Proof.
    intros HS HAt HC HQf HM SL PN SA HQ.
    unfold process_input. fold (pi_tail scr).
    pose proof (post_seq nf (pi_tail scr) Q (fun s' HI' => t_pi_tail nf scr Q s' HS HI' SL PN HQ)
                  (fun o s' HI' => HQ o s' (Inv_EndOK o s' HI'))) as P1.
    pose proof (post_try nf _ _ (fun s' HI' => IT_seq _ _ (IT_enq_other exception_spec ltac:(discriminate) ltac:(discriminate))
                                                 (IT_wr_rb false) nf _ s' HS HI' P1) P1) as P2.
    apply wpS_seq. step HAt. apply wpS_seq. apply wpS_try. apply wpS_seq.
    unfold call_input. eapply a_rd; [exact HAt|]. cbv zeta.
    assert (WF : cmds_wf N fresh
                  (fst (match assoc_str line (sc_input (specs scr)) with
                        | Some (c, r) => (c, r)
                        | None => (fst (sc_input_default (specs scr)),
                                   match snd (sc_input_default (specs scr)) with Some r => r | None => RKey line end)
                        end)) = true).
    { destruct (assoc_str line (sc_input (specs scr))) as [[c r]|] eqn:AS.
      - exact (ok_assoc (wf_parts scr) AS).
      - exact (ok_default (wf_parts scr)). }
    destruct (match assoc_str line (sc_input (specs scr)) with
              | Some (c, r) => (c, r)
              | None => (fst (sc_input_default (specs scr)),
                         match snd (sc_input_default (specs scr)) with Some r => r | None => RKey line end)
              end) as [cmds rv]. cbn [fst] in WF.
    seqs. step HAt. seqs. eapply a_ev; [exact HAt| |intros sx H1].
    { unfold mchk, mchk_all. rewrite (mchk07_idle _ _ HQf). unfold mchk06, mchk17, mchk18, mchk_once. rewrite HM.
      cbn [nth0 nth T_INPUT T_READY T_SHOW T_SEPARATOR T_REFUSED T_PROMPT T_GOT T_WAITED Nat.eqb andb orb negb].
      change (scr_of (u <| st_rb := false |>) scr) with (scr_of u scr). rewrite SA, !Nat.eqb_refl, streq_refl. reflexivity. }
    apply (IT_seq _ _ (IT_run_cmds _ _ _ WF) (IT_wr_rv rv)); [exact HS| |].
    { eapply At_Inv; [exact H1|groups_open HC; groups_auto; apply CScr_upd; [reflexivity|exact GScr]|split; [exact HQf|reflexivity]]. }
    exact (post_seq nf _ _ (fun s' HI' => IT_wr_rb true nf _ s' HS HI' P2) P2).
  Qed.

  Lemma hready_ne idx : (H_READY idx =? H_RECEIVED)%nat = false.
  Proof. unfold H_READY, H_RECEIVED. apply Nat.eqb_neq. lia. Qed.

  Lemma hand_has_in m (a : nat) (b : bool) (d : str) : In (a, b, d) (m_hand m) -> hand_has m [a; b2n b] d = true.
  Proof.
    intros I. unfold hand_has. apply existsb_exists. exists (a, b, d). split; [exact I|].
    cbn [fst snd nth0 nth]. rewrite Nat.eqb_refl, b2n_eqb, eqb_reflx, streq_refl. reflexivity.
  Qed.

  Lemma fires_some m idx scr args :
    alookup idx (m_req m) = Some (scr, args) -> mem idx (m_fired m) = false -> fires m [idx; b2n true] = Some (scr, args).
  Proof. intros RQ FR. unfold fires. cbn [nth0 nth b2n Nat.eqb andb]. rewrite FR. exact RQ. Qed.
  Lemma fires_none m idx b :
    (b = false \/ alookup idx (m_req m) = None \/ mem idx (m_fired m) = true) -> fires m [idx; b2n b] = None.
  Proof.
    intros H. unfold fires. cbn [nth0 nth]. rewrite b2n_eqb.
    destruct H as [->|[E|E]]; [reflexivity|rewrite E; destruct (_ && _); reflexivity|rewrite E, andb_false_r; reflexivity].
  Qed.

  Lemma upd_ih_comp k f g u : upd_ih k g (upd_ih k f u) = upd_ih k (fun x => g (f x)) u.
  Proof. unfold upd_ih. cbn [st_ih set]. rewrite upd_nth_comp. reflexivity. Qed.

  (* the world and the state after the ready signal (idx, b, data) reached handler idx; g: what happened to the handler
     record: the one-shot callback of the request is used up exactly if the signal fires *)
  Lemma Core_ready (b : bool) (g : ihandler -> ihandler) idx data m u l ex hs :
    Core m u l ex hs ->
    (forall h, ih_owner (g h) = ih_owner h) -> (forall h, ih_args (g h) = ih_args h) ->
    (forall h, ih_cb (g h) = match fires m [idx; b2n b] with Some _ => false | None => ih_cb h end) ->
    (forall h, ih_success (g h) = b) -> (b = true -> forall h, ih_value (g h) = Some data) ->
    (fires m [idx; b2n b] <> None -> idx < length (st_ih u)) ->
    PSub ((idx, b, data) :: map triple (filter isready l)) (m_hand m) ->
    Core (muser m T_READY [idx; b2n b] data) (upd_ih idx g u) l ex hs.
  Proof.
    intros HC G1 G5 G2 G3 G4 FI PS. groups_open HC. groups_auto; rewrite ?b2n_eqb.
    - destruct (fires m [idx; b2n b]) eqn:F.
      + apply (CReq_ready true); auto. intros _. split; [|apply FI; discriminate].
        unfold fires in F. cbn [nth0 nth] in F. destruct (mem idx (m_fired m)); [rewrite andb_false_r in F; discriminate F|reflexivity].
      + apply (CReq_ready false); auto. discriminate.
    - apply CRes_ready; assumption.
    - intros F. apply FreshInv_ready; [apply GFresh, F|eapply PSub_in; [exact PS|left; reflexivity]].
    - apply CFly_ready; assumption.
  Qed.

  (* InputHandler._input_received_handler *)
  Lemma H_ready n s sg idx data : SP n -> Inv s -> SigPre sg idx s -> sg_cls sg = CLS_READY ->
    W n (input_ready_handler specs idx sg) (HPost s sg idx (H_READY idx)) (emit (EHandler (H_READY idx) (sg_id sg) data) s).
  Proof.
    intros HS HI [SPR _] CL. specialize (SPR CL).
    destruct (Inv_open_eq _ HI) as (m & u & hs & HAt & HC & HQt).
    rewrite (at_m _ _ _ _ _ _ HAt) in SPR.
    assert (PL : pendl (emit (EHandler (H_READY idx) (sg_id sg) data) s) = pendl s) by reflexivity.
    set (l := pendl s) in *. set (ex := ext s) in *. clearbody l ex.
    pose proof (At_emit _ _ _ _ _ _ _ HAt (mchk_quiet m (EHandler (H_READY idx) (sg_id sg) data) HQt I)) as H1.
    rewrite (mstep_handler _ _ _ _ (or_introl (hready_ne idx))) in H1.
    set (s1 := emit (EHandler (H_READY idx) (sg_id sg) data) s) in *.
    assert (FIN : forall o s2, EndOK o s2 ->
               (S idx <= sg_a sg -> PSub (pendl s2) l /\ m_hand (MWs s2) = m_hand m) -> HPost s sg idx (H_READY idx) o s2).
    { intros o s2 EO MH. apply HPost_end; [exact EO|]. intros _ LE. destruct (MH LE) as [P2 M2]. rewrite M2.
      eapply PSub_trans; [|apply (SPR ltac:(lia))]. apply PSub_cons_mono, PSub_map, PSub_filter, P2. }
    unfold input_ready_handler.
    destruct (sg_a sg =? idx)%nat eqn:EA; cbn [negb].
    - (* the signal is for this handler *)
      apply Nat.eqb_eq in EA. pose proof (SPR (Nat.eq_le_incl _ _ (eq_sym EA))) as PS. unfold triple at 1 in PS. rewrite EA in PS.
      assert (INH : In (idx, sg_b sg, sg_data sg) (m_hand m)) by (eapply PSub_in; [exact PS|left; reflexivity]).
      groups_open HC.
      seqs. step H1. seqs. eapply a_ev; [exact H1| |].
      { unfold mchk, mchk_all. rewrite (mchk07_quiet _ _ HQt). unfold mchk17, mchk18, mchk06, mchk_once. rewrite (proj2 HQt).
        cbn [T_INPUT T_READY T_SHOW T_SEPARATOR T_REFUSED T_PROMPT T_GOT T_WAITED Nat.eqb andb nth0 nth].
        rewrite hand_has_in by exact INH. destruct fresh eqn:F; [|rewrite orb_true_r; reflexivity].
        destruct (FreshInv_ready _ _ _ _ _ _ _ (GFresh eq_refl) INH) as [_ NR]. rewrite NR. reflexivity. }
      intros s2 H2. cbv beta iota.
      destruct (sg_b sg) eqn:SB in H2, PS |- *; cbn [negb].
      + (* a successful result *)
        seqs. step H2. eapply a_rd; [exact H2|]. rewrite !ih_of_upd_ih. rewrite upd_ih_comp in H2.
        destruct (ih_cb (ih_of u idx)) eqn:CB.
        * (* the one-shot callback fires: InputManager.process_input of the owner *)
          assert (IL : idx < length (st_ih u)).
          { destruct (Nat.lt_ge_cases idx (length (st_ih u))) as [L|L]; [exact L|]. unfold ih_of in CB. rewrite nth_overflow in CB by exact L. discriminate CB. }
          assert (IL' : (idx <? length (st_ih u))%nat = true) by (apply Nat.ltb_lt, IL).
          (* [ih_of u idx] is [ihn (st_ih u) idx] ([ih_of_ihn]) *)
          destruct (req_cb _ _ _ GReq _ CB) as [RQ FR]. destruct (req_owner _ _ _ GReq _ CB) as [OL OP].
          rewrite len_upd_ih, Nat.eqb_refl, IL'. cbn [andb ih_cb ih_owner ih_args set].
          rewrite CB.
          pose proof (fires_some _ _ _ _ RQ FR) as FS.
          assert (HM2 : m_must (muser m T_READY [idx; b2n true] (sg_data sg)) = Some (ih_owner (ih_of u idx), ih_args (ih_of u idx), sg_data sg))
            by (rewrite muser_ready_must, FS; reflexivity).
          apply wpS_seq. step H2. rewrite upd_ih_comp in H2.
          (* the arguments of THIS request are put in place: _process_request_input *)
          apply wpS_seq. step H2.
          assert (OLb : (ih_owner (ih_of u idx) <? length (st_scr u))%nat = true) by (apply Nat.ltb_lt; rewrite (scr_len _ _ GScr); exact OL).
          eapply t_process_input; [exact HS|exact H2| |exact (proj1 HQt)|exact HM2|exact OL|exact OP| |].
          -- apply Core_upd_scr; [reflexivity|].
             apply Core_ready; [exact HC|reflexivity|reflexivity|intros h; rewrite FS; reflexivity|reflexivity|reflexivity|intros _; exact IL|exact PS].
          -- unfold scr_of, upd_scr, upd_ih. cbn [st_scr set]. rewrite nth_upd_nth, Nat.eqb_refl, OLb. reflexivity.
          -- intros o sx EO. apply FIN; [exact EO|]. intros LE. lia.
        * rewrite len_upd_ih. destruct ((idx =? idx)%nat && (idx <? length (st_ih u))%nat); cbn [ih_cb set]; rewrite CB.
          all: pose proof (fires_none m idx true (or_intror (req_nocb _ _ _ GReq _ CB))) as FN.
          all: eapply a_ret; [exact H2|]; apply FIN; [|intros LE; lia].
          all: eapply EndOK_quiet; [exact H2| |split; [exact (proj1 HQt)|rewrite muser_ready_must, FN; exact (proj2 HQt)]].
          all: apply Core_ready; [exact HC|reflexivity|reflexivity|intros h; rewrite FN; reflexivity|reflexivity|reflexivity|intros X; destruct (X FN)|exact PS].
      + (* a failed request: only the flags are set *)
        eapply a_ret; [exact H2|]. apply FIN; [|intros LE; lia].
        eapply EndOK_quiet; [exact H2| |exact HQt].
        apply Core_ready; [exact HC|reflexivity|reflexivity|reflexivity|reflexivity|discriminate|intros X; destruct (X (fires_none m idx false (or_introl eq_refl)))|exact PS].
    - (* the signal is for another handler: nothing happens *)
      apply Nat.eqb_neq in EA.
      eapply a_ret; [exact H1|]. apply FIN.
      + eapply EndOK_quiet; [exact H1|exact HC|exact HQt].
      + intros LE. split; [rewrite PL; apply PSub_refl|]. unfold s1. rewrite MW_emit, (at_m _ _ _ _ _ _ HAt). apply f_equal, mstep_handler. left. apply hready_ne.
  Qed.

  Lemma Inv_of_At s m u l ex hs : At s m u l ex hs -> Core m u l ex hs -> Quiet m -> Inv s.
  Proof using Hwf Hnosep. apply At_Inv. Qed.

  Lemma Rk_refl s : Rk s s.
  Proof. right. split; reflexivity. Qed.
  Lemma Rk_trans a b c : Rk a b -> Rk b c -> Rk a c.
  Proof.
    unfold Rk, Keep. intros [H1|[H1 H1']] [H2|[H2 H2']]; auto.
    - left. congruence.
    - right. split; congruence.
  Qed.
  Lemma Rk_same_m s s' : MWs s' = MWs s -> ust s' = ust s -> Rk s s'.
  Proof. intros E1 E2. right. rewrite E1, E2. split; reflexivity. Qed.

  Lemma G_kill s : Inv s -> Dead (emit EKill s).
  Proof.
    intros HI. destruct (Inv_open_eq _ HI) as (m & u & hs & HAt & HC & HQt).
    pose proof (At_emit_passive _ _ _ _ _ _ EKill HAt HQt I) as H'.
    split; [apply (at_a _ _ _ _ _ _ H')|]. rewrite (at_m _ _ _ _ _ _ H'). exact HQt.
  Qed.

  Lemma G_unwind s h sid : Dead s -> Dead (emit (EHandlerEnd h sid (Some XSysExit)) s).
  Proof.
    intros [HA HQt]. split; [apply acc_emit; split; [exact HA|apply mchk_quiet; [exact HQt|exact I]]|].
    rewrite MW_emit. split; [left; reflexivity|reflexivity].
  Qed.

  Lemma At_set_q s m u l ex hs q v l' : At s m u l ex hs -> qok v -> PSub (pendl (set_q s q v)) l' ->
    At (set_q s q v) m u l' ex hs.
  Proof.
    intros HAt K P. eapply At_frame; [exact HAt|reflexivity|apply HAt..|apply qsok_set_q; [apply HAt|exact K]|exact P].
  Qed.

  Lemma Rk_of_At s s' m u l ex hs l' ex' hs' : At s m u l ex hs -> At s' m u l' ex' hs' -> Rk s s'.
  Proof. intros A1 A2. apply Rk_same_m; [rewrite (at_m _ _ _ _ _ _ A1), (at_m _ _ _ _ _ _ A2)|rewrite (at_u _ _ _ _ _ _ A1), (at_u _ _ _ _ _ _ A2)]; reflexivity. Qed.

  Lemma pop_in_range s p c sg q' : q_pop (get_q s (active s)) = Some ((p, c, sg), q') -> active s < length (qstore s).
  Proof.
    intros P. destruct (Nat.lt_ge_cases (active s) (length (qstore s))) as [L|L]; [exact L|].
    rewrite get_q_out in P by exact L. discriminate P.
  Qed.

  Lemma Core_ext_move m u l sp r hs id :
    Core m u l (sp :: r) hs -> Core m u (mk_signal id sp :: l) r hs.
  Proof. intros C. apply (Core_fly _ _ _ _ _ _ _ C), CFly_ext_move. Qed.

  (* the loop's own steps: [Inv] is opened once, each step is then followed on the symbolic state [At] *)
  Lemma G_step s s' (W : Prop) : lstep SigPre okspec s s' W -> Inv s -> Inv s' /\ Rk s s' /\ W.
  Proof.
    intros ST HI. destruct (Inv_open_eq _ HI) as (m & u & hs & HAt & HC & HQt).
    destruct ST as [s s' (T & U1 & E & Qs & H)|s e NE|s p c sg q' P|s p c sg q' P|s sp r EX _|s|s sp _|s sp [O1 O2] _].
    - (* fields not looked at *)
      pose proof (At_same _ _ _ _ _ _ _ HAt T U1 E H Qs) as H'.
      split; [eapply At_Inv; eauto|split; [eapply Rk_of_At; eauto|]].
      intros sg i SP. unfold SigPre, pendl in *. rewrite (MW_trace typed s s' T), E, Qs. exact SP.
    - (* an event of the loop *)
      destruct (quiet_neutral m e HQt (neutral0_neutral e NE)) as [E1 E2].
      pose proof (At_emit _ _ _ _ _ _ e HAt E2) as H'. rewrite E1 in H'.
      split; [eapply At_Inv; eauto|split; [|exact I]]. apply Rk_same_m; [|reflexivity].
      rewrite MW_emit, (at_m _ _ _ _ _ _ HAt). exact E1.
    - (* a signal is taken from the queue: it is no longer pending, [SigPre] says what it was *)
      unfold C09Exec.disp. pose proof (pop_in_range _ _ _ _ _ P) as L.
      destruct (q_pop_pq _ _ _ _ _ (qok_nth s (active s) (at_q _ _ _ _ _ _ HAt)) P) as (PM & K1 & _ & _).
      pose proof (pendl_set_q_del s (active s) q' sg L PM) as PD.
      set (s0 := set_q s (active s) q') in *.
      assert (H0 : At s0 m u (pendl s0) (ext s) hs) by (eapply At_set_q; [exact HAt|exact K1|apply PSub_refl]).
      assert (SUB : PSub (pendl s0) (pendl s)).
      { exists [sg]. eapply perm_trans; [exact PD|]. apply Permutation_cons_append. }
      assert (C0 : Core m u (pendl s0) (ext s) hs) by (eapply Core_sub; eauto).
      pose proof (At_emit_passive _ _ _ _ _ _ (EDispatch (sg_id sg) (active s) (length (levels s))) H0 HQt I) as H1.
      split; [eapply At_Inv; eauto|]. split; [eapply Rk_of_At; eauto|].
      unfold SigPre. rewrite (at_m _ _ _ _ _ _ H1).
      change (pendl (emit (EDispatch (sg_id sg) (active s) (length (levels s))) s0)) with (pendl s0).
      change (ext (emit (EDispatch (sg_id sg) (active s) (length (levels s))) s0)) with (ext s).
      destruct (CFly_take _ _ _ _ _ _ _ PD (g_fly _ _ _ _ _ (proj1 (Core_groups _ _ _ _ _) HC))) as [A B]. split; auto.
    - (* ... and put back *)
      destruct (q_pop_pq _ _ _ _ _ (qok_nth s (active s) (at_q _ _ _ _ _ _ HAt)) P) as (_ & _ & K2 & PM).
      assert (H0 : At (set_q s (active s) (q_put_entry q' (p, c, sg))) m u (pendl s) (ext s) hs)
        by (eapply At_set_q; [exact HAt|exact K2|exact (pendl_set_q_sub s _ _ [] PM)]).
      pose proof (At_emit_passive _ _ _ _ _ _ (ERequeue (sg_id sg) (active s)) H0 HQt I) as H1.
      split; [eapply At_Inv; eauto|split; [eapply Rk_of_At; eauto|exact I]].
    - (* another thread's signal arrives *)
      rewrite EX in *.
      assert (H0 : At (s <| ext := r |>) m u (pendl s) r hs)
        by (eapply At_frame; [exact HAt|reflexivity|apply HAt..|reflexivity|apply HAt|apply PSub_refl]).
      pose proof (At_new_signal _ _ _ _ _ _ sp H0 HQt) as H1.
      unfold C09Exec.ext_arrival, new_signal in *. cbn [snd] in H1. cbv beta iota.
      set (s1 := emit (ESigNew (next_sig (s <| ext := r |>)) (sp_cls sp) (sp_prio sp) (sp_src sp)) (s <| ext := r |> <| next_sig := S (next_sig (s <| ext := r |>)) |>)) in *.
      set (sg := mk_signal (next_sig (s <| ext := r |>)) sp).
      pose proof (At_emit_passive _ _ _ _ _ _ (EExt (sg_id sg)) H1 HQt I) as H2.
      pose proof (At_do_enqueue _ _ _ _ _ _ sg H2 HQt) as H3.
      split; [|split; [eapply Rk_of_At; eauto|exact I]].
      eapply At_Inv; [exact H3| |exact HQt]. apply Core_ext_move, HC.
    - (* a handler raised: the exception signal is enqueued, nothing the current signal needs is touched *)
      unfold exc_enqueue.
      pose proof (At_new_signal _ _ _ _ _ _ exception_spec HAt HQt) as H1.
      pose proof (At_do_enqueue _ _ _ _ _ _ (fst (new_signal s exception_spec)) H1 HQt) as H2.
      set (s2 := do_enqueue _ _) in *.
      split; [eapply At_Inv; [exact H2| |exact HQt]; apply Core_cons_other; [discriminate|discriminate|exact HC]|].
      split; [eapply Rk_of_At; eauto|]. intros sg i SP.
      unfold SigPre in *. rewrite (at_m _ _ _ _ _ _ H2), (at_e _ _ _ _ _ _ H2). rewrite (at_m _ _ _ _ _ _ HAt) in SP.
      destruct SP as [S1 S2]. pose proof (at_l _ _ _ _ _ _ H2) as PL. split.
      + intros CL LE. eapply PSub_trans; [|exact (S1 CL LE)]. apply PSub_cons_mono.
        pose proof (PSub_map triple _ _ (PSub_filter isready _ _ PL)) as X. cbn [filter] in X.
        change (isready (fst (new_signal s exception_spec))) with false in X. exact X.
      + intros CL E. destruct (S2 CL E) as (A & B & C). split; [exact A|]. split; [|exact C].
        pose proof (PSub_length _ _ (PSub_filter isrecv _ _ PL)) as LN. cbn [filter] in LN.
        change (isrecv (fst (new_signal s exception_spec))) with false in LN. rewrite B in LN. apply length_zero_iff_nil. cbn in LN. lia.
    - (* execute_new_loop: the signal is created ... *)
      pose proof (At_new_signal _ _ _ _ _ _ sp HAt HQt) as H1.
      split; [eapply At_Inv; eauto|split; [eapply Rk_of_At; eauto|exact I]].
    - (* ... and put into the queue of the new level *)
      pose proof (At_new_signal _ _ _ _ _ _ sp HAt HQt) as H1.
      unfold C09Exec.nl_enter, new_signal in *. cbn [fst snd] in *.
      set (s1 := emit (ESigNew (next_sig s) (sp_cls sp) (sp_prio sp) (sp_src sp)) (s <| next_sig := S (next_sig s) |>)) in *.
      set (s2 := s1 <| qstore := qstore s1 ++ [empty_queue] |> <| active := length (qstore s1) |> <| levels := levels s1 ++ [length (qstore s1)] |>).
      assert (H2 : At s2 m u (pendl s) (ext s) hs).
      { eapply At_frame; [exact H1|reflexivity|apply H1..| |].
        - unfold qsok, s2. cbn [qstore set]. apply Forall_app. split; [apply H1|]. constructor; [split; cbn; constructor|constructor].
        - unfold pendl, s2. cbn [qstore set]. rewrite flat_map_app. cbn [flat_map pq eq_entries empty_queue map]. rewrite !app_nil_r. apply H1. }
      destruct (quiet_neutral m (ENewLoopEnter (length (qstore s1))) HQt eq_refl) as [E1 E2].
      pose proof (At_emit _ _ _ _ _ _ _ H2 E2) as H3. rewrite E1 in H3.
      pose proof (At_do_enqueue _ _ _ _ _ _ (mk_signal (next_sig s) sp) H3 HQt) as H4.
      split; [|split; [eapply Rk_of_At; eauto|exact I]].
      eapply At_Inv; [exact H4| |exact HQt]. apply Core_cons_other; [exact O1|exact O2|exact HC].
  Qed.

  Lemma screen_code_ready idx sg data : screen_code specs (H_READY idx) sg data = input_ready_handler specs idx sg.
  Proof. unfold screen_code, H_READY, H_RENDER, H_CLOSE, H_RECEIVED. cbn. rewrite Nat.sub_0_r. reflexivity. Qed.

  Lemma screen_code_custom hid sg data : 3 <= hid < 10 -> screen_code specs hid sg data = custom_handler specs (hid - 3) sg data.
  Proof.
    intros B. unfold screen_code, H_RENDER, H_CLOSE, H_RECEIVED.
    assert (E0 : (hid =? 0)%nat = false) by (apply Nat.eqb_neq; lia).
    assert (E1 : (hid =? 1)%nat = false) by (apply Nat.eqb_neq; lia).
    assert (E2 : (hid =? 2)%nat = false) by (apply Nat.eqb_neq; lia).
    assert (E3 : (10 <=? hid)%nat = false) by (apply Nat.leb_gt; lia).
    assert (E4 : (3 <=? hid)%nat = true) by (apply Nat.leb_le; lia).
    rewrite E0, E1, E2, E3, E4. reflexivity.
  Qed.

  (* a screen's own signal callback: like any callback running commands *)
  Lemma IT_custom_handler k sg scr : IT (custom_handler specs k sg scr).
  Proof.
    unfold custom_handler. apply IT_seq; [apply IT_ev_plain; reflexivity|]. apply IT_run_cmds.
    exact (ok_nth_custom (fun l => cmds_wf N fresh l = true) k eq_refl (wf_parts scr)).
  Qed.

  Lemma G_handler n : SP n -> forall s sg idx hs0 hid data,
    Inv s -> SigPre sg idx s -> force_quit s = false ->
    handlers_of s (sg_cls sg) = Some hs0 -> nth_error hs0 idx = Some (hid, data) ->
    W n (screen_code specs hid sg data)
      (fun o s2 => let s3 := emit (EHandlerEnd hid (sg_id sg) (how_of o)) s2 in Inv s3 /\ Rk s s3 /\ SigPre sg (S idx) s3)
      (emit (EHandler hid (sg_id sg) data) s).
  Proof.
    intros HS s sg idx hs0 hid data HI SP _ HF NE.
    change (fun o s2 => let s3 := emit (EHandlerEnd hid (sg_id sg) (how_of o)) s2 in Inv s3 /\ Rk s s3 /\ SigPre sg (S idx) s3)
      with (HPost s sg idx hid).
    assert (HT : HsOK (length (st_ih (ust s))) (handlers s)) by (destruct HI as (_ & _ & C & _); apply (c_hs _ _ _ _ _ C)).
    assert (HL : hlist (handlers s) (sg_cls sg) = hs0) by (unfold hlist; unfold handlers_of in HF; rewrite HF; reflexivity).
    rewrite <- HL in NE.
    destruct (HsOK_nth _ _ _ _ _ _ HT NE) as [[CL ->]|[[CL ->]|[(CL & -> & ->)|[(CL & -> & _)|(N4 & N3 & B)]]]].
    - apply handler_of_IT; [apply IT_process_screen|exact HS|exact HI|discriminate|rewrite CL; discriminate|rewrite CL; discriminate].
    - apply handler_of_IT; [apply IT_close_screen|exact HS|exact HI|discriminate|rewrite CL; discriminate|rewrite CL; discriminate].
    - apply H_received; assumption.
    - rewrite screen_code_ready. apply H_ready; assumption.
    - (* one of the application's own signal classes: a screen's callback *)
      rewrite (screen_code_custom _ _ _ B).
      apply handler_of_IT; [apply IT_custom_handler|exact HS|exact HI|unfold H_RECEIVED; lia|exact N4|exact N3].
  Qed.

  Theorem screen_spec_all : forall n, SP n.
  Proof.
    apply Spec_of_loop, loop_rule.
    - exact Inv_acc.
    - apply Rk_refl.
    - apply Rk_trans.
    - intros a b c _ H. exact H.
    - apply G_kill.
    - apply G_step.
    - apply handler_wpS; [apply G_unwind|apply G_handler].
  Qed.

  Lemma Inv_top s : Inv s -> Inv (emit ETop s).
  Proof.
    intros HI. open_inv HI.
    pose proof (At_emit _ _ _ _ _ _ _ HAt (mchk_quiet m ETop HQt I)) as H'.
    eapply At_Inv; [exact H'|apply Core_set_follow, HC|split; [left; reflexivity|reflexivity]].
  Qed.

  Lemma res_acc Q o s : (forall o s, Q o s -> acc s) -> res acc Dead Q o s -> acc s.
  Proof using Type. intros H R. destruct o as [|[| |]| |]; cbn in R; try exact R; try (eapply H; exact R). apply R. Qed.

  Theorem session_acc fuel : forall acts s, Inv s -> acts_wf N fresh acts = true ->
    acc (snd (app_session specs fuel acts s)).
  Proof using Hwf Hquit Hnosep.
    intros acts s HI WF.
    apply (session_keeps specs acc Dead Inv Rk SigPre okspec
             (fun a => match a with SACmds l => cmds_wf N fresh l = true | SARun => True end) fuel
             Inv_acc (fun s H => proj1 H) screen_spec_all Inv_top (IT_run_cmds 0 0) acts s HI).
    apply Forall_forall. intros a Ia. unfold acts_wf in WF. rewrite forallb_forall in WF. specialize (WF a Ia).
    destruct a; [exact WF|exact I].
  Qed.
End Scr.

(* Part 3: every session *)
Lemma Inv_init specs specl typed quit run_empty nosep fresh o s1 :
  exec (screen_code specs) 20 (CProg app_initialize) (init_state (sstate0 specl typed quit run_empty)) = (o, s1) ->
  Inv specs (length specl) typed quit nosep fresh s1.
Proof.
  intros E. cbn in E. inversion E; subst o s1. clear E.
  unfold Inv. split; [reflexivity|]. split; [repeat constructor|]. split; [|split; [left; reflexivity|reflexivity]].
  assert (D : forall n, ih_cb (ihn [] n) = false /\ ih_received (ihn [] n) = false) by (intros [|n]; split; reflexivity).
  apply Core_groups. unfold MW, SW, pendl. constructor; cbn; try reflexivity.
  - split; [reflexivity|intros d []].
  - split; [|apply map_length]. intros scr _ _. rewrite (map_nth scr0). reflexivity.
  - split; intros n; rewrite ?(proj1 (D n)); auto; discriminate.
  - split; intros n; rewrite (proj2 (D n)); discriminate.
  - intros _. constructor; cbn; [intros k X; discriminate X|apply NoDup_nil|intros x []|apply NoDup_nil|intros k []].
  - intros pa X. discriminate X.
  - unfold HsOK, hlist. cbn. repeat split; try reflexivity. intros cls C.
    destruct cls as [|[|[|[|cls]]]]; cbn; try constructor; exfalso; lia.
  - split; [apply PSub_refl|]. split; [intros sg []|]. split; [intros sp []|]. split; [cbn; lia|cbn; discriminate].
Qed.

Lemma nosep_nth specs specl : (forall n, specs n = nth n specl default_spec) ->
  forall scr, nth scr (map sc_no_separator specl) false = sc_no_separator (specs scr).
Proof. intros HS scr. rewrite HS. change false with (sc_no_separator default_spec). apply map_nth. Qed.


Lemma scmd_wf_fresh N c :
  scmd_wf N true c = scmd_wf N false c && scmd_noask c.
Proof.
  induction c using scmd_ind2.
  - destruct c; try contradiction; cbn; rewrite ?andb_true_r; reflexivity.
  - cbn [scmd_wf scmd_noask]. rewrite (forallb_and_split _ _ _ t H), (forallb_and_split _ _ _ e H0).
    destruct (forallb (scmd_wf N false) t), (forallb scmd_noask t),
             (forallb (scmd_wf N false) e), (forallb scmd_noask e); reflexivity.
Qed.

Lemma cmds_wf_fresh N l :
  cmds_wf N true l = cmds_wf N false l && forallb scmd_noask l.
Proof. unfold cmds_wf. apply forallb_and_split. apply Forall_forall. intros c _. apply scmd_wf_fresh. Qed.

Lemma wf_session_fresh specl quit acts :
  wf_session_gen false specl quit acts = true -> no_handler_objects specl acts = true ->
  wf_session_gen true specl quit acts = true.
Proof.
  unfold wf_session_gen, no_handler_objects. intros W NO.
  apply andb_true_iff in W. destruct W as [W W3]. apply andb_true_iff in W. destruct W as [W1 W2].
  apply andb_true_iff in NO. destruct NO as [N1 N2].
  apply andb_true_iff. split; [apply andb_true_iff; split|].
  - rewrite forallb_forall in *. intros sp I. specialize (W1 sp I). specialize (N1 sp I).
    unfold spec_wf, spec_noask in *. rewrite !cmds_wf_fresh.
    repeat (apply andb_true_iff in W1; destruct W1 as [W1 ?]). repeat (apply andb_true_iff in N1; destruct N1 as [N1 ?]).
    repeat (apply andb_true_iff; split); try assumption.
    all: rewrite forallb_forall in *; intros x Ix; rewrite cmds_wf_fresh; apply andb_true_iff; split; auto.
  - exact W2.
  - unfold acts_wf in *. rewrite forallb_forall in *. intros a I. specialize (W3 a I). specialize (N2 a I).
    destruct a; [|reflexivity]. rewrite cmds_wf_fresh. apply andb_true_iff. split; assumption.
Qed.

Theorem all_accepted fresh specs specl typed quit run_empty fuel acts :
  (forall n, specs n = nth n specl default_spec) ->
  wf_session_gen fresh specl quit acts = true ->
  sok (chk_all fresh quit (map sc_no_separator specl)) typed
      (rev (trace (snd (app_run_all specs specl typed quit run_empty fuel acts)))) = true.
Proof.
  intros HS WF. unfold wf_session_gen in WF.
  apply andb_true_iff in WF. destruct WF as [WF W3]. apply andb_true_iff in WF. destruct WF as [W1 W2].
  unfold app_run_all.
  destruct (exec (screen_code specs) 20 (CProg app_initialize) (init_state (sstate0 specl typed quit run_empty))) as [o s1] eqn:E.
  apply (session_acc specs (length specl) typed quit (map sc_no_separator specl) fresh
           (specs_allb _ specs specl HS eq_refl W1) W2 (nosep_nth specs specl HS) fuel acts s1).
  - eapply Inv_init; exact E.
  - exact W3.
Qed.

Corollary accepted_by (chk : sworld -> event -> bool) fresh specs specl typed quit run_empty fuel acts :
  (forall w e, chk_all fresh quit (map sc_no_separator specl) w e = true -> chk w e = true) ->
  (forall n, specs n = nth n specl default_spec) ->
  wf_session_gen fresh specl quit acts = true ->
  sok chk typed (rev (trace (snd (app_run_all specs specl typed quit run_empty fuel acts)))) = true.
Proof. intros H HS WF. eapply sok_weaken; [exact H|]. apply all_accepted; assumption. Qed.

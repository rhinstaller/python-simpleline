(* ConcRoute.v — C19_routing: the routing loop of enqueue_signal runs under MainLoop._lock, appends and
   pops of _event_queues also take it; hence, unless force_quit is called (its clear() takes no lock), a completed
   submission whose source was registered at an open level when the loop began is put into a level that owns the
   source at the end and inside which no level owned it at the beginning (registrations racing with the loop can
   only move it further in), whatever the other threads do. *)
From SL Require Import Tac.
From RecordUpdate Require Import RecordUpdate.
From SL Require Import Conc proofs.ConcProofs proofs.ConcLocks.
Import ListNotations.

Lemma has_pair_add : forall m q o q' o', has_pair m q' o' = true -> has_pair (add_src m q o) q' o' = true.
Proof.
  intros. unfold add_src. destruct (has_pair m q o); [assumption|].
  unfold has_pair in *. cbn [existsb]. rewrite H. apply orb_true_r.
Qed.

Definition fqinv (st : cstate) : Prop :=
  forall t th, nth_error (c_thr st) t = Some th -> t_pc th = PFClear -> h_fq (c_sh st) = true.

(* what a step of any thread only increases, and who may change the stack of levels.  Of the moves of ConcProofs.move:
   s_fq sets _force_quit; p_app, p_pop (under MainLoop._lock) and p_clear (at PFClear) change _event_queues; p_add adds
   a registration; em_put extends the put log; only the moves at P0 (smove) shorten the program *)
Record mono (th : thread) (h : shared) (th' : thread) (h' : shared) : Prop := {
  m_fq : h_fq h = true -> h_fq h' = true;
  m_evq : h_evq h' = h_evq h \/ mlocked (t_pc th) = true \/ t_pc th = PFClear;
  m_src : forall q o, has_pair (h_src h) q o = true -> has_pair (h_src h') q o = true;
  m_putlog : exists l, h_putlog h' = l ++ h_putlog h;
  m_clear : t_pc th' = PFClear -> h_fq h' = true;
  m_prog : length (t_prog th') <= length (t_prog th);
  m_start : t_pc th = P0 -> length (t_prog th') < length (t_prog th)
}.
Arguments m_fq {th h th' h'}.
Arguments m_evq {th h th' h'}.
Arguments m_src {th h th' h'}.
Arguments m_putlog {th h th' h'}.
Arguments m_clear {th h th' h'}.
Arguments m_prog {th h th' h'}.
Arguments m_start {th h th' h'}.

Lemma tstep_mono : forall u th h th' h', tstep u th h = Some (th', h') -> mono th h th' h'.
Proof.
  intros u th h th' h' H. destruct (tstep_spec _ _ _ _ _ H) as (l & h0 & -> & M). open_move M.
  all: split; cbn; auto; try discriminate; try lia.
  all: try (exists []; reflexivity).
  all: try (eexists [_]; reflexivity).
  all: intros; apply has_pair_add; assumption.
Qed.

Lemma fqinv_step : forall t st, fqinv st -> fqinv (step t st).
Proof.
  intros t st F. destruct (stepP t st) as [t st|l1 th l2 h th' h' Ht]; [exact F|].
  pose proof (tstep_mono _ _ _ _ _ Ht) as K. pose proof (m_fq K) as A. pose proof (m_clear K) as B. unfold fqinv in *. cbn [c_thr c_sh] in *.
  apply (mid_lift (fun _ a => t_pc a = PFClear -> h_fq h = true) (fun _ a => t_pc a = PFClear -> h_fq h' = true) l1 th);
    auto.
Qed.

Lemma fqinv_reach : forall progs sch, fqinv (steps sch (init progs)).
Proof.
  intros. apply steps_inv; [apply fqinv_step|].
  intros t th H Hp. destruct (init_nth _ _ _ H) as (p & _ & ->). discriminate.
Qed.

Section Route.
  Variables (t : nat) (s : sig) (o : nat) (n0 : nat) (lv : list nat) (src0 : list (nat * nat)).
  Hypothesis Hsrc : s_src s = Some o.

  (* no level of index >= k owns the source (in the registrations of the starting state) *)
  Definition above_clear (k : nat) : Prop :=
    forall j q', k <= j -> nth_error lv j = Some q' -> has_pair src0 q' o = false.
  Definition goal_q (h : shared) (q : nat) : Prop :=
    (exists i, nth_error lv i = Some q /\ above_clear (S i)) /\ has_pair (h_src h) q o = true.
  Definition done (h : shared) : Prop :=
    above_clear 0 \/ exists q c, In (t, (q, (s_prio s, c, s_id s))) (h_putlog h) /\ goal_q h q.

  Definition track_e (e : epc) (h : shared) : Prop :=
    match e with
    | EMkIter => h_evq h = lv
    | ENext k => h_evq h = lv /\ k <= length lv /\ above_clear k
    | EAcqQ q i | ETest q i => h_evq h = lv /\ nth_error lv i = Some q /\ above_clear (S i)
    | ERelQ q i b => h_evq h = lv /\ nth_error lv i = Some q /\ above_clear (S i) /\
                     (if b then has_pair (h_src h) q o = true else has_pair src0 q o = false)
    | ECnt q true | EPut q _ true => goal_q h q
    | ERelMDone => done h
    | ERelMFb | ELoadAct | ECnt _ false | EPut _ _ false => above_clear 0
    | EFq | EAcqM => False
    end.

  Definition track (th : thread) (h : shared) : Prop :=
    h_fq h = true \/
    (length (t_prog th) < n0 /\ done h) \/
    (length (t_prog th) = n0 /\
     match t_pc th with
     | P0 => done h
     | PE s' e => s' = s /\ track_e e h
     | _ => False
     end).

  Definition smon (h : shared) : Prop := forall q o', has_pair src0 q o' = true -> has_pair (h_src h) q o' = true.

  Lemma goal_q_mono : forall h h' q, (forall q o, has_pair (h_src h) q o = true -> has_pair (h_src h') q o = true) ->
    goal_q h q -> goal_q h' q.
  Proof. intros h h' q M [A B]. split; auto. Qed.

  Lemma done_mono : forall h h',
    (forall q o, has_pair (h_src h) q o = true -> has_pair (h_src h') q o = true) ->
    (exists l, h_putlog h' = l ++ h_putlog h) -> done h -> done h'.
  Proof.
    intros h h' M (l & P) [D|(q & c & I & G)]; [left; exact D|right].
    exists q, c. split; [rewrite P; apply in_or_app; right; exact I|]. eapply goal_q_mono; eauto.
  Qed.

  Lemma above_clear_step : forall i q, nth_error lv i = Some q -> above_clear (S i) -> has_pair src0 q o = false ->
    above_clear i.
  Proof.
    intros i q Hq A B j q' Hj Hn. destruct (Nat.eq_dec j i) as [->|Ne].
    - rewrite Hq in Hn. inversion Hn; subst. exact B.
    - apply (A j q'); [lia|exact Hn].
  Qed.

  Lemma track_pe : forall prog e h, length prog = n0 -> track_e e h -> track (mk prog (PE s e)) h.
  Proof. intros. right; right. cbn. auto. Qed.
  Lemma track_p0 : forall prog h, length prog = n0 -> done h -> track (mk prog P0) h.
  Proof. intros. right; right. cbn. auto. Qed.

  Lemma track_own : forall th h th' h', tstep t th h = Some (th', h') -> smon h -> track th h -> track th' h'.
  Proof.
    intros th h th' h' Ht S T.
    pose proof (tstep_mono _ _ _ _ _ Ht) as K.
    pose proof (m_fq K) as Mf. pose proof (m_src K) as Ms. pose proof (m_putlog K) as Mp.
    pose proof (m_prog K) as Ml. pose proof (m_start K) as Ml0.
    destruct T as [F|[(L & D)|(L & T)]].
    { left. auto. }
    { right; left. split; [lia|]. eapply done_mono; eauto. }
    destruct th as [prog p]. cbn [t_pc t_prog] in *.
    destruct p; try contradiction.
    { right; left. split; [specialize (Ml0 eq_refl); lia|]. eapply done_mono; eauto. }
    destruct T as (-> & T).
    unfold tstep, cont in Ht. cbn [t_pc t_prog] in Ht.
    apply enq_spec in Ht. destruct Ht as (l & oe & h0 & -> & -> & E).
    destruct E as [ | | | |i q Hq|k Hk|q i|q i|q i b|q lk|q c lk| | | ]; cbn [track_e] in T; try contradiction; cbn [after].
    - apply track_pe; [exact L|]. cbn [track_e lbl h_evq h_src set]. rewrite T. repeat split; auto.
      intros j q' Hj Hn. assert (Hlt : nth_error lv j <> None) by congruence. apply nth_error_Some in Hlt. lia.
    - destruct T as (Te & Tk & Ta). rewrite Te in Hq. apply track_pe; [exact L|]. cbn [track_e lbl h_evq h_src set]. auto.
    - destruct T as (Te & Tk & Ta). apply track_pe; [exact L|]. cbn [track_e lbl h_evq h_src set]. destruct k; [exact Ta|].
      rewrite Te in Hk. specialize (Hk k eq_refl). apply nth_error_None in Hk. lia.
    - destruct T as (Te & Tn & Ta). apply track_pe; [exact L|]. cbn [track_e lbl h_evq h_src set]. auto.
    - destruct T as (Te & Tn & Ta). apply track_pe; [exact L|]. cbn [track_e lbl h_evq h_src set]. repeat split; auto.
      rewrite Hsrc. cbn [has_src]. destruct (has_pair (h_src h) q o) eqn:Eb; [reflexivity|].
      destruct (has_pair src0 q o) eqn:E0; [|reflexivity]. apply S in E0. congruence.
    - destruct T as (Te & Tn & Ta & Tb). apply track_pe; [exact L|]. destruct b; cbn [track_e lbl h_evq h_src set].
      + split; eauto.
      + repeat split; auto.
        * assert (Hlt : nth_error lv i <> None) by congruence. apply nth_error_Some in Hlt. lia.
        * eapply above_clear_step; eauto.
    - apply track_pe; [exact L|]. destruct lk; exact T.
    - destruct lk; cbn [after].
      + apply track_pe; [exact L|]. right. exists q, c. split; [left; reflexivity|exact T].
      + apply track_p0; [exact L|]. left. exact T.
    - apply track_p0; [exact L|]. eapply done_mono; [| |exact T]; cbn; eauto.
    - apply track_pe; [exact L|]. exact T.
    - apply track_pe; [exact L|]. exact T.
  Qed.

  (* the invariant speaks about _event_queues only at program points where the tracked thread holds MainLoop._lock *)
  Lemma track_e_frame : forall e h h',
    (mlocked (PE s e) = true -> h_evq h' = h_evq h) ->
    (forall q o, has_pair (h_src h) q o = true -> has_pair (h_src h') q o = true) ->
    (exists l, h_putlog h' = l ++ h_putlog h) ->
    track_e e h -> track_e e h'.
  Proof.
    intros e h h' Me Ms Mp T. destruct e as [ | | | | | |q i b|q lk|q c lk| | | ]; cbn [track_e mlocked] in *;
      try rewrite (Me eq_refl); auto.
    - destruct T as (A & B & C & D). repeat split; auto. destruct b; auto.
    - destruct lk; auto. eapply goal_q_mono; eauto.
    - destruct lk; auto. eapply goal_q_mono; eauto.
    - eapply done_mono; eauto.
  Qed.

  Lemma track_other : forall th h h',
    (h_fq h = true -> h_fq h' = true) ->
    (h_fq h' = true \/ (mlocked (t_pc th) = true -> h_evq h' = h_evq h)) ->
    (forall q o, has_pair (h_src h) q o = true -> has_pair (h_src h') q o = true) ->
    (exists l, h_putlog h' = l ++ h_putlog h) ->
    track th h -> track th h'.
  Proof.
    intros th h h' Mf [Me|Me] Ms Mp T; [left; exact Me|]. destruct T as [F|[(L & D)|(L & T)]].
    { left; auto. }
    { right; left. split; auto. eapply done_mono; eauto. }
    right; right. split; [exact L|]. destruct (t_pc th); try contradiction.
    - eapply done_mono; eauto.
    - destruct T as (-> & T). split; [reflexivity|]. eapply track_e_frame; eauto.
  Qed.

  Definition rinv (st : cstate) : Prop :=
    smon (c_sh st) /\ exists th, nth_error (c_thr st) t = Some th /\ track th (c_sh st).

  Lemma rinv_step : forall u st, minv st -> fqinv st -> rinv st -> rinv (step u st).
  Proof.
    intros u st M F (S & th & Hth & T).
    destruct (stepP u st) as [u st|l1 thu l2 h thu' h' Ht]; [split; eauto|]. cbn [c_thr c_sh] in *.
    pose proof (tstep_mono _ _ _ _ _ Ht) as K.
    pose proof (m_fq K) as Mf. pose proof (m_evq K) as Me. pose proof (m_src K) as Ms. pose proof (m_putlog K) as Mp.
    split; [intros q o' H; apply Ms, S, H|].
    pose proof (nth_error_mid l1 thu l2) as Hu.
    destruct (Nat.eq_dec t (length l1)) as [Et|Et].
    - exists thu'. split; [rewrite Et; apply nth_error_mid|].
      rewrite Et, Hu in Hth. inversion Hth; subst thu. rewrite <- Et in Ht. eapply track_own; eauto.
    - exists th. split.
      { destruct (mid_cases l1 thu' thu l2 _ _ Hth) as [[X _]|[_ X]]; [contradiction|exact X]. }
      eapply track_other; eauto.
      destruct Me as [Me|[Me|Me]]; auto.
      + (* the stepping thread holds the main lock: the tracked one does not *)
        right. intros Lt. exfalso. apply Et. exact (lock_excl _ _ _ _ _ _ _ (proj1 (minv_locks _) M) Hth Hu Lt Me).
      + (* force_quit's clear: _force_quit is already set *)
        left. apply Mf. eapply (F (length l1)); [exact Hu|exact Me].
  Qed.
End Route.

Theorem routing : forall progs sch0 sch t prog s o,
  let st0 := steps sch0 (init progs) in
  nth_error (c_thr st0) t = Some (mk prog (PE s EMkIter)) -> s_src s = Some o ->
  let lv := h_evq (c_sh st0) in
  let src0 := h_src (c_sh st0) in
  let st := steps sch st0 in
  forall th, nth_error (c_thr st) t = Some th ->
  h_fq (c_sh st) = false ->
  (length (t_prog th) < length prog \/ t_pc th = P0) ->
  (exists i q, nth_error lv i = Some q /\ has_pair src0 q o = true) ->
  exists q c i, In (t, (q, (s_prio s, c, s_id s))) (h_putlog (c_sh st)) /\
    nth_error lv i = Some q /\ has_pair (h_src (c_sh st)) q o = true /\
    (forall j q', i < j -> nth_error lv j = Some q' -> has_pair src0 q' o = false).
Proof.
  intros progs sch0 sch t prog s o st0 H0 Hs lv src0 st th Hth Hfq Hdone (i0 & q0 & Hi0 & Hq0).
  assert (R : rinv t s o (length prog) lv src0 st).
  { unfold st. apply reach_ind.
    - split; [intros q o' H; exact H|]. eexists. split; [exact H0|]. right; right. cbn. auto.
    - intros sch1 u. unfold st0. rewrite <- steps_app. apply rinv_step; [exact Hs|apply minv_reach|apply fqinv_reach]. }
  destruct R as (_ & th' & Hth' & T). rewrite Hth in Hth'. inversion Hth'; subst th'.
  assert (D : done t s o lv src0 (c_sh st)).
  { destruct T as [F|[(L & D)|(L & T)]]; [congruence|exact D|].
    destruct Hdone as [Hl|Hp]; [lia|]. rewrite Hp in T. exact T. }
  destruct D as [D|(q & c & I & (i & Hi & A) & B)].
  - specialize (D i0 q0 (Nat.le_0_l _) Hi0). congruence.
  - exists q, c, i. split; [exact I|]. split; [exact Hi|]. split; [exact B|]. intros j q' Hj. apply A. lia.
Qed.

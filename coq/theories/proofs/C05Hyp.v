(* C05Hyp.v — the trace hypothesis [no_f13] of C05's strict form in the vocabulary of the event-loop monitors
   (Monitors.v): no EForceQuit in the trace, and no level was opened while the loops had been told to stop
   ([w_stillborn] of the world rebuilt from the trace is empty: the pattern of finding F13). *)
From SL Require Import Tac.
From RecordUpdate Require Import RecordUpdate.
From SL Require Import LoopSem proofs.ListFacts proofs.C05Proofs.
From SL Require Monitors proofs.MonitorFacts.
Import ListNotations.

Definition no_force_quit (t : list event) : bool :=
  forallb (fun e => match e with EForceQuit => false | _ => true end) t.
Definition loop_world (t : list event) : Monitors.world := fold_left Monitors.world_step t Monitors.world0.
Definition isnil {A} (l : list A) : bool := match l with [] => true | _ => false end.

Lemma nfq_snoc t e : no_force_quit (t ++ [e]) = no_force_quit t && match e with EForceQuit => false | _ => true end.
Proof. unfold no_force_quit. rewrite forallb_app. cbn. rewrite andb_true_r. reflexivity. Qed.

Lemma no_f13_inv t :
  (no_force_quit t = true ->
     Monitors.w_fq (loop_world t) = false /\ Monitors.w_runloop (loop_world t) = h_rl (hyp_of t) /\
     h_ok (hyp_of t) = isnil (Monitors.w_stillborn (loop_world t))) /\
  (no_force_quit t = false -> h_ok (hyp_of t) = false).
Proof.
  induction t as [|e t IH] using rev_ind; [split; [intros _; repeat split|discriminate]|].
  unfold hyp_of, loop_world. rewrite nfq_snoc, !fold_left_snoc. fold (hyp_of t) (loop_world t). destruct IH as [IH1 IH2].
  set (w := loop_world t) in *. set (h := hyp_of t) in *. split.
  - intros H. apply andb_true_iff in H. destruct H as [H He]. destruct (IH1 H) as (F & R & O).
    rewrite MonitorFacts.ws_fq, MonitorFacts.ws_runloop, MonitorFacts.ws_stillborn, F, R.
    destruct e; try discriminate He; cbn [hyp_step h_ok h_rl]; auto.
    rewrite O. destruct (h_rl h); cbn [isnil]; rewrite ?andb_true_r, ?andb_false_r; auto.
  - intros H. apply andb_false_iff in H. destruct H as [H|H].
    + specialize (IH2 H). destruct (h_ok (hyp_step h e)) eqn:E; [|reflexivity]. apply hyp_step_mono in E. congruence.
    + destruct e; try discriminate H. reflexivity.
Qed.

Theorem no_f13_spec t :
  no_f13 t = no_force_quit t && isnil (Monitors.w_stillborn (loop_world t)).
Proof.
  unfold no_f13. destruct (no_f13_inv t) as [H1 H2]. destruct (no_force_quit t).
  - destruct (H1 eq_refl) as (_ & _ & O). exact O.
  - apply H2. reflexivity.
Qed.

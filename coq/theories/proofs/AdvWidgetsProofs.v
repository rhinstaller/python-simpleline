(* AdvWidgetsProofs.v — facts about the specs of AdvWidgets.v (the stock dialogs of render/adv_widgets.py)
   inside the screen-layer model: what their input() answers, what the quit protocol does with a
   YesNoDialog, and that they are well-formed members of any session table (so the screen-layer theorems
   cover applications that use them). *)
From SL Require Import Tac.
From RecordUpdate Require Import RecordUpdate.
From SL Require Import PyInt LoopSem ScreenSem ScreenMon AdvWidgets proofs.ListFacts proofs.ExecEqs proofs.ScreenFacts proofs.ScreenLink proofs.C04Proofs proofs.C08Proofs.
Import ListNotations.

Lemma str_eqb_refl k : str_eqb k k = true.
Proof. exact (Nlist_eqb_refl k). Qed.
Lemma str_eqb_eq k : forall k', str_eqb k k' = true -> k = k'.
Proof. exact (Nlist_eqb_eq k). Qed.

Lemma str_eqb_neq k k' : k <> k' -> str_eqb k k' = false.
Proof. intros H. destruct (str_eqb k k') eqn:E; [|reflexivity]. elim H. apply str_eqb_eq. exact E. Qed.

(* the lookup of ScreenSem.call_input, with the comparison named *)
Lemma assoc_str_cons k k' v l :
  assoc_str k ((k', v) :: l) = if str_eqb k k' then Some v else assoc_str k l.
Proof. reflexivity. Qed.

(* what call_input runs and returns for a key: the table entry or the default *)
Definition input_entry (sp : screen_spec) (key : str) : list scmd * ret_val :=
  match assoc_str key (sc_input sp) with
  | Some (c, r) => (c, r)
  | None => (fst (sc_input_default sp), match snd (sc_input_default sp) with Some r => r | None => RKey key end)
  end.

Lemma yesno_table key :
  input_entry yes_no_dialog_spec key =
  if str_eqb key s_yes then ([SSetAnswer AnsTrue], RClose)
  else if str_eqb key s_no then ([SSetAnswer AnsOther], RClose)
  else ([], RDiscarded).
Proof.
  unfold input_entry, yes_no_dialog_spec. cbn [sc_input sc_input_default fst snd].
  rewrite !assoc_str_cons. destruct (str_eqb key s_yes); [reflexivity|]. destruct (str_eqb key s_no); reflexivity.
Qed.

Lemma yesno_action key :
  action_of (snd (input_entry yes_no_dialog_spec key)) =
  if str_eqb key s_yes || str_eqb key s_no then AClose else AError.
Proof. rewrite yesno_table. destruct (str_eqb key s_yes), (str_eqb key s_no); reflexivity. Qed.

Lemma help_table key : input_entry help_screen_spec key = ([], RClose).
Proof. reflexivity. Qed.

Lemma error_table key : input_entry error_dialog_spec key = ([SSysExit], RNone).
Proof. reflexivity. Qed.

Lemma password_table key :
  input_entry password_dialog_spec key = match key with [] => ([], RDiscarded) | _ => ([SSetAnswer AnsOther], RClose) end.
Proof. destruct key; reflexivity. Qed.

(* GetInputScreen: the table built from the conditions answers as _test_input does, for EVERY key *)
Lemma assoc_getinput (g : str -> list scmd * ret_val) key : forall keys,
  assoc_str key (map (fun k => (k, g k)) keys) = if mem_str key keys then Some (g key) else None.
Proof.
  induction keys as [|k keys IH]; [reflexivity|].
  cbn [map]. rewrite assoc_str_cons. cbn [mem_str existsb]. fold (mem_str key keys).
  destruct (str_eqb key k) eqn:E; cbn [orb].
  - apply str_eqb_eq in E. subst k. reflexivity.
  - exact IH.
Qed.

Lemma unmentioned_default key : forall conds,
  mem_str key (flat_map cond_keys conds) = false -> test_input conds key = forallb cond_default conds.
Proof.
  induction conds as [|c conds IH]; [reflexivity|].
  cbn [flat_map]. unfold mem_str at 1. rewrite existsb_app. intros H. apply orb_false_iff in H. destruct H as [Hc Hr].
  cbn [test_input forallb]. fold (test_input conds key). rewrite (IH Hr). f_equal.
  destruct c as [l|l]; cbn [cond_keys] in Hc; cbn [cond_accepts cond_default]; unfold mem_str; rewrite Hc; reflexivity.
Qed.

Lemma getinput_table conds key :
  input_entry (get_input_screen_spec conds) key = ([], accept_ret (test_input conds key)).
Proof.
  unfold input_entry, get_input_screen_spec. cbn [sc_input sc_input_default fst snd].
  rewrite (assoc_getinput (fun k => ([], accept_ret (test_input conds k)))).
  destruct (mem_str key (flat_map cond_keys conds)) eqn:E; [reflexivity|].
  rewrite (unmentioned_default _ _ E). reflexivity.
Qed.

Lemma getinput_action conds key :
  action_of (snd (input_entry (get_input_screen_spec conds) key)) = if test_input conds key then AClose else AError.
Proof. rewrite getinput_table. destruct (test_input conds key); reflexivity. Qed.

Lemma nth_upd_other {A} (l : list A) : forall k x (f : A -> A) d, x <> k -> nth x (upd_nth l k f) d = nth x l d.
Proof. intros k x f d H. rewrite nth_upd_nth. apply Nat.eqb_neq in H. rewrite H. reflexivity. Qed.

Section Run.
  Variable specs : nat -> screen_spec.
  Notation code := (screen_code specs).
  Notation ex := (exec code).

  Lemma call_input_run scr key cmds rv f s :
    input_entry (specs scr) key = (cmds, rv) ->
    ex (6 + f) (CProg (call_input specs scr key)) s =
    let n := ss_n_input (scr_of (ust s) scr) in
    let '(o, s1) := ex (2 + f) (CProg (run_cmds specs scr n cmds))
                       (emit (EUser T_INPUT [scr; ss_input_args (scr_of (ust s) scr)] key)
                             (s <| ust := upd_scr scr (fun x => x <| ss_n_input := S n |>) (ust s) |>)) in
    match o with ONormal => (ONormal, s1 <| ust := ust s1 <| st_rv := rv |> |>) | _ => (o, s1) end.
  Proof.
    intros E. unfold call_input, rd. cbn [Nat.add]. rewrite (exec_rd code). cbv beta zeta.
    unfold input_entry in E. rewrite E. cbv beta iota.
    erewrite exec_seq_next by apply exec_wr. erewrite exec_seq_next by apply exec_emit. rewrite exec_seq.
    destruct (ex _ (CProg (run_cmds _ _ _ _)) _) as [o s1]. destruct o; [apply exec_wr | reflexivity..].
  Qed.

  (* call_input on a screen whose table entry for the key is (cmds, rv), cmds being at most one SSetAnswer:
     one T_INPUT event, the counter, the answer, the return register; nothing else *)
  Definition after_input (scr : nat) (key : str) (a : option answer) (rv : ret_val) (s : lstate sstate) : lstate sstate :=
    emit (EUser T_INPUT [scr; ss_input_args (scr_of (ust s) scr)] key) s
      <| ust := (match a with
                 | Some a => upd_scr scr (fun x => x <| ss_answer := a |>)
                 | None => fun u => u
                 end (upd_scr scr (fun x => x <| ss_n_input := S (ss_n_input (scr_of (ust s) scr)) |>) (ust s)))
                <| st_rv := rv |> |>.

  Lemma call_input_answer scr key a rv f s :
    input_entry (specs scr) key = (match a with Some a => [SSetAnswer a] | None => [] end, rv) ->
    ex (7 + f) (CProg (call_input specs scr key)) s = (ONormal, after_input scr key a rv s).
  Proof.
    intros E. change (7 + f) with (6 + (1 + f)). rewrite (call_input_run scr key _ rv (1 + f) s E).
    cbv zeta. unfold run_cmds, after_input.
    destruct a as [a|]; cbn [do_scmds do_scmd Nat.add].
    - erewrite exec_seq_next by apply exec_wr. rewrite exec_ret. reflexivity.
    - rewrite exec_ret. reflexivity.
  Qed.

  Lemma after_input_answer scr key a rv s :
    scr < length (st_scr (ust s)) ->
    ss_answer (scr_of (ust (after_input scr key a rv s)) scr) =
    match a with Some a => a | None => ss_answer (scr_of (ust s) scr) end.
  Proof.
    intros H. apply Nat.ltb_lt in H. unfold after_input, scr_of. destruct a as [a|]; cbn [ust set st_scr upd_scr].
    - rewrite nth_upd_nth, length_upd_nth, Nat.eqb_refl, H. reflexivity.
    - rewrite nth_upd_nth, Nat.eqb_refl, H. reflexivity.
  Qed.

  Lemma after_input_rv scr key a rv s : st_rv (ust (after_input scr key a rv s)) = rv.
  Proof. reflexivity. Qed.

  Lemma after_input_trace scr key a rv s :
    trace (after_input scr key a rv s) = EUser T_INPUT [scr; ss_input_args (scr_of (ust s) scr)] key :: trace s.
  Proof. reflexivity. Qed.

  Lemma after_input_stack scr key a rv s : st_stack (ust (after_input scr key a rv s)) = st_stack (ust s).
  Proof. unfold after_input. destruct a; reflexivity. Qed.

  (* what the props ask of the state after input(), for an entry as in call_input_answer *)
  Lemma input_answers scr key a rv f s :
    input_entry (specs scr) key = (match a with Some a => [SSetAnswer a] | None => [] end, rv) ->
    scr < length (st_scr (ust s)) ->
    exists s', ex (7 + f) (CProg (call_input specs scr key)) s = (ONormal, s') /\
      ss_answer (scr_of (ust s') scr) = match a with Some a => a | None => ss_answer (scr_of (ust s) scr) end /\
      st_rv (ust s') = rv /\
      trace s' = EUser T_INPUT [scr; ss_input_args (scr_of (ust s) scr)] key :: trace s /\
      st_stack (ust s') = st_stack (ust s).
  Proof.
    intros E H. exists (after_input scr key a rv s). split; [exact (call_input_answer scr key a rv f s E)|].
    split; [exact (after_input_answer scr key a rv s H)|]. split; [reflexivity|]. split; [reflexivity|].
    apply after_input_stack.
  Qed.

  Lemma help_run scr key f s :
    specs scr = help_screen_spec ->
    ex (8 + f) (CProg (call_input specs scr key)) s = (ONormal, after_input scr key None RClose s).
  Proof. intros E. apply (call_input_answer scr key None RClose (1 + f)). rewrite E. reflexivity. Qed.

  Lemma yesno_refresh d f s :
    specs (sd_scr d) = yes_no_dialog_spec ->
    exists s', ex (6 + f) (CProg (call_refresh specs d)) s = (ONormal, s') /\
      trace s' = EUser T_REFRESH [sd_id d; sd_scr d; sd_args d] [] :: trace s /\
      st_stack (ust s') = st_stack (ust s) /\
      ss_answer (scr_of (ust s') (sd_scr d)) = ss_answer (scr_of (ust s) (sd_scr d)).
  Proof.
    intros E. unfold call_refresh, rd. cbn [Nat.add]. rewrite (exec_rd code). cbv beta zeta. rewrite E.
    erewrite exec_seq_next by apply exec_wr. erewrite exec_seq_next by apply exec_emit.
    eexists. split; [apply exec_ret|]. repeat split.
    unfold scr_of. cbn [ust emit set st_scr upd_scr]. rewrite nth_upd_nth.
    destruct (_ && _); reflexivity.
  Qed.

  (* ErrorDialog: input() leaves with SystemExit: one T_INPUT event, no action, no ExceptionSignal *)
  Lemma error_input scr key f s :
    specs scr = error_dialog_spec ->
    exists s', ex (8 + f) (CProg (call_input specs scr key)) s = (OThrow XSysExit, s') /\
      trace s' = EUser T_INPUT [scr; ss_input_args (scr_of (ust s) scr)] key :: trace s /\
      st_stack (ust s') = st_stack (ust s).
  Proof.
    intros E. change (8 + f) with (6 + (2 + f)).
    rewrite (call_input_run scr key [SSysExit] RNone (2 + f)) by (rewrite E; reflexivity).
    cbv zeta. unfold run_cmds. cbn [do_scmds do_scmd Nat.add]. rewrite exec_seq, exec_throw.
    eexists. split; [reflexivity|]. split; reflexivity.
  Qed.

  Lemma error_process scr key f s :
    specs scr = error_dialog_spec ->
    exists s', ex (12 + f) (CProg (process_input specs scr key)) s = (OThrow XSysExit, s') /\
      trace s' = EUser T_INPUT [scr; ss_input_args (scr_of (ust s) scr)] key :: trace s /\
      st_stack (ust s') = st_stack (ust s).
  Proof.
    intros E. unfold process_input. cbn [Nat.add]. erewrite exec_seq_next by apply exec_wr.
    destruct (error_input scr key f (s <| ust := ust s <| st_rb := false |> |>) E) as [s' [R [Ht Hs]]].
    cbn [Nat.add] in R. rewrite exec_seq, exec_try, exec_seq, R. eexists. split; [reflexivity|]. split; [exact Ht | exact Hs].
  Qed.

  (* the quit protocol: one unfolding of process_input_result for the quit key *)
  Lemma quit_protocol qs top rest sr f s :
    st_stack (ust s) = top :: rest -> st_quit (ust s) = Some qs ->
    ex (6 + f) (CProg (process_input_result specs AQuit sr)) s =
    let '(o, s1) := ex (3 + f) (CProg (push_screen_modal specs qs 0)) s in
    match o with
    | ONormal =>
      match ss_answer (scr_of (ust s1) qs) with
      | AnsOther => let '(sg, s2) := new_signal s1 (render_spec None) in (ONormal, do_enqueue s2 sg)
      | _ => (OThrow XExit, s1)
      end
    | _ => (o, s1)
    end.
  Proof.
    intros Hst Hq. unfold process_input_result, with_top, rd. cbn [Nat.add].
    rewrite (exec_rd code), Hst, (exec_rd code), Hq, exec_seq.
    destruct (ex (S (S (S f))) (CProg (push_screen_modal specs qs 0)) s) as [o s1].
    destruct o; try reflexivity.
    rewrite (exec_rd code).
    destruct (ss_answer (scr_of (ust s1) qs)); reflexivity.
  Qed.

  Lemma no_quit_screen top rest sr f s :
    st_stack (ust s) = top :: rest -> st_quit (ust s) = None ->
    ex (3 + f) (CProg (process_input_result specs AQuit sr)) s = (OThrow XExit, s).
  Proof.
    intros Hst Hq. unfold process_input_result, with_top, rd. cbn [Nat.add].
    rewrite (exec_rd code), Hst, (exec_rd code), Hq. reflexivity.
  Qed.
End Run.

Lemma initial_answer specl typed quit run_empty : forall i sp,
  nth_error specl i = Some sp -> ss_answer (scr_of (sstate0 specl typed quit run_empty) i) = sc_answer0 sp.
Proof.
  unfold scr_of, sstate0. cbn [st_scr].
  induction specl as [|a l IH]; intros [|i] sp H; cbn [nth_error] in H; try discriminate H.
  - inversion H; subst. reflexivity.
  - cbn [map nth]. apply IH. exact H.
Qed.

Lemma adv_answer0 k :
  sc_answer0 (adv_spec k) = match k with KYesNo | KPassword => AnsOther | _ => AnsNoAttr end.
Proof. destruct k; reflexivity. Qed.

Lemma adv_spec_wf n k : spec_wf n (adv_spec k) = true.
Proof.
  assert (G : forall conds, spec_wf n (get_input_screen_spec conds) = true).
  { intros conds. unfold spec_wf, get_input_screen_spec. cbn [sc_refresh sc_show sc_closed sc_input sc_input_default sc_custom sc_setup_cmds forallb fst andb].
    rewrite andb_true_r. induction (flat_map cond_keys conds) as [|x l IH]; [reflexivity|].
    cbn [map forallb fst snd andb]. exact IH. }
  destruct k; try reflexivity; apply G.
Qed.

(* the application's own screens [own] (well-formed among themselves or referring to the dialogs) plus stock
   dialogs: a well-formed session *)
Lemma adv_wf_session own ks quit acts :
  forallb (spec_wf (length own + length ks)) own = true ->
  match quit with Some q => q < length own + length ks | None => True end ->
  forallb (saction_wf (length own + length ks)) acts = true ->
  wf_session (own ++ map adv_spec ks) quit acts = true.
Proof.
  intros Ho Hq Ha. unfold wf_session. rewrite app_length, map_length, forallb_app, Ho, Ha, andb_true_r. cbn [andb].
  apply andb_true_iff. split.
  - apply forallb_forall. intros sp Hsp. apply in_map_iff in Hsp. destruct Hsp as [k [<- _]]. apply adv_spec_wf.
  - destruct quit as [q|]; [apply Nat.ltb_lt; exact Hq | reflexivity].
Qed.

Lemma adv_wf_extend own ks quit acts :
  wf_session own quit acts = true -> wf_session (own ++ map adv_spec ks) quit acts = true.
Proof.
  intros H. destruct (wf_session_parts _ _ _ H) as [H1 [H2 H3]].
  apply adv_wf_session.
  - eapply forallb_mono; [|exact H1]. intros sp _. apply spec_wf_mono. lia.
  - destruct quit as [q|]; [|exact I]. specialize (H2 q eq_refl). lia.
  - eapply forallb_mono; [|exact H3]. intros a _. apply saction_wf_mono. lia.
Qed.

(* the stock dialogs' setup() does nothing of its own: only the application's own screens matter for the hypothesis
   about setup() with commands *)
Lemma adv_spec_setup_plain k : sc_setup_cmds (adv_spec k) = [].
Proof. destruct k; reflexivity. Qed.

Lemma adv_failing_setup_plain specs own ks :
  (forall n, specs n = nth n (own ++ map adv_spec ks) default_spec) ->
  (forall sp, In sp own -> In false (sc_setup sp) -> sc_setup_cmds sp = []) ->
  failing_setup_plain specs.
Proof.
  intros Hs Ho. refine (specs_all (fun sp => In false (sc_setup sp) -> sc_setup_cmds sp = []) _ _ Hs (fun _ => eq_refl) _).
  intros sp Hin. apply in_app_or in Hin as [Hin|Hin]; [exact (Ho sp Hin)|].
  apply in_map_iff in Hin. destruct Hin as [k [<- _]]. intros _. apply adv_spec_setup_plain.
Qed.

Lemma adv_C04 specs own ks typed quit run_empty fuel acts :
  failing_setup_plain specs ->
  (forall n, specs n = nth n (own ++ map adv_spec ks) default_spec) ->
  sok chk_C04 typed (rev (trace (snd (app_run_all specs (own ++ map adv_spec ks) typed quit run_empty fuel acts)))) = true.
Proof. intros Hpl H. apply C04_honest_stack_proof; [exact Hpl | exact H]. Qed.

Lemma adv_C08 specs own ks typed quit run_empty fuel acts :
  failing_setup_plain specs ->
  (forall n, specs n = nth n (own ++ map adv_spec ks) default_spec) ->
  forallb (spec_wf (length own + length ks)) own = true ->
  match quit with Some q => q < length own + length ks | None => True end ->
  forallb (saction_wf (length own + length ks)) acts = true ->
  sok chk_C08 typed (rev (trace (snd (app_run_all specs (own ++ map adv_spec ks) typed quit run_empty fuel acts)))) = true.
Proof. intros Hpl H Ho Hq Ha. apply C08_lifecycle_proof; [exact Hpl | exact H|]. apply adv_wf_session; assumption. Qed.

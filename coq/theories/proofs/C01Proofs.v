(* C01Proofs.v — dispatch by priority, first-in first-out within a priority. *)
From SL Require Import Tac.
From Coq Require Import Permutation Sorted.
From SL Require Import LoopSem Monitors proofs.ListFacts proofs.MonitorFacts proofs.LoopLink.
Import ListNotations.

Definition prio_le (a b : Z * nat) : Prop := (fst a <= fst b)%Z.
Definition prio_sorted (q : refq) : Prop := StronglySorted prio_le q.

Lemma stable_insert_spec p sid q :
  exists l1 l2, q = l1 ++ l2 /\ stable_insert p sid q = l1 ++ (p, sid) :: l2 /\
                Forall (fun x => (fst x <= p)%Z) l1 /\
                match l2 with [] => True | x :: _ => (p < fst x)%Z end.
Proof.
  induction q as [|[p' s'] r IH]; cbn [stable_insert].
  - exists [], []. repeat split. constructor.
  - destruct (p <? p')%Z eqn:E.
    + exists [], ((p', s') :: r). repeat split; [constructor|]. cbn. apply Z.ltb_lt, E.
    + destruct IH as (l1 & l2 & -> & -> & F & H). exists ((p', s') :: l1), l2. repeat split; auto.
      constructor; [cbn; apply Z.ltb_ge, E|exact F].
Qed.

Lemma in_stable_insert p sid q x : In x (stable_insert p sid q) <-> x = (p, sid) \/ In x q.
Proof.
  destruct (stable_insert_spec p sid q) as (l1 & l2 & -> & -> & _). rewrite !in_app_iff. cbn. intuition.
Qed.

Lemma stable_insert_length p sid q : length (stable_insert p sid q) = S (length q).
Proof.
  destruct (stable_insert_spec p sid q) as (l1 & l2 & -> & -> & _). rewrite !app_length. cbn. lia.
Qed.

(* [stable_insert] is the insertion sort of ListFacts.v: in front of the first entry of greater priority *)
Lemma stable_insert_eq p sid q : stable_insert p sid q = insert_by (fun a b => (fst a <? fst b)%Z) (p, sid) q.
Proof. induction q as [|[p' s'] r IH]; cbn [stable_insert insert_by fst]; [reflexivity|]. rewrite IH. reflexivity. Qed.

Lemma stable_insert_sorted p sid q : prio_sorted q -> prio_sorted (stable_insert p sid q).
Proof.
  rewrite stable_insert_eq. apply insert_by_sorted; [unfold prio_le; intros; lia|].
  intros y _. unfold prio_le. cbn [fst]. destruct (p <? fst y)%Z eqn:E; [apply Z.ltb_lt in E|apply Z.ltb_ge in E]; lia.
Qed.

Lemma tl_sorted q : prio_sorted q -> prio_sorted (tl q).
Proof. unfold prio_sorted. destruct q; cbn; [auto|]. intros S; inversion S; assumption. Qed.

Lemma pend_sorted_world t : forall w, (forall q, prio_sorted (pend w q)) ->
  forall q, prio_sorted (pend (fold_left world_step t w) q).
Proof.
  induction t as [|e r IH]; intros w H q; cbn [fold_left]; [apply H|].
  apply IH. intros q0. rewrite ws_pend.
  destruct e; try apply H; destruct (q0 =? _)%nat; auto using stable_insert_sorted, tl_sorted.
Qed.

Fixpoint before (x y : Z * nat) (l : refq) : Prop :=
  match l with [] => False | h :: r => (h = x /\ In y r) \/ before x y r end.

Lemma before_app_insert x y z l1 l2 : before x y (l1 ++ l2) -> before x y (l1 ++ z :: l2).
Proof.
  induction l1 as [|h r IH]; cbn.
  - intros H. right. exact H.
  - intros [[-> H]|H]; [left; split; [reflexivity|]|right; apply IH, H].
    rewrite in_app_iff in *. cbn. tauto.
Qed.

Lemma before_stable_insert x y p sid q : before x y q -> before x y (stable_insert p sid q).
Proof.
  destruct (stable_insert_spec p sid q) as (l1 & l2 & -> & -> & _). apply before_app_insert.
Qed.

Lemma before_tl x y q : before x y q -> hd x q <> x -> before x y (tl q).
Proof. destruct q as [|h r]; cbn; [tauto|]. intros [[-> _]|H] N; [congruence|exact H]. Qed.

Lemma stable_insert_after p a b l1 l2 : Forall (fun x => (fst x <= p)%Z) l1 ->
  stable_insert p b (l1 ++ (p, a) :: l2) = l1 ++ (p, a) :: stable_insert p b l2.
Proof.
  induction l1 as [|[p' s'] r IH]; intros F; cbn [app stable_insert].
  - rewrite Z.ltb_irrefl. reflexivity.
  - inversion F as [|? ? Hx Fr]; subst. cbn in Hx.
    destruct (p <? p')%Z eqn:E; [apply Z.ltb_lt in E; lia|]. f_equal. apply IH, Fr.
Qed.

Lemma fifo_two_inserts p a b q :
  exists l1 l2, stable_insert p b (stable_insert p a q) = l1 ++ (p, a) :: (p, b) :: l2 /\ q = l1 ++ l2.
Proof.
  destruct (stable_insert_spec p a q) as (l1 & l2 & -> & -> & F & H).
  exists l1, l2. split; [|reflexivity]. rewrite stable_insert_after by exact F. do 2 f_equal.
  destruct l2 as [|[p' s'] r]; cbn; [reflexivity|]. cbn in H.
  destruct (p <? p')%Z eqn:E; [reflexivity|apply Z.ltb_ge in E; lia].
Qed.

Lemma fifo_insert_sorted p a b q : prio_sorted q -> In (p, a) q -> before (p, a) (p, b) (stable_insert p b q).
Proof.
  unfold prio_sorted. induction q as [|[p' s'] r IH]; intros S I; [destruct I|].
  inversion S as [|? ? Sr Fr]; subst. cbn [stable_insert].
  destruct (p <? p')%Z eqn:E.
  - exfalso. apply Z.ltb_lt in E. destruct I as [I|I]; [inversion I; lia|].
    rewrite Forall_forall in Fr. apply Fr in I. unfold prio_le in I; cbn in I. lia.
  - cbn. destruct I as [I|I]; [left; split; [exact I|apply in_stable_insert; left; reflexivity]|].
    right. apply IH; assumption.
Qed.

Lemma pop_is_most_urgent q p c sg q' : qwf q -> q_pop q = Some ((p, c, sg), q') ->
  forall p' c' sg', In (p', c', sg') (eq_entries q') -> (p < p')%Z \/ (p = p' /\ c < c').
Proof.
  intros Wq P p' c' sg' I. apply (proj1 (entry_lt_spec (p, c, sg) (p', c', sg'))), (q_pop_least _ _ _ Wq P _ I).
Qed.

Section Order.
  Context {U : Type}.
  Variable code : nat -> signal -> nat -> prog U.

  Lemma chk_C01_ok (s : lstate U) e : link s -> ev_ok s e -> chk_C01 (W s) e = true.
  Proof.
    intros L E. destruct e; try reflexivity; destruct E as [(p & c & sg & q' & P & ->) _]; cbn [chk_C01];
      destruct (link_pop_sig_rec _ _ _ _ _ _ L P) as (_ & _ & ->); apply Nat.eqb_refl.
  Qed.

  Theorem dispatch_order : forall fuel acts (u : U),
    ok_C01 (rev (trace (snd (run_session code fuel acts (init_state u))))) = true.
  Proof. apply session_ok. exact chk_C01_ok. Qed.
End Order.

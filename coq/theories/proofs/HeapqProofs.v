(* HeapqProofs.v — CPython's heapq (Heapq.v: the exact "bubble the hole down to a leaf, then _siftdown"
   variant of _siftup) keeps the heap invariant, permutes its content, pops a least element, never runs out of
   fuel and never indexes out of range; hence it refines the abstract queue of LoopSem.v (q_put / q_pop). *)
From SL Require Import Tac.
From Coq Require Import Permutation.
From RecordUpdate Require Import RecordUpdate.
Require Import SL.LoopSem SL.Heapq SL.proofs.LoopLink.
Import ListNotations.

Local Notation parent i := ((i - 1) / 2).

(* [ord]: every fact about [entry_lt] becomes its arithmetic reading ([entry_lt_spec]), then lia *)
Ltac ord :=
  repeat match goal with
  | H : entry_lt _ _ = true |- _ => apply entry_lt_spec in H
  | H : entry_lt _ _ = false |- _ => apply entry_lt_false in H
  end;
  rewrite ?entry_lt_spec, ?entry_lt_false; lia.

Lemma entry_lt_irrefl a : entry_lt a a = false.
Proof. ord. Qed.

(* The parent index under a name: lia then leaves the division alone; these two facts are all it needs.  Every
   statement below is written with [par]; [heap_inv], which the theorems quote, spells it out, as
   does the model's loop (the [change] in [siftdown_loop_done]). *)
Definition par (i : nat) : nat := parent i.

Lemma par_lt i : 0 < i -> par i < i.
Proof. unfold par. lia. Qed.

Lemma par_child c p : 0 < c -> par c = p <-> c = 2 * p + 1 \/ c = 2 * p + 2.
Proof. unfold par. lia. Qed.

Lemma hset_length h : forall n x, length (hset h n x) = length h.
Proof. induction h as [|a r IH]; intros [|n] x; cbn [hset length]; auto. Qed.

Lemma nth_error_hset h : forall n x m, n < length h ->
  nth_error (hset h n x) m = if m =? n then Some x else nth_error h m.
Proof.
  induction h as [|a r IH]; intros [|n] x [|m] L; cbn [hset nth_error length Nat.eqb] in *; try lia; auto.
  apply IH. lia.
Qed.

Lemma nth_error_in_range {A} (l : list A) n : n < length l -> exists a, nth_error l n = Some a.
Proof.
  intros L. destruct (nth_error l n) as [a|] eqn:E; [eauto|]. apply nth_error_None in E. lia.
Qed.

Lemma nth_error_lt {A} (l : list A) n a : nth_error l n = Some a -> n < length l.
Proof. intros E. apply nth_error_Some. congruence. Qed.

Lemma hset_same h : forall n a, nth_error h n = Some a -> hset h n a = h.
Proof.
  induction h as [|b r IH]; intros [|n] a E; cbn [hset nth_error] in *; try discriminate.
  - congruence.
  - f_equal. apply IH, E.
Qed.

Lemma hset_hset h : forall n x y, hset (hset h n x) n y = hset h n y.
Proof. induction h as [|b r IH]; intros [|n] x y; cbn [hset]; auto. f_equal. apply IH. Qed.

Lemma hset_perm_cons h : forall n a x, nth_error h n = Some a -> Permutation (x :: h) (a :: hset h n x).
Proof.
  induction h as [|b r IH]; intros [|n] a x E; cbn [hset nth_error] in *; try discriminate.
  - injection E as ->. apply perm_swap.
  - etransitivity; [apply perm_swap|]. etransitivity; [apply perm_skip, (IH n a x E)|]. apply perm_swap.
Qed.

(* moving the hole: (h with v copied to pos, x at pp) is (h with x at pos) when h[pp] = v *)
Lemma hset_swap_perm h pos pp v x : pos < length h -> nth_error h pp = Some v -> pp <> pos ->
  Permutation (hset (hset h pos v) pp x) (hset h pos x).
Proof.
  intros L Ev N. destruct (nth_error_in_range h pos L) as [s Es].
  set (h1 := hset h pos v).
  assert (A : Permutation (x :: h) (s :: hset h pos x)) by (apply hset_perm_cons, Es).
  assert (B : Permutation (v :: h) (s :: h1)) by (apply hset_perm_cons, Es).
  assert (E1 : nth_error h1 pp = Some v).
  { unfold h1. rewrite nth_error_hset by exact L. destruct (pp =? pos) eqn:E; [lia|exact Ev]. }
  assert (C : Permutation (x :: h1) (v :: hset h1 pp x)) by (apply hset_perm_cons, E1).
  apply Permutation_cons_inv with (a := s). apply Permutation_cons_inv with (a := v).
  etransitivity; [apply perm_swap|].
  etransitivity; [apply perm_skip, Permutation_sym, C|].
  etransitivity; [apply perm_swap|].
  etransitivity; [apply perm_skip, Permutation_sym, B|].
  etransitivity; [apply perm_swap|].
  apply perm_skip, A.
Qed.

Lemma hset_edge h pos v i a b : pos < length h -> 0 < i ->
  nth_error (hset h pos v) i = Some a -> nth_error (hset h pos v) (par i) = Some b ->
  (i = pos /\ a = v /\ nth_error h (par i) = Some b) \/
  (par i = pos /\ b = v /\ nth_error h i = Some a) \/
  (i <> pos /\ par i <> pos /\ nth_error h i = Some a /\ nth_error h (par i) = Some b).
Proof.
  intros L Hi Ea Eb. pose proof (par_lt i Hi). rewrite nth_error_hset in Ea, Eb by exact L.
  destruct (i =? pos) eqn:E1; destruct (par i =? pos) eqn:E2; [lia|left|right; left|right; right].
  - injection Ea as <-. repeat split; [lia|exact Eb].
  - injection Eb as <-. repeat split; [lia|exact Ea].
  - repeat split; [lia|lia|exact Ea|exact Eb].
Qed.

Definition heap_inv (h : list entry) : Prop :=
  forall i a b, 0 < i -> nth_error h i = Some a -> nth_error h (parent i) = Some b -> entry_lt a b = false.

Lemma heap_inv_nil : heap_inv [].
Proof. intros [|i] a b _ E; discriminate. Qed.

Lemma heap_root_least h m : heap_inv h -> nth_error h 0 = Some m ->
  forall i e, nth_error h i = Some e -> entry_lt e m = false.
Proof.
  intros H E0 i. induction i as [i IH] using lt_wf_ind. intros e Ei.
  destruct (Nat.eq_dec i 0) as [->|Ni].
  - rewrite E0 in Ei. injection Ei as ->. apply entry_lt_irrefl.
  - assert (Lp : par i < i) by (apply par_lt; lia).
    destruct (nth_error_in_range h (par i)) as [b Eb]; [apply nth_error_lt in Ei; lia|].
    pose proof (IH _ Lp b Eb) as H1.
    pose proof (H i e b ltac:(lia) Ei Eb) as H2. ord.
Qed.

(* h is a heap once node pos is cut out and its children are hung below its parent: every edge that does not touch
   pos is in order, and so is every child of pos with the parent of pos.  What h holds at pos does not matter. *)
Definition hole (h : list entry) (pos : nat) : Prop :=
  (forall i a b, 0 < i -> i <> pos -> par i <> pos -> nth_error h i = Some a -> nth_error h (par i) = Some b ->
                 entry_lt a b = false) /\
  (forall c a b, 0 < c -> par c = pos -> 0 < pos -> nth_error h c = Some a ->
                 nth_error h (par pos) = Some b -> entry_lt a b = false).
(* x may stand above the children of pos *)
Definition fits (h : list entry) (pos : nat) (x : entry) : Prop :=
  forall c a, 0 < c -> par c = pos -> nth_error h c = Some a -> entry_lt a x = false.

Lemma fits_leaf h pos x : length h <= 2 * pos + 1 -> fits h pos x.
Proof. intros Leaf c a Hc Pc Ea. apply nth_error_lt in Ea. apply par_child in Pc; [lia|exact Hc]. Qed.

Lemma hole_hset h pos v : pos < length h -> hole h pos -> hole (hset h pos v) pos.
Proof.
  intros L (H1 & H2). split.
  - intros i a b Hi N1 N2 Ea Eb. rewrite nth_error_hset in Ea, Eb by exact L.
    destruct (i =? pos) eqn:E1; [lia|]. destruct (par i =? pos) eqn:E2; [lia|]. exact (H1 i a b Hi N1 N2 Ea Eb).
  - intros c a b Hc Pc P0 Ea Eb. pose proof (par_lt c Hc). pose proof (par_lt pos P0).
    rewrite nth_error_hset in Ea, Eb by exact L.
    destruct (c =? pos) eqn:E1; [lia|]. destruct (par pos =? pos) eqn:E2; [lia|]. exact (H2 c a b Hc Pc P0 Ea Eb).
Qed.

(* the hole moves up: its parent's item p comes down into it *)
Lemma hole_up h pos p x : pos < length h -> 0 < pos -> hole h pos -> nth_error h (par pos) = Some p ->
  hole (hset h pos p) (par pos) /\ (entry_lt x p = true -> fits (hset h pos p) (par pos) x).
Proof.
  intros L P0 (H1 & H2) Ep. pose proof (par_lt pos P0) as Lp.
  (* the new hole's children are the old hole, now holding p, and its sibling, which was below p *)
  assert (Hc : forall c a, 0 < c -> par c = par pos -> nth_error (hset h pos p) c = Some a -> entry_lt a p = false).
  { intros c a Hc Pc Ea. rewrite nth_error_hset in Ea by exact L. destruct (c =? pos) eqn:E1.
    - injection Ea as <-. apply entry_lt_irrefl.
    - apply (H1 c a p); [exact Hc|lia|lia|exact Ea|rewrite Pc; exact Ep]. }
  split; [split|].
  - intros i a b Hi N1 N2 Ea Eb.
    destruct (hset_edge _ _ _ _ _ _ L Hi Ea Eb) as [(-> & _)|[(Pi & -> & Ea')|(N3 & N4 & Ea' & Eb')]].
    + congruence.
    + eapply (H2 i a p); eauto.
    + eapply H1; eauto.
  - intros c a b Hc' Pc Pp Ea Eb. pose proof (Hc c a Hc' Pc Ea). pose proof (par_lt _ Pp).
    rewrite nth_error_hset in Eb by exact L. destruct (par (par pos) =? pos) eqn:E2; [lia|].
    pose proof (H1 (par pos) p b Pp ltac:(lia) ltac:(lia) Ep Eb). ord.
  - intros Lx c a Hc' Pc Ea. pose proof (Hc c a Hc' Pc Ea). ord.
Qed.

Lemma hole_fill h pos x : pos < length h -> hole h pos -> fits h pos x ->
  (pos = 0 \/ exists p, nth_error h (par pos) = Some p /\ entry_lt x p = false) ->
  heap_inv (hset h pos x).
Proof.
  intros L (H1 & H2) F Hx i a b Hi Ea Eb.
  destruct (hset_edge _ _ _ _ _ _ L Hi Ea Eb) as [(-> & -> & Eb')|[(Pi & -> & Ea')|(N1 & N2 & Ea' & Eb')]].
  - destruct Hx as [->|(p & Ep & Lp)]; [lia|]. rewrite Ep in Eb'. injection Eb' as <-. exact Lp.
  - eapply F; eauto.
  - eapply H1; eauto.
Qed.

(* the loop of _siftdown ends, permutes, and closes a hole above which the item fits *)
Lemma siftdown_loop_done : forall fuel h pos x, pos < fuel -> pos < length h ->
  exists h', siftdown_loop fuel h 0 pos x = Done h' /\ Permutation h' (hset h pos x) /\
             (hole h pos -> fits h pos x -> heap_inv h').
Proof.
  induction fuel as [|f IH]; intros h pos x Lf L; [lia|].
  cbn [siftdown_loop]. change (parent pos) with (par pos). destruct (0 <? pos) eqn:E0.
  - apply Nat.ltb_lt in E0. pose proof (par_lt pos E0).
    destruct (nth_error_in_range h (par pos)) as [p Ep]; [lia|]. rewrite Ep.
    destruct (entry_lt x p) eqn:Lx.
    + destruct (IH (hset h pos p) (par pos) x) as (h' & E & P & Hi); [lia|rewrite hset_length; lia|].
      exists h'. split; [exact E|]. split.
      * etransitivity; [exact P|]. apply hset_swap_perm; [exact L|exact Ep|lia].
      * intros I F. destruct (hole_up h pos p x L E0 I Ep) as [I' F']. exact (Hi I' (F' Lx)).
    + eexists; split; [reflexivity|]. split; [reflexivity|].
      intros I F. apply hole_fill; [exact L|exact I|exact F|]. right. eauto.
  - apply Nat.ltb_ge in E0. eexists; split; [reflexivity|]. split; [reflexivity|].
    intros I F. apply hole_fill; [exact L|exact I|exact F|]. left. lia.
Qed.

Lemma siftdown_done h pos x : nth_error h pos = Some x ->
  exists h', siftdown h 0 pos = Done h' /\ Permutation h' h /\ (hole h pos -> fits h pos x -> heap_inv h').
Proof.
  intros Ex. pose proof (nth_error_lt _ _ _ Ex) as L. unfold siftdown. rewrite Ex.
  destruct (siftdown_loop_done (length h) h pos x L L) as (h' & E & P & Hi).
  exists h'. rewrite (hset_same _ _ _ Ex) in P. auto.
Qed.

Lemma nth_error_snoc_last {A} (l : list A) x : nth_error (l ++ [x]) (length l) = Some x.
Proof. rewrite nth_error_app2 by lia. rewrite Nat.sub_diag. reflexivity. Qed.

Lemma heappush_res_done h e :
  exists h', heappush_res h e = Done h' /\ Permutation h' (e :: h) /\ (heap_inv h -> heap_inv h').
Proof.
  unfold heappush_res.
  assert (El : length (h ++ [e]) = S (length h)) by (rewrite app_length; cbn [length]; lia).
  rewrite El, Nat.sub_1_r. cbn [pred].
  destruct (siftdown_done (h ++ [e]) (length h) e (nth_error_snoc_last h e)) as (h' & E & P & Hi).
  exists h'. split; [exact E|]. split; [etransitivity; [exact P|]; apply Permutation_sym, Permutation_cons_append|].
  intros H. apply Hi; [|apply fits_leaf; rewrite El; lia]. split.
  - intros i a b Hi' N1 N2 Ea Eb. assert (Li : i < length h) by (apply nth_error_lt in Ea; rewrite El in Ea; lia).
    pose proof (par_lt i Hi'). rewrite nth_error_app1 in Ea, Eb by lia. eapply H; eauto.
  - intros c a b Hc Pc _ Ea _. apply nth_error_lt in Ea. rewrite El in Ea. apply par_child in Pc; [lia|exact Hc].
Qed.

Lemma heappush_eq h e h' : heappush_res h e = Done h' -> heappush h e = h'.
Proof. unfold heappush. intros ->. reflexivity. Qed.

Lemma heappush_perm h e : Permutation (heappush h e) (e :: h).
Proof. destruct (heappush_res_done h e) as (h' & E & P & _). rewrite (heappush_eq _ _ _ E). exact P. Qed.

Lemma heappush_inv h e : heap_inv h -> heap_inv (heappush h e).
Proof. destruct (heappush_res_done h e) as (h' & E & _ & Hi). rewrite (heappush_eq _ _ _ E). exact Hi. Qed.

(* "set childpos to index of smaller child" *)
Definition smaller_of (h : list entry) (pos endpos : nat) : hres nat :=
  if (2 * pos + 1 + 1 <? endpos) then
    match nth_error h (2 * pos + 1), nth_error h (2 * pos + 1 + 1) with
    | Some l, Some r => Done (if negb (entry_lt l r) then 2 * pos + 1 + 1 else 2 * pos + 1)
    | _, _ => IndexError
    end
  else Done (2 * pos + 1).

Lemma siftup_loop_S f h pos endpos :
  siftup_loop (S f) h pos endpos =
  if (2 * pos + 1 <? endpos) then
    match smaller_of h pos endpos with
    | Done c => match nth_error h c with
                | None => IndexError
                | Some child => siftup_loop f (hset h pos child) c endpos
                end
    | IndexError => IndexError
    | OutOfFuel => OutOfFuel
    end
  else Done (h, pos).
Proof. reflexivity. Qed.

Lemma smaller_of_done h pos : 2 * pos + 1 < length h ->
  exists c cv, smaller_of h pos (length h) = Done c /\ nth_error h c = Some cv /\
    (c = 2 * pos + 1 \/ c = 2 * pos + 2) /\
    (forall s a, s = 2 * pos + 1 \/ s = 2 * pos + 2 -> nth_error h s = Some a -> entry_lt a cv = false).
Proof.
  intros L. unfold smaller_of. destruct (nth_error_in_range h (2 * pos + 1) L) as [l El].
  destruct (2 * pos + 1 + 1 <? length h) eqn:E.
  - apply Nat.ltb_lt in E. destruct (nth_error_in_range h (2 * pos + 1 + 1) E) as [r Er]. rewrite El, Er.
    assert (Hlr : forall s a, s = 2 * pos + 1 \/ s = 2 * pos + 2 -> nth_error h s = Some a -> a = l \/ a = r).
    { intros s a [->| ->] Ea; [left|right; replace (2 * pos + 2) with (2 * pos + 1 + 1) in Ea by lia]; congruence. }
    destruct (entry_lt l r) eqn:Llr; cbn [negb].
    + exists (2 * pos + 1), l. split; [reflexivity|]. split; [exact El|]. split; [left; reflexivity|].
      intros s a Hs Ea. destruct (Hlr s a Hs Ea) as [->| ->]; ord.
    + exists (2 * pos + 1 + 1), r. split; [reflexivity|]. split; [exact Er|]. split; [right; lia|].
      intros s a Hs Ea. destruct (Hlr s a Hs Ea) as [->| ->]; ord.
  - apply Nat.ltb_ge in E. exists (2 * pos + 1), l. split; [reflexivity|]. split; [exact El|].
    split; [left; reflexivity|]. intros s a [->| ->] Ea; [|apply nth_error_lt in Ea; lia].
    rewrite El in Ea. injection Ea as <-. apply entry_lt_irrefl.
Qed.

(* the hole moves down: the item cv of its smaller child c comes up into it *)
Lemma hole_down h pos c cv : pos < length h -> hole h pos -> nth_error h c = Some cv ->
  (c = 2 * pos + 1 \/ c = 2 * pos + 2) ->
  (forall s a, s = 2 * pos + 1 \/ s = 2 * pos + 2 -> nth_error h s = Some a -> entry_lt a cv = false) ->
  hole (hset h pos cv) c.
Proof.
  intros L (H1 & H2) Ec Hc Hs.
  assert (C0 : 0 < c) by lia. assert (Pc : par c = pos) by (apply par_child; assumption).
  split.
  - intros i a b Hi N1 N2 Ea Eb.
    destruct (hset_edge _ _ _ _ _ _ L Hi Ea Eb) as [(-> & -> & Eb')|[(Pi & -> & Ea')|(N3 & N4 & Ea' & Eb')]].
    + apply (H2 c cv b); assumption.
    + apply (Hs i a); [apply par_child; assumption|exact Ea'].
    + eapply H1; eauto.
  - intros g a b Hg Pg _ Ea Eb. pose proof (par_lt g Hg).
    rewrite Pc, nth_error_hset, Nat.eqb_refl in Eb by exact L. injection Eb as <-.
    rewrite nth_error_hset in Ea by exact L. destruct (g =? pos) eqn:E1; [lia|].
    apply (H1 g a cv); [exact Hg|lia|lia|exact Ea|rewrite Pg; exact Ec].
Qed.

(* the loop of _siftup ends at a leaf, moves no item but along its path, and takes the hole with it *)
Lemma siftup_loop_done : forall fuel h pos x, pos < length h -> length h <= pos + fuel ->
  exists h' p, siftup_loop fuel h pos (length h) = Done (h', p) /\ p < length h /\ length h' = length h /\
    length h <= 2 * p + 1 /\ Permutation (hset h' p x) (hset h pos x) /\ (hole h pos -> hole h' p).
Proof.
  induction fuel as [|f IH]; intros h pos x L Lf; [lia|].
  rewrite siftup_loop_S. destruct (2 * pos + 1 <? length h) eqn:E.
  - apply Nat.ltb_lt in E. destruct (smaller_of_done h pos E) as (c & cv & Es & Ec & Hc & Hs).
    rewrite Es, Ec.
    assert (Lc : c < length h) by (eapply nth_error_lt, Ec).
    destruct (IH (hset h pos cv) c x) as (h' & p & E1 & Lp & Ll & Leaf & P & Hi);
      [rewrite hset_length; exact Lc|rewrite hset_length; lia|].
    rewrite hset_length in *. exists h', p. split; [exact E1|]. repeat (split; [assumption|]). split.
    + etransitivity; [exact P|]. apply hset_swap_perm; [exact L|exact Ec|lia].
    + intros J. apply Hi, hole_down; assumption.
  - apply Nat.ltb_ge in E. exists h, pos. split; [reflexivity|]. split; [exact L|]. split; [reflexivity|].
    split; [exact E|]. split; [reflexivity|exact (fun J => J)].
Qed.

Lemma siftup_done h : h <> [] ->
  exists h', siftup h 0 = Done h' /\ Permutation h' h /\ (hole h 0 -> heap_inv h').
Proof.
  intros N. assert (L : 0 < length h) by (destruct h; [congruence|cbn [length]; lia]).
  unfold siftup. destruct (nth_error_in_range h 0 L) as [x Ex]. rewrite Ex.
  destruct (siftup_loop_done (length h) h 0 x L ltac:(lia)) as (h1 & p & E1 & Lp & Ll & Leaf & P & J1).
  rewrite E1. rewrite (hset_same _ _ _ Ex) in P.
  destruct (siftdown_done (hset h1 p x) p x) as (h2 & E2 & P2 & Hi);
    [rewrite nth_error_hset by lia; rewrite Nat.eqb_refl; reflexivity|].
  exists h2. split; [exact E2|]. split; [etransitivity; [exact P2|exact P]|].
  intros J. apply Hi; [apply hole_hset; [lia|exact (J1 J)] | apply fits_leaf; rewrite hset_length; lia].
Qed.

Lemma heappop_res_cases h :
  (h = [] /\ heappop_res h = IndexError) \/
  (exists l, h = [l] /\ heappop_res h = Done (l, [])) \/
  (exists r0 t l h3, h = r0 :: t ++ [l] /\ Permutation h3 (l :: t) /\ (hole (l :: t) 0 -> heap_inv h3) /\
                     heappop_res h = Done (r0, h3)).
Proof.
  destruct h as [|e0 t0]; [left; split; reflexivity|right].
  unfold heappop_res.
  assert (A : e0 :: t0 = removelast (e0 :: t0) ++ [last (e0 :: t0) e0]) by (apply app_removelast_last; discriminate).
  set (l := last (e0 :: t0) e0) in *. set (h1 := removelast (e0 :: t0)) in *. clearbody l h1.
  destruct h1 as [|r0 t].
  - left. exists l. split; [exact A|reflexivity].
  - right. cbn [hset]. destruct (siftup_done (l :: t)) as (h3 & E & P & Hi); [discriminate|].
    exists r0, t, l, h3. rewrite E. repeat split; assumption.
Qed.

Lemma heappop_none h : heappop h = None <-> h = [].
Proof.
  unfold heappop.
  destruct (heappop_res_cases h) as [(-> & E)|[(l & -> & E)|(r0 & t & l & h3 & -> & _ & _ & E)]]; rewrite E;
    split; intros H; try reflexivity; discriminate.
Qed.

Lemma heappop_res_done h : h <> [] -> exists r, heappop_res h = Done r.
Proof.
  intros N. destruct (heappop_res_cases h) as [(-> & _)|[(l & _ & E)|(r0 & t & l & h3 & _ & _ & _ & E)]];
    [congruence|eauto|eauto].
Qed.

Lemma heappop_some h m h' : heappop h = Some (m, h') ->
  (h = [m] /\ h' = []) \/
  (exists t l, h = m :: t ++ [l] /\ Permutation h' (l :: t) /\ (hole (l :: t) 0 -> heap_inv h')).
Proof.
  unfold heappop.
  destruct (heappop_res_cases h) as [(-> & E)|[(l & -> & E)|(r0 & t & l & h3 & -> & P & Hi & E)]]; rewrite E;
    intros [= <- <-]; [left; split; reflexivity|right; eauto].
Qed.

Lemma heappop_root h m h' : heappop h = Some (m, h') -> nth_error h 0 = Some m.
Proof. intros H. destruct (heappop_some _ _ _ H) as [(-> & _)|(t & l & -> & _)]; reflexivity. Qed.

Lemma heappop_perm h m h' : heappop h = Some (m, h') -> Permutation h (m :: h').
Proof.
  intros H. destruct (heappop_some _ _ _ H) as [(-> & ->)|(t & l & -> & P & _)]; [reflexivity|].
  apply perm_skip. etransitivity; [apply Permutation_sym, Permutation_cons_append|]. apply Permutation_sym, P.
Qed.

Lemma heappop_inv h m h' : heap_inv h -> heappop h = Some (m, h') -> heap_inv h'.
Proof.
  intros Hh H. destruct (heappop_some _ _ _ H) as [(-> & ->)|(t & l & -> & _ & Hh3)]; [apply heap_inv_nil|].
  apply Hh3. split; [|intros; lia].
  (* an edge that does not end at the root is an edge of the old heap *)
  intros i a b Hi _ Ni Ea Eb.
  destruct i as [|i]; [lia|]. destruct (par (S i)) as [|j] eqn:Ej; [congruence|].
  cbn [nth_error] in Ea, Eb.
  apply (Hh (S i) a b); [lia| |fold (par (S i)); rewrite Ej]; cbn [nth_error];
    rewrite nth_error_app1; eauto using nth_error_lt.
Qed.

Lemma heappop_min h m h' : heap_inv h -> heappop h = Some (m, h') ->
  forall e, In e h' -> entry_lt e m = false.
Proof.
  intros Hh H e He.
  assert (Ih : In e h) by (eapply Permutation_in; [apply Permutation_sym, heappop_perm, H|right; exact He]).
  apply In_nth_error in Ih. destruct Ih as [i Ei].
  eapply heap_root_least; [exact Hh|eapply heappop_root, H|exact Ei].
Qed.

Lemma heap_refines h q m h' : heap_inv h -> Permutation h (eq_entries q) -> qwf q ->
  heappop h = Some (m, h') ->
  exists q', q_pop q = Some (m, q') /\ Permutation h' (eq_entries q').
Proof.
  intros Hh P Wq H.
  destruct (q_pop q) as [[m' q']|] eqn:Eq.
  2:{ apply q_pop_none in Eq. rewrite Eq in P. apply Permutation_sym, Permutation_nil in P. subst h.
      assert (E : heappop [] = None) by (apply heappop_none; reflexivity). congruence. }
  destruct (q_pop_sorted _ _ _ Wq Eq) as (_ & Pq & _ & _).
  assert (PP : Permutation (m :: h') (m' :: eq_entries q')).
  { etransitivity; [apply Permutation_sym, heappop_perm, H|]. etransitivity; [exact P|exact Pq]. }
  assert (Em : m' = m).
  { assert (Im : In m (m' :: eq_entries q')) by (eapply Permutation_in; [exact PP|left; reflexivity]).
    assert (Ih : In m' (m :: h')) by (eapply Permutation_in; [apply Permutation_sym, PP|left; reflexivity]).
    destruct Im as [Im|Im]; [exact Im|]. destruct Ih as [Ih|Ih]; [symmetry; exact Ih|exfalso].
    (* m' is strictly below m, which stays in the queue; m is below nothing in h' *)
    pose proof (q_pop_least _ _ _ Wq Eq m Im) as F. rewrite (heappop_min _ _ _ Hh H m' Ih) in F. discriminate F. }
  subst m'. exists q'. split; [reflexivity|]. exact (Permutation_cons_inv PP).
Qed.

Lemma heap_refines_none h q : Permutation h (eq_entries q) -> (heappop h = None <-> q_pop q = None).
Proof.
  intros P. rewrite heappop_none. split.
  - intros ->. apply Permutation_nil in P. unfold q_pop. rewrite P. reflexivity.
  - intros E. apply q_pop_none in E. rewrite E in P. apply Permutation_sym, Permutation_nil in P. exact P.
Qed.

Lemma heap_refines_put h q s : Permutation h (eq_entries q) ->
  Permutation (heappush h (sg_prio s, eq_counter q, s)) (eq_entries (q_put q s)).
Proof.
  intros P. etransitivity; [apply heappush_perm|]. unfold q_put. cbn [eq_entries set].
  etransitivity; [apply perm_skip, P|]. apply Permutation_cons_append.
Qed.

Lemma run_refines : forall ops h q, heap_inv h -> Permutation h (eq_entries q) -> qwf q ->
  run_heap ops h (eq_counter q) = run_abs ops q.
Proof.
  induction ops as [|[s|] r IH]; intros h q Hh P Wq; cbn [run_heap run_abs]; [reflexivity| |].
  - change (S (eq_counter q)) with (eq_counter (q_put q s)).
    apply IH; [apply heappush_inv, Hh|apply heap_refines_put, P|apply q_put_qwf, Wq].
  - destruct (heappop h) as [[m h']|] eqn:E.
    + destruct (heap_refines _ _ _ _ Hh P Wq E) as (q' & Eq & P').
      rewrite Eq. f_equal.
      destruct (q_pop_sorted _ _ _ Wq Eq) as (_ & _ & Ec & _). rewrite <- Ec.
      apply IH; [eapply heappop_inv; eauto|exact P'|eapply q_pop_qwf; eauto].
    + apply (heap_refines_none _ _ P) in E. rewrite E. f_equal. apply IH; assumption.
Qed.

Inductive heap_reachable : list entry -> Prop :=
| hr_nil : heap_reachable []
| hr_push h e : heap_reachable h -> heap_reachable (heappush h e)
| hr_pop h m h' : heap_reachable h -> heappop h = Some (m, h') -> heap_reachable h'.

Lemma heap_reachable_inv h : heap_reachable h -> heap_inv h.
Proof.
  induction 1 as [|h e _ IH|h m h' _ IH E]; [apply heap_inv_nil|apply heappush_inv, IH|eapply heappop_inv; eauto].
Qed.

Lemma heappush_res_ok h e : heappush_res h e = Done (heappush h e).
Proof. destruct (heappush_res_done h e) as (h' & E & _). rewrite (heappush_eq _ _ _ E). exact E. Qed.

Lemma heappop_res_ok h : h <> [] -> exists m h', heappop_res h = Done (m, h') /\ heappop h = Some (m, h').
Proof.
  intros N. destruct (heappop_res_done h N) as [[m h'] E]. exists m, h'. split; [exact E|].
  unfold heappop. rewrite E. reflexivity.
Qed.

Lemma siftdown_fuel_ok h pos x : pos < length h ->
  siftdown_loop (length h) h 0 pos x <> OutOfFuel /\ siftdown_loop (length h) h 0 pos x <> IndexError.
Proof.
  intros L. destruct (siftdown_loop_done (length h) h pos x L L) as (h' & E & _). rewrite E.
  split; discriminate.
Qed.

Lemma siftup_fuel_ok h : h <> [] ->
  siftup_loop (length h) h 0 (length h) <> OutOfFuel /\ siftup_loop (length h) h 0 (length h) <> IndexError /\
  siftup h 0 <> OutOfFuel /\ siftup h 0 <> IndexError.
Proof.
  intros N. assert (L : 0 < length h) by (destruct h; [congruence|cbn [length]; lia]).
  destruct (nth_error_in_range h 0 L) as [x Ex].
  destruct (siftup_loop_done (length h) h 0 x L ltac:(lia)) as (h1 & p & E1 & _).
  destruct (siftup_done h N) as (h2 & E2 & _). rewrite E1, E2. repeat split; discriminate.
Qed.

(* ContainersGeom.v — C13: where a list container draws every item (closed form of the two
   loops of ListRowContainer.render: the fold of [draw_item] over [all_placements]) and that the rectangles of
   different items are disjoint. *)
From SL Require Import Tac.
From SL Require Import PyInt Widget TextWrap KeyPattern Containers proofs.ContainersProofs proofs.ContainersLayout.
Import ListNotations.

(* the first line of row r: the sum of the heights of the rows above *)
Definition rowstart (lpr : list nat) (r : nat) : nat := list_sum (firstn r lpr).

Lemma rowstart_0 lpr : rowstart lpr 0 = 0.
Proof. reflexivity. Qed.

Lemma rowstart_S lpr : forall r, rowstart lpr (S r) = rowstart lpr r + nth r lpr 0.
Proof.
  unfold rowstart. induction lpr as [|x l IH]; intros r.
  - destruct r; reflexivity.
  - destruct r as [|r].
    + cbn. lia.
    + change (firstn (S (S r)) (x :: l)) with (x :: firstn (S r) l).
      change (firstn (S r) (x :: l)) with (x :: firstn r l).
      change (nth (S r) (x :: l) 0) with (nth r l 0).
      change (list_sum (x :: firstn (S r) l)) with (x + list_sum (firstn (S r) l)).
      change (list_sum (x :: firstn r l)) with (x + list_sum (firstn r l)).
      rewrite IH. lia.
Qed.

Lemma rowstart_mono lpr r r' : r <= r' -> rowstart lpr r <= rowstart lpr r'.
Proof.
  induction 1 as [|r' Hle IH]; [lia|]. rewrite rowstart_S. lia.
Qed.

(* one step of the inner loop: label at (row_pos, col_pos), item right of it (block mode) *)
Definition draw_item (rendered : list (buffer * option (buffer * nat))) (b : buffer) (p : nat * (nat * nat)) : buffer :=
  let '(ib, lab) := nth (fst p) rendered ([], None) in
  match lab with
  | Some (lb, lw) => fst (draw (fst (draw b (fst (snd p)) (snd (snd p)) false lb)) (fst (snd p)) (snd (snd p) + lw) true ib)
  | None => fst (draw b (fst (snd p)) (snd (snd p)) true ib)
  end.

(* (item, (first row, first column)) for the items of one column / of the whole map *)
Fixpoint col_placements (col : list nat) (row_id : nat) (lpr : list nat) (cp : nat) : list (nat * (nat * nat)) :=
  match col with
  | [] => []
  | i :: r => (i, (rowstart lpr row_id, cp)) :: col_placements r (S row_id) lpr cp
  end.

Fixpoint all_placements (omap : list (list nat)) (lpr : list nat) (k pitch : nat) : list (nat * (nat * nat)) :=
  match omap with
  | [] => []
  | col :: r => col_placements col 0 lpr (k * pitch) ++ all_placements r lpr (S k) pitch
  end.

Lemma draw_list_col_fold rendered lpr cp : forall col row_id b,
  draw_list_col col row_id rendered lpr b (rowstart lpr row_id) cp =
  fold_left (draw_item rendered) (col_placements col row_id lpr cp) b.
Proof.
  induction col as [|i col IH]; intros row_id b; cbn [draw_list_col col_placements fold_left]; [reflexivity|].
  rewrite <- rowstart_S. unfold draw_item at 2. cbn [fst snd].
  destruct (nth i rendered ([], None)) as [ib [[lb lw]|]]; apply IH.
Qed.

(* the closed form of the whole drawing: column k starts at k * (columns_width + spacing) *)
Lemma draw_list_cols_fold rendered lpr cw s :
  (0 <= cw)%Z -> (0 <= s)%Z -> Forall (item_fits (Z.to_nat cw)) rendered ->
  forall omap b k, (Z.of_nat (buf_width b) <= Z.max 0 (Z.of_nat k * (cw + s) - s))%Z ->
  draw_list_cols omap rendered lpr cw s b (Z.of_nat k * (cw + s))%Z =
  ROk (fold_left (draw_item rendered) (all_placements omap lpr k (Z.to_nat (cw + s))) b).
Proof.
  intros Hcw Hs Hf. induction omap as [|col omap IH]; intros b k Hb; cbn [draw_list_cols all_placements].
  - reflexivity.
  - assert (Hk : (0 <= Z.of_nat k * (cw + s))%Z) by (apply Z.mul_nonneg_nonneg; lia).
    unfold nat_of_Z. destruct (_ <? 0)%Z eqn:E; [lia|]. cbn [bind].
    assert (Hcp : Z.to_nat (Z.of_nat k * (cw + s)) = k * Z.to_nat (cw + s)).
    { rewrite Z2Nat.inj_mul, Nat2Z.id by lia. reflexivity. }
    rewrite Hcp. pose proof (draw_list_col_fold rendered lpr (k * Z.to_nat (cw + s)) col 0 b) as Hfold.
    change (rowstart lpr 0) with 0 in Hfold. rewrite !Hfold.
    set (b' := fold_left (draw_item rendered) (col_placements col 0 lpr (k * Z.to_nat (cw + s))) b).
    assert (Hb' : buf_width b' <= Z.to_nat (Z.of_nat k * (cw + s) + cw)).
    { unfold b'. rewrite <- Hfold.
      apply draw_list_col_width with (cwn := Z.to_nat cw); [exact Hf|lia|lia]. }
    replace (Z.max (Z.of_nat k * (cw + s) + cw) (Z.of_nat (buf_width b')) + s)%Z
      with (Z.of_nat (S k) * (cw + s))%Z by (rewrite Nat2Z.inj_succ; lia).
    rewrite IH by (rewrite Nat2Z.inj_succ; lia). now rewrite fold_left_app.
Qed.

Lemma in_col_placements lpr cp i rp cp' : forall col r0,
  In (i, (rp, cp')) (col_placements col r0 lpr cp) <->
  exists r, nth_error col r = Some i /\ rp = rowstart lpr (r0 + r) /\ cp' = cp.
Proof.
  induction col as [|x col IH]; intros r0; cbn [col_placements In].
  - split; [tauto|]. intros [[|r] [H _]]; discriminate.
  - rewrite IH. split.
    + intros [H|[r [H1 [H2 H3]]]].
      * injection H as -> <- <-. exists 0. rewrite Nat.add_0_r. now repeat split.
      * exists (S r). replace (r0 + S r) with (S r0 + r) by lia. now repeat split.
    + intros [[|r] [H1 [H2 H3]]]; cbn [nth_error] in H1.
      * left. injection H1 as ->. rewrite Nat.add_0_r in H2. now subst.
      * right. exists r. replace (S r0 + r) with (r0 + S r) by lia. now repeat split.
Qed.

Lemma in_all_placements lpr pitch i rp cp : forall omap k0,
  In (i, (rp, cp)) (all_placements omap lpr k0 pitch) <->
  exists k r, k < length omap /\ nth_error (nth k omap []) r = Some i /\
              rp = rowstart lpr r /\ cp = (k0 + k) * pitch.
Proof.
  induction omap as [|col omap IH]; intros k0; cbn [all_placements].
  - split; [intros []|]. intros [k [r [H _]]]. cbn in H. lia.
  - rewrite in_app_iff, IH, in_col_placements. split.
    + intros [[r [H1 [H2 H3]]]|[k [r [H1 [H2 [H3 H4]]]]]].
      * exists 0, r. cbn [nth length]. rewrite Nat.add_0_r. repeat split; [lia|assumption|assumption|assumption].
      * exists (S k), r. cbn [nth length]. replace (k0 + S k) with (S k0 + k) by lia.
        repeat split; [lia|assumption|assumption|assumption].
    + intros [[|k] [r [H1 [H2 [H3 H4]]]]]; cbn [nth length] in *.
      * left. exists r. rewrite Nat.add_0_r in H4. now repeat split.
      * right. exists k, r. replace (S k0 + k) with (k0 + S k) by lia. repeat split; [lia|assumption|assumption|assumption].
Qed.

(* C13_no_overlap (geometry): the rectangle of the item at (column k, row r) is
     rows    [rowstart r, rowstart r + height of the item)        (within the row's band)
     columns [k * (cw + s), k * (cw + s) + cw)
   and the rectangles at two different grid positions are disjoint *)
Lemma rects_disjoint omap hs cwn pitch k r i k' r' i' :
  k < length omap -> nth_error (nth k omap []) r = Some i ->
  k' < length omap -> nth_error (nth k' omap []) r' = Some i' ->
  (k, r) <> (k', r') -> cwn <= pitch ->
  let lpr := lines_per_every_row omap hs in
  k * pitch + cwn <= k' * pitch \/ k' * pitch + cwn <= k * pitch \/
  rowstart lpr r + nth i hs 0 <= rowstart lpr r' \/ rowstart lpr r' + nth i' hs 0 <= rowstart lpr r.
Proof.
  intros Hk Hi Hk' Hi' Hne Hp lpr.
  assert (Hh : forall k r i, k < length omap -> nth_error (nth k omap []) r = Some i ->
                             rowstart lpr r + nth i hs 0 <= rowstart lpr (S r)).
  { intros k0 r0 i0 Hk0 Hi0. rewrite rowstart_S. apply Nat.add_le_mono_l.
    apply row_height_bounds_item. apply in_row_items. exists (nth k0 omap []). split; [now apply nth_In|exact Hi0]. }
  destruct (Nat.lt_trichotomy k k') as [Hlt|[Heq|Hgt]].
  - left. assert (S k * pitch <= k' * pitch) by (apply Nat.mul_le_mono_r; lia). lia.
  - subst k'. destruct (Nat.lt_trichotomy r r') as [Hlt|[Heq|Hgt]].
    + right. right. left. pose proof (Hh k r i Hk Hi). pose proof (rowstart_mono lpr (S r) r' ltac:(lia)). lia.
    + subst r'. congruence.
    + right. right. right. pose proof (Hh k r' i' Hk' Hi'). pose proof (rowstart_mono lpr (S r') r ltac:(lia)). lia.
  - right. left. assert (S k' * pitch <= k * pitch) by (apply Nat.mul_le_mono_r; lia). lia.
Qed.

Lemma item_inside_rect cwn x :
  item_fits cwn x ->
  length (fst x) <= item_height x /\
  match snd x with
  | Some (lb, lw) => length lb <= item_height x /\ buf_width lb <= lw /\ lw + buf_width (fst x) <= cwn
  | None => buf_width (fst x) <= cwn
  end.
Proof.
  destruct x as [ib [[lb lw]|]]; unfold item_fits, item_height; cbn [fst snd]; lia.
Qed.

Lemma all_placements_empty lpr pitch : forall omap k,
  Forall (fun col : list nat => col = []) omap -> all_placements omap lpr k pitch = [].
Proof.
  induction omap as [|col omap IH]; intros k H; [reflexivity|].
  inversion H as [|? ? H1 H2]; subst. cbn [all_placements col_placements app]. now apply IH.
Qed.

(* what the theorems about a rendered list say of "the rendered items": a list container that renders has rendered
   its items, and [P] holds of them *)
Lemma list_rendered kind columns items forced spacing kp w b (P : list (buffer * option (buffer * nat)) -> Prop) :
  render_tree (WList kind columns items forced spacing kp) w = ROk b ->
  (forall rendered,
     render_all_items render_tree items 0 (list_columns_width columns forced spacing w) kp = ROk rendered -> P rendered) ->
  exists rendered,
    render_all_items render_tree items 0 (list_columns_width columns forced spacing w) kp = ROk rendered /\ P rendered.
Proof.
  intros H HP. rewrite render_tree_eq in H. cbn [render_node] in H. destruct (columns <=? 0)%Z; [discriminate|].
  destruct (render_all_items render_tree items 0 _ kp) as [res| |]; try discriminate. exists res. auto.
Qed.

Lemma render_list_closed_form kind columns items forced spacing kp w b rendered :
  (0 <= spacing)%Z ->
  items_fit items ->
  render_tree (WList kind columns items forced spacing kp) w = ROk b ->
  let cw := list_columns_width columns forced spacing w in
  let omap := ordered_map kind (length items) (Z.to_nat columns) in
  render_all_items render_tree items 0 cw kp = ROk rendered ->
  Forall (item_fits (Z.to_nat cw)) rendered /\
  b = fold_left (draw_item rendered)
        (all_placements omap (lines_per_every_row omap (map item_height rendered)) 0 (Z.to_nat (cw + spacing))) [].
Proof.
  intros Hs Hitems H cw omap Hr. rewrite render_tree_eq in H. cbn [render_node] in H.
  destruct (columns <=? 0)%Z eqn:Ec; [discriminate|]. fold cw omap in H. rewrite Hr in H. cbn [bind] in H.
  pose proof (rendered_items_fit items cw kp rendered Hitems Hr) as Hf. split; [exact Hf|].
  pose proof (render_all_items_spec _ _ _ _ _ _ Hr) as [Hcw _].
  destruct Hcw as [->|Hcw].
  - (* no items: every column of the map is empty and nothing is drawn *)
    apply draw_list_cols_empty in H; [|apply ordered_map_no_items].
    unfold omap. cbn [length]. now rewrite all_placements_empty by apply ordered_map_no_items.
  - pose proof (draw_list_cols_fold rendered (lines_per_every_row omap (map item_height rendered)) cw spacing
                  ltac:(lia) Hs Hf omap [] 0) as Hfold.
    change (Z.of_nat 0 * (cw + spacing))%Z with 0%Z in Hfold.
    rewrite Hfold in H by (cbn; lia). now injection H as <-.
Qed.

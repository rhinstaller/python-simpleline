(* ContainersLayout.v — C13: what the proofs about a list container need of its items ([item_fits],
   [items_fit]) and the class [fit_tree]; the width theorems themselves are in ContainersFinal.v. *)
From SL Require Import Tac proofs.ListFacts.
From SL Require Import PyInt Widget TextWrap KeyPattern Containers
     proofs.WidgetProofs proofs.TextWrapRender proofs.ContainersProofs.
Import ListNotations.

Definition item_fits (cwn : nat) (x : buffer * option (buffer * nat)) : Prop :=
  match snd x with
  | Some (lb, lw) => buf_width lb <= lw /\ lw + buf_width (fst x) <= cwn
  | None => buf_width (fst x) <= cwn
  end.

Lemma nth_item_fits cwn rendered i :
  Forall (item_fits cwn) rendered -> item_fits cwn (nth i rendered ([], None)).
Proof.
  intros Hf. destruct (nth_in_or_default i rendered ([], None)) as [Hin| ->].
  - rewrite Forall_forall in Hf. now apply Hf.
  - unfold item_fits. cbn. lia.
Qed.

Lemma draw_list_col_width cwn rendered lpr cp m :
  Forall (item_fits cwn) rendered -> cp + cwn <= m ->
  forall col row_id b row_pos, buf_width b <= m ->
  buf_width (draw_list_col col row_id rendered lpr b row_pos cp) <= m.
Proof.
  intros Hf Hm. induction col as [|i col IH]; intros row_id b row_pos Hb; cbn [draw_list_col]; [exact Hb|].
  pose proof (nth_item_fits cwn rendered i Hf) as Hi.
  destruct (nth i rendered ([], None)) as [ib [[lb lw]|]]; unfold item_fits in Hi; cbn [fst snd] in Hi; apply IH.
  - apply draw_buf_width; [apply draw_buf_width|]; lia.
  - apply draw_buf_width; lia.
Qed.

Lemma draw_list_cols_empty rendered lpr cw s : forall omap b col_pos r,
  Forall (fun col : list nat => col = []) omap ->
  draw_list_cols omap rendered lpr cw s b col_pos = ROk r -> r = b.
Proof.
  induction omap as [|col omap IH]; intros b col_pos r Hall H; cbn [draw_list_cols] in H.
  - congruence.
  - inversion Hall as [|? ? H1 H2]; subst. destruct (nat_of_Z col_pos) as [cp| |]; cbn [bind] in H; try discriminate.
    cbn [draw_list_col] in H. now apply IH in H.
Qed.

Lemma ordered_map_length kind n c : length (ordered_map kind n c) = c.
Proof. destruct kind; [apply omap_row_length|apply omap_col_length]. Qed.

Lemma ordered_map_no_items kind c : Forall (fun col : list nat => col = []) (ordered_map kind 0 c).
Proof.
  apply Forall_forall. intros col H.
  destruct kind; unfold ordered_map, ordered_map_row, ordered_map_col in H; cbv zeta in H;
    apply in_map_iff in H; destruct H as [k [<- _]]; reflexivity.
Qed.

(* the width theorem of TextWidget.render (C11), for texts and for the labels of a numbered list *)
Lemma text_within_width t w b : (0 <= w)%Z -> render_text t w = ROk b -> (Z.of_nat (buf_width b) <= w)%Z.
Proof. intros Hw H. apply buf_width_le_Z; [exact Hw|]. exact (render_width t w b H). Qed.

Lemma label_width kp' i lb : label_buffer kp' i = ROk lb -> buf_width lb <= length (get_widget_label kp' i).
Proof. intros H. apply Nat2Z.inj_le. exact (text_within_width _ _ _ (Nat2Z.is_nonneg _) H). Qed.

(* what a list container needs of its items: it hands them positive widths only (render_all_items refuses otherwise),
   so nothing is asked at width 0; a whole tree is [within_width] (ContainersFinal.v) at every width >= 0, which is what
   goes through a centred widget *)
Definition items_fit (items : list wtree) : Prop :=
  forall it w' b', In it items -> (0 < w')%Z -> render_tree it w' = ROk b' -> (Z.of_nat (buf_width b') <= w')%Z.

Lemma rendered_items_fit items cw kp res :
  items_fit items ->
  render_all_items render_tree items 0 cw kp = ROk res ->
  Forall (item_fits (Z.to_nat cw)) res.
Proof.
  intros Hitems H. apply render_all_items_spec in H. destruct H as [Hcw Hres].
  apply Forall_forall. intros x Hx.
  destruct (items_rendered_in _ _ _ _ _ _ x Hres Hx) as (j & it & Hin & Hnth). cbn [Nat.add] in Hnth.
  unfold item_rendered in Hnth. unfold item_fits. destruct kp as [kp'|].
  - cbv zeta in Hnth. destruct Hnth as [Hpos [Hr [lb [Hlb Hsnd]]]]. rewrite Hsnd. split.
    + now apply (label_width kp' j).
    + specialize (Hitems it _ _ Hin Hpos Hr). lia.
  - destruct Hnth as [Hr Hsnd]. rewrite Hsnd.
    destruct Hcw as [->|Hcw]; [destruct Hin|].
    specialize (Hitems it _ _ Hin Hcw Hr). lia.
Qed.

Section Width.
  (* the texts allowed in a tree.  Every text respects the width ([text_within_width]), so no theorem depends on the
     choice ([fit_fitting], ContainersFinal.v, forgets it) and [plain_tree] takes text_ok := fun _ => True; the parameter
     is there for the statement of C13_within_width_nested_partial *)
  Variable text_ok : text -> Prop.

  (* trees without a forced column width anywhere: texts, separators, centred widgets, list
     containers with non-negative spacing, windows — nested in any way *)
  Inductive fit_tree : wtree -> Prop :=
  | fit_text t : text_ok t -> fit_tree (WText t)
  | fit_sep n : fit_tree (WSep n)
  | fit_center c : fit_tree c -> fit_tree (WCenter c)
  | fit_list kind columns items spacing kp :
      (0 <= spacing)%Z -> Forall fit_tree items ->
      (forall kp' i, kp = Some kp' -> text_ok (simple_text (get_widget_label kp' i))) ->
      fit_tree (WList kind columns items None spacing kp)
  | fit_window title items :
      (forall t, title = Some t -> text_ok t) -> Forall fit_tree items -> fit_tree (WWindow title items).
End Width.

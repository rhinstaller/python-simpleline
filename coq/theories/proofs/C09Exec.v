(* C09Exec.v — a big-step relation [Exec] with one constructor per path through [LoopSem.exec], and the
   proof that every run of the interpreter is a derivation ([exec_Exec]).  Proofs about all runs of the
   event loop are then ordinary inductions on derivations; three that several properties share are here:
   [no_error_Exec], the counting argument [count_Exec] (its conclusion is read through [spends_elim]) and the frame
   rule [Exec_frame], with its instance [Exec_trace_grows].  Last, about the interpreter itself: more fuel extends a
   run ([exec_fuel_mono]).
   No new model definitions: [ps_mark], [run_enter], [quit_call], [ml_exit], [go_ok], [disp], [nl_enter],
   [ext_arrival] only name sub-terms of [exec] and [do_get]. *)
From SL Require Import Tac.
From RecordUpdate Require Import RecordUpdate.
From SL Require Import LoopSem proofs.LoopFacts.
Import ListNotations.

Section Sem.
  Context {U : Type}.
  Variable code : nat -> signal -> nat -> prog U.

  (* _mark_signal_processed, done once per signal (at handler index 0) *)
  Definition ps_mark (sg : signal) (idx : nat) (s : lstate U) : lstate U :=
    if (idx =? 0)%nat then s <| tickets := mark_line_to_go (tickets s) (sg_cls sg) |> else s.
  Definition run_enter (s : lstate U) : lstate U :=
    emit ERunEnter (s <| force_quit := false |> <| run_loop := true |>).
  Definition quit_call (s : lstate U) : lstate U :=
    match quit_cb s with Some a => emit (EQuitCb a) s | None => s end.
  Definition ml_exit (s : lstate U) : lstate U :=
    if force_quit s then s else s <| run_loop := true |>.
  Definition go_ok (prio : option Z) (p : Z) : bool :=
    match prio with None => true | Some p0 => (p =? p0)%Z end.
  Definition disp (sg : signal) (s s1 : lstate U) : lstate U :=
    emit (EDispatch (sg_id sg) (active s) (length (levels s))) s1.
  Definition nl_enter (sg : signal) (s1 : lstate U) : lstate U :=
    do_enqueue (emit (ENewLoopEnter (length (qstore s1)))
                     (s1 <| qstore := qstore s1 ++ [empty_queue] |> <| active := length (qstore s1) |>
                         <| levels := levels s1 ++ [length (qstore s1)] |>)) sg.

  (* the signal another thread submits while the loop waits in queue.get() *)
  Definition ext_arrival (s : lstate U) sp r : lstate U :=
    let '(sg, s1) := new_signal (s <| ext := r |>) sp in do_enqueue (emit (EExt (sg_id sg)) s1) sg.

  Lemma do_get_inr s s1 :
    do_get s = inr s1 ->
    q_pop (get_q s (active s)) = None /\ exists sp r, ext s = sp :: r /\ s1 = ext_arrival s sp r.
  Proof.
    unfold do_get, ext_arrival. destruct (q_pop (get_q s (active s))) as [[[[p cnt] sg0] q']|]; [discriminate|].
    destruct (ext s) as [|sp r]; [discriminate|]. intros H. split; [reflexivity|]. exists sp, r. split; [reflexivity|].
    destruct (new_signal (s <| ext := r |>) sp) as [sg s2]. injection H as <-. reflexivity.
  Qed.

  Inductive Exec : call U -> lstate U -> outcome -> lstate U -> Prop :=
  | X_fuel c s : Exec c s OFuel s
  (* run() *)
  | X_run_stop s o s1 :
      Exec CMainloop (run_enter s) o s1 -> (o = ONormal \/ o = OThrow XExit) ->
      Exec CRun s ONormal (emit ERunReturn (quit_call s1))
  | X_run_abort s o s1 :
      Exec CMainloop (run_enter s) o s1 -> o <> ONormal -> o <> OThrow XExit ->
      Exec CRun s o s1
  (* _mainloop *)
  | X_ml_done s : run_loop s = false -> Exec CMainloop s ONormal (ml_exit s)
  | X_ml_iter s s1 o s2 :
      run_loop s = true -> Exec CProcLoop s ONormal s1 -> Exec CMainloop s1 o s2 ->
      Exec CMainloop s o s2
  | X_ml_abort s o s1 :
      run_loop s = true -> Exec CProcLoop s o s1 -> o <> ONormal -> Exec CMainloop s o s1
  (* _process_signals_loop *)
  | X_pl_done s : run_loop s = false -> Exec CProcLoop s ONormal s
  | X_pl_blocked s : run_loop s = true -> do_get s = inl None -> Exec CProcLoop s OBlocked s
  | X_pl_ext s s1 o s2 :
      run_loop s = true -> do_get s = inr s1 -> Exec CProcLoop s1 o s2 -> Exec CProcLoop s o s2
  | X_pl_disp s sg s1 s3 o s4 :
      run_loop s = true -> do_get s = inl (Some (sg, s1)) ->
      Exec (CProcessSignal sg 0) (disp sg s s1) ONormal s3 -> Exec CProcLoop s3 o s4 ->
      Exec CProcLoop s o s4
  | X_pl_abort s sg s1 o s3 :
      run_loop s = true -> do_get s = inl (Some (sg, s1)) ->
      Exec (CProcessSignal sg 0) (disp sg s s1) o s3 -> o <> ONormal ->
      Exec CProcLoop s o s3
  (* _process_signals_with_return *)
  | X_pw_done cls t s : run_loop s = false -> Exec (CProcWait cls t) s ONormal s
  | X_pw_blocked cls t s : run_loop s = true -> do_get s = inl None -> Exec (CProcWait cls t) s OBlocked s
  | X_pw_ext cls t s s1 o s2 :
      run_loop s = true -> do_get s = inr s1 -> Exec (CProcWait cls t) s1 o s2 ->
      Exec (CProcWait cls t) s o s2
  | X_pw_abort cls t s sg s1 o s3 :
      run_loop s = true -> do_get s = inl (Some (sg, s1)) ->
      Exec (CProcessSignal sg 0) (disp sg s s1) o s3 -> o <> ONormal ->
      Exec (CProcWait cls t) s o s3
  | X_pw_released cls t s sg s1 s3 t' :
      run_loop s = true -> do_get s = inl (Some (sg, s1)) ->
      Exec (CProcessSignal sg 0) (disp sg s s1) ONormal s3 ->
      check_ticket (tickets s3) cls t = Some (true, t') ->
      Exec (CProcWait cls t) s ONormal (s3 <| tickets := t' |>)
  | X_pw_again cls t s sg s1 s3 t' o s4 :
      run_loop s = true -> do_get s = inl (Some (sg, s1)) ->
      Exec (CProcessSignal sg 0) (disp sg s s1) ONormal s3 ->
      check_ticket (tickets s3) cls t = Some (false, t') ->
      Exec (CProcWait cls t) s3 o s4 ->
      Exec (CProcWait cls t) s o s4
  | X_pw_keyerror cls t s sg s1 s3 :
      run_loop s = true -> do_get s = inl (Some (sg, s1)) ->
      Exec (CProcessSignal sg 0) (disp sg s s1) ONormal s3 ->
      check_ticket (tickets s3) cls t = None ->
      Exec (CProcWait cls t) s (OThrow XError) s3
  (* _process_signals_iteration *)
  | X_pi_done prio s :
      negb (q_empty (get_q s (active s))) && run_loop s = false -> Exec (CProcIter prio) s ONormal s
  | X_pi_none prio s :
      negb (q_empty (get_q s (active s))) && run_loop s = true ->
      q_pop (get_q s (active s)) = None -> Exec (CProcIter prio) s ONormal s
  | X_pi_go prio s p cnt sg q' s3 o s4 :
      negb (q_empty (get_q s (active s))) && run_loop s = true ->
      q_pop (get_q s (active s)) = Some ((p, cnt, sg), q') -> go_ok prio p = true ->
      Exec (CProcessSignal sg 0) (disp sg s (set_q s (active s) q')) ONormal s3 ->
      Exec (CProcIter (Some p)) s3 o s4 ->
      Exec (CProcIter prio) s o s4
  | X_pi_abort prio s p cnt sg q' o s3 :
      negb (q_empty (get_q s (active s))) && run_loop s = true ->
      q_pop (get_q s (active s)) = Some ((p, cnt, sg), q') -> go_ok prio p = true ->
      Exec (CProcessSignal sg 0) (disp sg s (set_q s (active s) q')) o s3 -> o <> ONormal ->
      Exec (CProcIter prio) s o s3
  | X_pi_requeue prio s p cnt sg q' :
      negb (q_empty (get_q s (active s))) && run_loop s = true ->
      q_pop (get_q s (active s)) = Some ((p, cnt, sg), q') -> go_ok prio p = false ->
      Exec (CProcIter prio) s ONormal
           (emit (ERequeue (sg_id sg) (active s)) (set_q s (active s) (q_put_entry q' (p, cnt, sg))))
  (* _process_signal *)
  | X_ps_kill sg idx s :
      handlers_of (ps_mark sg idx s) (sg_cls sg) = None -> (sg_cls sg =? CLS_EXCEPTION)%nat = true ->
      Exec (CProcessSignal sg idx) s (OThrow XSysExit) (emit EKill (ps_mark sg idx s))
  | X_ps_nohandler sg idx s :
      handlers_of (ps_mark sg idx s) (sg_cls sg) = None -> (sg_cls sg =? CLS_EXCEPTION)%nat = false ->
      Exec (CProcessSignal sg idx) s ONormal (emit (EDispatchEnd (sg_id sg)) (ps_mark sg idx s))
  | X_ps_fq sg idx s hs :
      handlers_of (ps_mark sg idx s) (sg_cls sg) = Some hs -> force_quit (ps_mark sg idx s) = true ->
      Exec (CProcessSignal sg idx) s ONormal (emit (EDispatchEnd (sg_id sg)) (ps_mark sg idx s))
  | X_ps_end sg idx s hs :
      handlers_of (ps_mark sg idx s) (sg_cls sg) = Some hs -> force_quit (ps_mark sg idx s) = false ->
      nth_error hs idx = None ->
      Exec (CProcessSignal sg idx) s ONormal (emit (EDispatchEnd (sg_id sg)) (ps_mark sg idx s))
  | X_ps_ok sg idx s hs hid data s2 o s3 :
      handlers_of (ps_mark sg idx s) (sg_cls sg) = Some hs -> force_quit (ps_mark sg idx s) = false ->
      nth_error hs idx = Some (hid, data) ->
      Exec (CProg (code hid sg data)) (emit (EHandler hid (sg_id sg) data) (ps_mark sg idx s)) ONormal s2 ->
      Exec (CProcessSignal sg (S idx)) (emit (EHandlerEnd hid (sg_id sg) None) s2) o s3 ->
      Exec (CProcessSignal sg idx) s o s3
  | X_ps_error sg idx s hs hid data s2 xs s4 o s5 :
      handlers_of (ps_mark sg idx s) (sg_cls sg) = Some hs -> force_quit (ps_mark sg idx s) = false ->
      nth_error hs idx = Some (hid, data) ->
      Exec (CProg (code hid sg data)) (emit (EHandler hid (sg_id sg) data) (ps_mark sg idx s)) (OThrow XError) s2 ->
      new_signal (emit (EHandlerEnd hid (sg_id sg) (Some XError)) s2) exception_spec = (xs, s4) ->
      Exec (CProcessSignal sg (S idx)) (do_enqueue s4 xs) o s5 ->
      Exec (CProcessSignal sg idx) s o s5
  | X_ps_throw sg idx s hs hid data e s2 :
      handlers_of (ps_mark sg idx s) (sg_cls sg) = Some hs -> force_quit (ps_mark sg idx s) = false ->
      nth_error hs idx = Some (hid, data) ->
      Exec (CProg (code hid sg data)) (emit (EHandler hid (sg_id sg) data) (ps_mark sg idx s)) (OThrow e) s2 ->
      e <> XError ->
      Exec (CProcessSignal sg idx) s (OThrow e) (emit (EHandlerEnd hid (sg_id sg) (Some e)) s2)
  | X_ps_abort sg idx s hs hid data o s2 :
      handlers_of (ps_mark sg idx s) (sg_cls sg) = Some hs -> force_quit (ps_mark sg idx s) = false ->
      nth_error hs idx = Some (hid, data) ->
      Exec (CProg (code hid sg data)) (emit (EHandler hid (sg_id sg) data) (ps_mark sg idx s)) o s2 ->
      (o = OBlocked \/ o = OFuel) ->
      Exec (CProcessSignal sg idx) s o s2
  (* the public API *)
  | X_enqueue sp s sg s1 :
      new_signal s sp = (sg, s1) -> Exec (CApi (AEnqueue sp)) s ONormal (do_enqueue s1 sg)
  | X_force_quit s :
      Exec (CApi AForceQuit) s ONormal
           (emit EForceQuit (s <| force_quit := true |> <| levels := [] |> <| run_loop := false |>))
  | X_nl_fq sp s sg s1 :
      new_signal s sp = (sg, s1) -> force_quit s1 = true -> Exec (CApi (ANewLoop sp)) s ONormal s1
  | X_nl_ok sp s sg s1 s4 :
      new_signal s sp = (sg, s1) -> force_quit s1 = false ->
      Exec CMainloop (nl_enter sg s1) ONormal s4 ->
      Exec (CApi (ANewLoop sp)) s ONormal (emit (ENewLoopReturn (length (qstore s1))) s4)
  | X_nl_abort sp s sg s1 o s4 :
      new_signal s sp = (sg, s1) -> force_quit s1 = false ->
      Exec CMainloop (nl_enter sg s1) o s4 -> o <> ONormal ->
      Exec (CApi (ANewLoop sp)) s o s4
  | X_cl_abort s o s0 :
      Exec (CProcIter None) (emit (EProcEnter None 0) s) o s0 -> o <> ONormal ->
      Exec (CApi ACloseLoop) s o s0
  | X_cl_empty s s0 :
      Exec (CProcIter None) (emit (EProcEnter None 0) s) ONormal s0 -> rev (levels s0) = [] ->
      Exec (CApi ACloseLoop) s (OThrow XError) (emit (EProcReturn None 0) s0)
  | X_cl_last s s0 top :
      Exec (CProcIter None) (emit (EProcEnter None 0) s) ONormal s0 -> rev (levels s0) = [top] ->
      Exec (CApi ACloseLoop) s (OThrow XExit)
           (emit (EClosePop top) (emit (EProcReturn None 0) s0 <| levels := rev [] |>))
  | X_cl_pop s s0 top q rest :
      Exec (CProcIter None) (emit (EProcEnter None 0) s) ONormal s0 -> rev (levels s0) = top :: q :: rest ->
      Exec (CApi ACloseLoop) s ONormal
           (emit (EClosePop top) (emit (EProcReturn None 0) s0 <| levels := rev (q :: rest) |>)
              <| active := q |> <| run_loop := false |>)
  | X_pn_ok s s1 :
      Exec (CProcIter None) (emit (EProcEnter None 0) s) ONormal s1 ->
      Exec (CApi (AProcess None)) s ONormal (emit (EProcReturn None 0) s1)
  | X_pn_abort s o s1 :
      Exec (CProcIter None) (emit (EProcEnter None 0) s) o s1 -> o <> ONormal ->
      Exec (CApi (AProcess None)) s o s1
  | X_pt_ok cls s t tm s2 :
      take_ticket (tickets s) cls = (t, tm) ->
      Exec (CProcWait cls t) (emit (EProcEnter (Some cls) t) (s <| tickets := tm |>)) ONormal s2 ->
      Exec (CApi (AProcess (Some cls))) s ONormal (emit (EProcReturn (Some cls) t) s2)
  | X_pt_abort cls s t tm o s2 :
      take_ticket (tickets s) cls = (t, tm) ->
      Exec (CProcWait cls t) (emit (EProcEnter (Some cls) t) (s <| tickets := tm |>)) o s2 -> o <> ONormal ->
      Exec (CApi (AProcess (Some cls))) s o s2
  | X_reg_source o s :
      Exec (CApi (ARegSource o)) s ONormal
           (emit (ERegSource o (active s)) (set_q s (active s) (q_add_source (get_q s (active s)) o)))
  | X_reg_handler cls hid data s :
      Exec (CApi (ARegHandler cls hid data)) s ONormal
           (emit (ERegHandler cls hid data) (s <| handlers := add_handler (handlers s) cls hid data |>))
  | X_set_quit arg s :
      Exec (CApi (ASetQuitCb arg)) s ONormal (emit (ESetQuitCb arg) (s <| quit_cb := Some arg |>))
  | X_ext_add sp s : Exec (CApi (AExtAdd sp)) s ONormal (s <| ext := ext s ++ [sp] |>)
  (* handler bodies *)
  | X_ret s : Exec (CProg PRet) s ONormal s
  | X_throw e s : Exec (CProg (PThrow e)) s (OThrow e) s
  | X_seq_ok p1 p2 s s1 o s2 :
      Exec (CProg p1) s ONormal s1 -> Exec (CProg p2) s1 o s2 -> Exec (CProg (PSeq p1 p2)) s o s2
  | X_seq_abort p1 p2 s o s1 :
      Exec (CProg p1) s o s1 -> o <> ONormal -> Exec (CProg (PSeq p1 p2)) s o s1
  | X_try_catch p1 h s s1 o s2 :
      Exec (CProg p1) s (OThrow XError) s1 -> Exec (CProg h) s1 o s2 -> Exec (CProg (PTry p1 h)) s o s2
  | X_try_pass p1 h s o s1 :
      Exec (CProg p1) s o s1 -> o <> OThrow XError -> Exec (CProg (PTry p1 h)) s o s1
  | X_api a s o s1 : Exec (CApi a) s o s1 -> Exec (CProg (PApi a)) s o s1
  | X_st g s u' p' o s1 :
      g (ust s) = (u', p') -> Exec (CProg p') (s <| ust := u' |>) o s1 -> Exec (CProg (PSt g)) s o s1
  | X_while_done cnd b s : cnd (ust s) = false -> Exec (CProg (PWhile cnd b)) s ONormal s
  | X_while_iter cnd b s s1 o s2 :
      cnd (ust s) = true -> Exec (CProg b) s ONormal s1 -> Exec (CProg (PWhile cnd b)) s1 o s2 ->
      Exec (CProg (PWhile cnd b)) s o s2
  | X_while_abort cnd b s o s1 :
      cnd (ust s) = true -> Exec (CProg b) s o s1 -> o <> ONormal -> Exec (CProg (PWhile cnd b)) s o s1
  | X_emit e s : Exec (CProg (PEmit e)) s ONormal (emit (user_event e) s).

  (* a call followed by more: it returned normally and the rest ran, or its outcome is the result *)
  Lemma bind_Exec f (IH : forall c s o s', exec code f c s = (o, s') -> Exec c s o s')
        c1 s1 (k : lstate U -> outcome * lstate U) o s' :
    (let '(o1, s2) := exec code f c1 s1 in match o1 with ONormal => k s2 | _ => (o1, s2) end) = (o, s') ->
    (exists s2, Exec c1 s1 ONormal s2 /\ k s2 = (o, s')) \/ (Exec c1 s1 o s' /\ o <> ONormal).
  Proof.
    destruct (exec code f c1 s1) as [o1 s2] eqn:E. apply IH in E.
    destruct o1; intros H; [left; eauto|right; injection H as <- <-; split; [exact E|discriminate]..].
  Qed.

  Lemma exec_Exec : forall f c s o s', exec code f c s = (o, s') -> Exec c s o s'.
  Proof.
    induction f as [|f IH]; intros c s o s' H.
    { cbn in H. injection H as <- <-. constructor. }
    destruct c; cbn [exec] in H.
    - (* CRun *)
      fold (run_enter s) in H.
      destruct (exec code f CMainloop (run_enter s)) as [o1 s1] eqn:E. apply IH in E.
      destruct o1 as [|[]| |]; injection H as <- <-;
        first [ eapply X_run_stop; eauto | eapply X_run_abort; eauto; discriminate ].
    - (* CMainloop *)
      destruct (run_loop s) eqn:R; [|injection H as <- <-; apply X_ml_done; auto].
      apply (bind_Exec f IH) in H as [(s1 & X & H)|[X N]];
        [apply IH in H; eapply X_ml_iter; eauto | eapply X_ml_abort; eauto].
    - (* CProcLoop *)
      destruct (run_loop s) eqn:R; [|injection H as <- <-; apply X_pl_done; auto].
      destruct (do_get s) as [[[sg s1]|]|s1] eqn:G.
      + fold (disp sg s s1) in H.
        apply (bind_Exec f IH) in H as [(s3 & X & H)|[X N]];
          [apply IH in H; eapply X_pl_disp; eauto | eapply X_pl_abort; eauto].
      + injection H as <- <-. apply X_pl_blocked; auto.
      + apply IH in H. eapply X_pl_ext; eauto.
    - (* CProcWait *)
      destruct (run_loop s) eqn:R; [|injection H as <- <-; apply X_pw_done; auto].
      destruct (do_get s) as [[[sg s1]|]|s1] eqn:G.
      + fold (disp sg s s1) in H.
        apply (bind_Exec f IH) in H as [(s3 & X & H)|[X N]]; [|eapply X_pw_abort; eauto].
        destruct (check_ticket (tickets s3) cls ticket) as [[[] t']|] eqn:T.
        * injection H as <- <-. eapply X_pw_released; eauto.
        * apply IH in H. eapply X_pw_again; eauto.
        * injection H as <- <-. eapply X_pw_keyerror; eauto.
      + injection H as <- <-. apply X_pw_blocked; auto.
      + apply IH in H. eapply X_pw_ext; eauto.
    - (* CProcIter *)
      destruct (negb (q_empty (get_q s (active s))) && run_loop s) eqn:R;
        [|injection H as <- <-; apply X_pi_done; auto].
      destruct (q_pop (get_q s (active s))) as [[[[p cnt] sg] q']|] eqn:P;
        [|injection H as <- <-; apply X_pi_none; auto].
      fold (disp sg s (set_q s (active s) q')) in H.
      destruct (go_ok prio p) eqn:GO.
      + assert (H' : (let '(o, s3) := exec code f (CProcessSignal sg 0) (disp sg s (set_q s (active s) q')) in
                      match o with ONormal => exec code f (CProcIter (Some p)) s3 | _ => (o, s3) end) = (o, s')).
        { destruct prio as [p0|]; cbn [go_ok] in GO; [rewrite GO in H|]; exact H. }
        apply (bind_Exec f IH) in H' as [(s3 & X & H')|[X N]];
          [apply IH in H'; eapply X_pi_go; eauto | eapply X_pi_abort; eauto].
      + destruct prio as [p0|]; cbn [go_ok] in GO; [|discriminate]. rewrite GO in H.
        injection H as <- <-. eapply X_pi_requeue; eauto.
    - (* CProcessSignal *)
      fold (ps_mark sg idx s) in H.
      destruct (handlers_of (ps_mark sg idx s) (sg_cls sg)) as [hs|] eqn:Hh.
      + destruct (force_quit (ps_mark sg idx s)) eqn:FQ; [injection H as <- <-; eapply X_ps_fq; eauto|].
        destruct (nth_error hs idx) as [[hid data]|] eqn:N; [|injection H as <- <-; eapply X_ps_end; eauto].
        destruct (exec code f (CProg (code hid sg data)) (emit (EHandler hid (sg_id sg) data) (ps_mark sg idx s)))
          as [o1 s2] eqn:E. apply IH in E.
        destruct o1 as [|[]| |].
        * apply IH in H. eapply X_ps_ok; eauto.
        * injection H as <- <-. eapply X_ps_throw; eauto. discriminate.
        * destruct (new_signal (emit (EHandlerEnd hid (sg_id sg) (Some XError)) s2) exception_spec) as [xs s4] eqn:NS.
          apply IH in H. eapply X_ps_error; eauto.
        * injection H as <- <-. eapply X_ps_throw; eauto. discriminate.
        * injection H as <- <-. eapply X_ps_abort; eauto.
        * injection H as <- <-. eapply X_ps_abort; eauto.
      + destruct (sg_cls sg =? CLS_EXCEPTION)%nat eqn:K; injection H as <- <-.
        * apply X_ps_kill; auto.
        * apply X_ps_nohandler; auto.
    - (* CApi *)
      destruct c.
      + destruct (new_signal s sp) as [sg s1] eqn:NS. injection H as <- <-. eapply X_enqueue; eauto.
      + injection H as <- <-. apply X_force_quit.
      + destruct (new_signal s sp) as [sg s1] eqn:NS.
        destruct (force_quit s1) eqn:FQ; [injection H as <- <-; eapply X_nl_fq; eauto|].
        fold (nl_enter sg s1) in H.
        apply (bind_Exec f IH) in H as [(s4 & X & H)|[X N]];
          [injection H as <- <-; eapply X_nl_ok; eauto | eapply X_nl_abort; eauto].
      + apply (bind_Exec f IH) in H as [(s0 & X & H)|[X N]]; [|eapply X_cl_abort; eauto].
        change (levels (emit (EProcReturn None 0) s0)) with (levels s0) in H.
        destruct (rev (levels s0)) as [|top [|q rest]] eqn:L; injection H as <- <-.
        * eapply X_cl_empty; eauto.
        * eapply X_cl_last; eauto.
        * eapply X_cl_pop; eauto.
      + destruct return_after as [cls|].
        * destruct (take_ticket (tickets s) cls) as [t tm] eqn:T.
          apply (bind_Exec f IH) in H as [(s2 & X & H)|[X N]];
            [injection H as <- <-; eapply X_pt_ok; eauto | eapply X_pt_abort; eauto].
        * apply (bind_Exec f IH) in H as [(s1 & X & H)|[X N]];
          [injection H as <- <-; eapply X_pn_ok; eauto | eapply X_pn_abort; eauto].
      + injection H as <- <-. apply X_reg_source.
      + injection H as <- <-. apply X_reg_handler.
      + injection H as <- <-. apply X_set_quit.
      + injection H as <- <-. apply X_ext_add.
    - (* CProg *)
      destruct p.
      + injection H as <- <-. apply X_ret.
      + injection H as <- <-. apply X_throw.
      + apply (bind_Exec f IH) in H as [(s1 & X & H)|[X N]];
        [apply IH in H; eapply X_seq_ok; eauto | eapply X_seq_abort; eauto].
      + destruct (exec code f (CProg p1) s) as [o1 s1] eqn:E. apply IH in E.
        destruct o1 as [|[]| |]; try (injection H as <- <-; eapply X_try_pass; eauto; discriminate).
        apply IH in H. eapply X_try_catch; eauto.
      + apply IH in H. apply X_api; auto.
      + destruct (f0 (ust s)) as [u' p'] eqn:G. apply IH in H. eapply X_st; eauto.
      + destruct (c (ust s)) eqn:C; [|injection H as <- <-; apply X_while_done; auto].
        apply (bind_Exec f IH) in H as [(s1 & X & H)|[X N]];
          [apply IH in H; eapply X_while_iter; eauto | eapply X_while_abort; eauto].
      + injection H as <- <-. apply X_emit.
  Qed.

  (* the calls out of which no ordinary exception comes: _process_signal catches what a handler raises, and
     _process_signals_loop, _process_signals_iteration, _mainloop, run() only pass on what it lets through.  The loop of
     _process_signals_with_return is not among them: it raises a KeyError of its own ([X_pw_keyerror]). *)
  Definition contains (c : call U) : bool :=
    match c with
    | CRun | CMainloop | CProcLoop | CProcIter _ | CProcessSignal _ _ | CApi (ANewLoop _) => true
    | _ => false
    end.

  Lemma no_error_Exec c s o s' : Exec c s o s' -> contains c = true -> o <> OThrow XError.
  Proof.
    induction 1; cbn [contains]; intros I; try discriminate; auto.
    - congruence.
    - match goal with D : _ = OBlocked \/ _ = OFuel |- _ => destruct D; subst; discriminate end.
  Qed.

  (* The counting argument.  The potential [phi] of a state is the number of open levels, plus one while a stop is
     requested ([run_loop = false]).  No call that comes back makes it grow (close_loop trades a level for a stop
     request), and a main loop that returns normally has used up one unit of it ([gain]): on its way out it clears the
     request it stopped for. *)
  Definition quiet (o : outcome) : Prop := o = ONormal \/ o = OThrow XError.
  Definition gain (c : call U) : nat := match c with CMainloop => 1 | _ => 0 end.
  Definition phi (s : lstate U) : nat := length (levels s) + (if run_loop s then 0 else 1).
  (* from [s] to [s'] without force-quit: [n] units are spent and the levels are not all closed.  The guard reads the
     final state and is handed back to the initial one: run() apart nothing clears force-quit, so the relation composes. *)
  Definition spends (n : nat) (s s' : lstate U) : Prop :=
    force_quit s' = false -> force_quit s = false /\ phi s' + n <= phi s /\ (levels s <> [] -> levels s' <> []).
  (* how the users of [count_Exec] read its conclusion *)
  Lemma spends_elim n s s' : spends n s s' -> force_quit s' = false ->
    force_quit s = false /\
    length (levels s') + (if run_loop s' then 0 else 1) + n <= length (levels s) + (if run_loop s then 0 else 1) /\
    (levels s <> [] -> levels s' <> []).
  Proof. intros A. exact A. Qed.
  (* all that the counting reads *)
  Definition cnt (s : lstate U) : list nat * bool * bool := (levels s, run_loop s, force_quit s).

  Lemma spends_refl s : spends 0 s s.
  Proof. intros F. split; [exact F|]. split; [lia|auto]. Qed.
  Lemma spends_trans {n m s s1 s2} : spends n s s1 -> spends m s1 s2 -> spends (n + m) s s2.
  Proof.
    intros A B F. destruct (B F) as (F1 & P1 & L1). destruct (A F1) as (F0 & P0 & L0).
    split; [exact F0|]. split; [lia|auto].
  Qed.
  Lemma spends_cnt {n s0 s s1 s'} : cnt s0 = cnt s -> cnt s1 = cnt s' -> spends n s0 s1 -> spends n s s'.
  Proof.
    unfold cnt, spends, phi. intros E E'. injection E as E1 E2 E3. injection E' as E1' E2' E3'.
    rewrite E1, E2, E3, E1', E2', E3'. auto.
  Qed.
  Definition spends_from {n s0 s s'} (E : cnt s0 = cnt s) : spends n s0 s' -> spends n s s' := spends_cnt E eq_refl.
  Definition spends_to {n s s1 s'} (E : cnt s1 = cnt s') : spends n s s1 -> spends n s s' := spends_cnt eq_refl E.

  Lemma cnt_do_enqueue s sg : cnt (do_enqueue s sg) = cnt s.
  Proof. unfold do_enqueue. destruct (force_quit s) eqn:E; unfold cnt; cbn; rewrite ?E; reflexivity. Qed.
  Lemma cnt_new_signal {s sp sg s1} : new_signal s sp = (sg, s1) -> cnt s1 = cnt s.
  Proof. intros H. injection H as _ <-. reflexivity. Qed.
  Lemma cnt_disp {s sg s1} : do_get s = inl (Some (sg, s1)) -> cnt (disp sg s s1) = cnt s.
  Proof. intros H. apply do_get_some in H as (_ & _ & q' & _ & ->). reflexivity. Qed.
  Lemma cnt_ext {s s1} : do_get s = inr s1 -> cnt s1 = cnt s.
  Proof.
    intros H. apply do_get_inr in H as (_ & sp & r & _ & ->). unfold ext_arrival. cbn [new_signal].
    rewrite cnt_do_enqueue. reflexivity.
  Qed.
  Lemma cnt_ps_mark sg idx s : cnt (ps_mark sg idx s) = cnt s.
  Proof. unfold ps_mark. destruct (idx =? 0)%nat; reflexivity. Qed.

  Lemma spends_rearm s : run_loop s = false -> spends 1 s (ml_exit s).
  Proof.
    intros Rn F. unfold ml_exit in *. destruct (force_quit s) eqn:E; [congruence|].
    split; [reflexivity|]. unfold phi. cbn. rewrite Rn. split; [cbn; lia|auto].
  Qed.
  (* the level that execute_new_loop opens is the unit its main loop spends *)
  Lemma cnt_nl_enter sg s1 :
    cnt (nl_enter sg s1) = (levels s1 ++ [length (qstore s1)], run_loop s1, force_quit s1).
  Proof. unfold nl_enter. rewrite cnt_do_enqueue. reflexivity. Qed.
  Lemma spends_new_level {n sg s1 s'} : spends (S n) (nl_enter sg s1) s' -> spends n s1 s'.
  Proof.
    intros A F. destruct (A F) as (F0 & P & L). pose proof (cnt_nl_enter sg s1) as E. unfold cnt in E.
    injection E as E1 E2 E3. unfold phi in *. rewrite E1, E2, app_length in P. rewrite E1 in L. rewrite E3 in F0.
    cbn [length] in P. split; [exact F0|]. split; [lia|]. intros _. apply L. intros X. apply app_eq_nil in X as [_ X]. discriminate X.
  Qed.
  Lemma spends_close_pop s s' top q rest :
    rev (levels s) = top :: q :: rest -> levels s' = rev (q :: rest) -> force_quit s' = force_quit s -> spends 0 s s'.
  Proof.
    intros Rv L E F. apply (f_equal (@length nat)) in Rv. rewrite rev_length in Rv. cbn [length] in Rv.
    unfold phi. rewrite L, rev_length, Rv. split; [congruence|]. split; [cbn [length]; destruct (run_loop s), (run_loop s'); cbn; lia|].
    intros _ X. apply (f_equal (@length nat)) in X. rewrite rev_length in X. discriminate X.
  Qed.

  Lemma quiet_abort c s o s' : Exec c s o s' -> contains c = true -> o <> ONormal -> ~ quiet o.
  Proof. intros H I N [Q|Q]; [exact (N Q)|exact (no_error_Exec _ _ _ _ H I Q)]. Qed.
  Lemma quiet_normal : quiet ONormal. Proof. left; reflexivity. Qed.
  Lemma quiet_error : quiet (OThrow XError). Proof. right; reflexivity. Qed.

  Lemma count_Exec c s o s' : Exec c s o s' -> c <> CRun -> quiet o -> spends (gain c) s s'.
  Proof.
    induction 1; intros NR Q;
      repeat match goal with IH : ?c <> CRun -> _ |- _ => specialize (IH ltac:(discriminate)) end; cbn [gain].
    all: try (contradiction (NR eq_refl)).
    all: try (destruct Q as [Q|Q]; congruence).
    all: try exact (spends_refl _).
    all: try exact (IHExec Q).
    all: try exact (IHExec quiet_normal).
    all: try exact (spends_trans (IHExec1 quiet_normal) (IHExec2 Q)).
    - (* X_ml_done *) apply spends_rearm. exact H.
    - (* X_ml_abort *) destruct (quiet_abort _ _ _ _ H0 eq_refl H1 Q).
    - (* X_pl_ext *) exact (spends_from (cnt_ext H0) (IHExec Q)).
    - (* X_pl_disp *) exact (spends_from (cnt_disp H0) (spends_trans (IHExec1 quiet_normal) (IHExec2 Q))).
    - (* X_pl_abort *) exact (spends_from (cnt_disp H0) (IHExec Q)).
    - (* X_pw_ext *) exact (spends_from (cnt_ext H0) (IHExec Q)).
    - (* X_pw_abort *) exact (spends_from (cnt_disp H0) (IHExec Q)).
    - (* X_pw_released *) exact (spends_from (cnt_disp H0) (IHExec quiet_normal)).
    - (* X_pw_again *) exact (spends_from (cnt_disp H0) (spends_trans (IHExec1 quiet_normal) (IHExec2 Q))).
    - (* X_pw_keyerror *) exact (spends_from (cnt_disp H0) (IHExec quiet_normal)).
    - (* X_ps_nohandler *) exact (spends_to (eq_sym (cnt_ps_mark sg idx s)) (spends_refl _)).
    - (* X_ps_fq *) exact (spends_to (eq_sym (cnt_ps_mark sg idx s)) (spends_refl _)).
    - (* X_ps_end *) exact (spends_to (eq_sym (cnt_ps_mark sg idx s)) (spends_refl _)).
    - (* X_ps_ok *) exact (spends_from (cnt_ps_mark sg idx s) (spends_trans (IHExec1 quiet_normal) (IHExec2 Q))).
    - (* X_ps_error *)
      pose proof (spends_from (eq_trans (cnt_do_enqueue s4 xs) (cnt_new_signal H3)) (IHExec2 Q)) as B.
      exact (spends_from (cnt_ps_mark sg idx s) (spends_trans (IHExec1 quiet_error) B)).
    - (* X_ps_abort *) destruct H3 as [-> | ->]; destruct Q as [Q|Q]; discriminate Q.
    - (* X_enqueue *)
      exact (spends_to (eq_sym (eq_trans (cnt_do_enqueue s1 sg) (cnt_new_signal H))) (spends_refl _)).
    - (* X_force_quit *) intros F. discriminate F.
    - (* X_nl_ok *) exact (spends_from (cnt_new_signal H) (spends_new_level (IHExec quiet_normal))).
    - (* X_nl_abort *) destruct (quiet_abort _ _ _ _ H1 eq_refl H2 Q).
    - (* X_cl_pop *) apply (spends_trans (IHExec quiet_normal)).
      eapply spends_close_pop; [exact H0|reflexivity|reflexivity].
    - (* X_try_catch *) exact (spends_trans (IHExec1 quiet_error) (IHExec2 Q)).
  Qed.

  (* the frame rule: a preorder on states that every primitive step respects relates the state before any
     call to the state after it.  A primitive step either adds an event, or registers a handler, or changes
     neither the trace nor the handler table. *)
  Section Frame.
    Variable R : lstate U -> lstate U -> Prop.
    Hypothesis R_refl : forall s, R s s.
    Hypothesis R_trans : forall a b c, R a b -> R b c -> R a c.
    Hypothesis R_emit : forall e s, R s (emit e s).
    Hypothesis R_same : forall s s', trace s' = trace s -> handlers s' = handlers s -> R s s'.
    Hypothesis R_reg : forall s c h d, R s (s <| handlers := add_handler (handlers s) c h d |>).

    Lemma fr_emit a e s : R a s -> R a (emit e s).
    Proof. intros H. exact (R_trans _ _ _ H (R_emit e s)). Qed.
    Lemma fr_same a s s' : trace s' = trace s -> handlers s' = handlers s -> R a s -> R a s'.
    Proof. intros Ht Hh H. exact (R_trans _ _ _ H (R_same _ _ Ht Hh)). Qed.
    Lemma fr_reg a s c h d : R a s -> R a (s <| handlers := add_handler (handlers s) c h d |>).
    Proof. intros H. exact (R_trans _ _ _ H (R_reg s c h d)). Qed.
    Lemma fr_enqueue a s sg : R a s -> R a (do_enqueue s sg).
    Proof.
      intros H. unfold do_enqueue. destruct (force_quit s); apply fr_emit; [exact H|].
      apply (fr_same _ s); [reflexivity | reflexivity | exact H].
    Qed.
    Lemma fr_new_signal a s sp sg s1 : new_signal s sp = (sg, s1) -> R a s -> R a s1.
    Proof. intros N H. injection N as _ <-. apply fr_emit.
      apply (fr_same _ s); [reflexivity | reflexivity | exact H].
    Qed.
    Lemma fr_get_some a s sg s1 : do_get s = inl (Some (sg, s1)) -> R a s -> R a s1.
    Proof.
      intros G H. apply do_get_some in G as (_ & _ & q' & _ & ->).
      apply (fr_same _ s); [reflexivity | reflexivity | exact H].
    Qed.
    Lemma fr_get_inr a s s1 : do_get s = inr s1 -> R a s -> R a s1.
    Proof.
      intros G H. apply do_get_inr in G as (_ & sp & r & _ & ->). unfold ext_arrival.
      destruct (new_signal (s <| ext := r |>) sp) as [sg s2] eqn:N.
      apply fr_enqueue, fr_emit, (fr_new_signal _ _ _ _ _ N).
      apply (fr_same _ s); [reflexivity | reflexivity | exact H].
    Qed.

    (* peels the final state of a derivation down to its initial state, one primitive at a time *)
    Ltac frame :=
      repeat first
        [ assumption | apply R_refl | apply fr_emit | apply fr_enqueue | apply fr_reg
        | match goal with
          | |- R _ (set_q ?s _ _) => apply (fr_same _ s); [reflexivity | reflexivity |]
          | |- R _ (set _ _ ?s) => apply (fr_same _ s); [reflexivity | reflexivity |]
          | |- R _ (match ?x with _ => _ end) => destruct x
          | N : new_signal _ _ = (_, ?s1) |- R _ ?s1 => apply (fr_new_signal _ _ _ _ _ N)
          | G : do_get _ = inl (Some (_, ?s1)) |- R _ ?s1 => apply (fr_get_some _ _ _ _ G)
          | G : do_get _ = inr ?s1 |- R _ ?s1 => apply (fr_get_inr _ _ _ G)
          | H : R ?b ?c |- R ?a ?c => apply (R_trans a b c); [|exact H]
          end ].

    Lemma Exec_frame c s o s' : Exec c s o s' -> R s s'.
    Proof.
      induction 1; unfold run_enter, quit_call, ml_exit, disp, nl_enter, ps_mark in *; frame.
    Qed.
  End Frame.

  (* an instance of the frame rule: a run only adds to the trace *)
  Definition trace_grows (s s' : lstate U) : Prop := exists tr, trace s' = tr ++ trace s.

  Lemma tg_refl s : trace_grows s s.
  Proof. exists []. reflexivity. Qed.
  Lemma tg_trans a b c : trace_grows a b -> trace_grows b c -> trace_grows a c.
  Proof. intros [t1 H1] [t2 H2]. exists (t2 ++ t1). rewrite H2, H1, app_assoc. reflexivity. Qed.
  Lemma tg_emit s s1 e : trace_grows s s1 -> trace_grows s (emit e s1).
  Proof. intros [t H]. exists (e :: t). change (trace (emit e s1)) with (e :: trace s1). rewrite H. reflexivity. Qed.
  Lemma tg_same s s1 s2 : trace s2 = trace s1 -> trace_grows s s1 -> trace_grows s s2.
  Proof. intros E [t H]. exists t. rewrite E. exact H. Qed.
  Lemma tg_do_enqueue s s1 sg : trace_grows s s1 -> trace_grows s (do_enqueue s1 sg).
  Proof.
    intros H. unfold do_enqueue. destruct (force_quit s1); apply tg_emit; [exact H|].
    eapply tg_same; [|exact H]. reflexivity.
  Qed.

  Lemma Exec_trace_grows c s o s' : Exec c s o s' -> trace_grows s s'.
  Proof.
    apply Exec_frame; [exact tg_refl | exact tg_trans | | |].
    - intros e a. apply tg_emit, tg_refl.
    - intros a b E _. exact (tg_same a a b E (tg_refl a)).
    - intros a ? ? ?. apply (tg_same a a); [reflexivity|apply tg_refl].
  Qed.

  Lemma exec_trace_grows f c s o s' : exec code f c s = (o, s') -> trace_grows s s'.
  Proof. intros H. exact (Exec_trace_grows _ _ _ _ (exec_Exec _ _ _ _ _ H)). Qed.

  (* more fuel extends a run, and a run that did not run out of fuel is final *)
  Definition extends (r r' : outcome * lstate U) : Prop :=
    (fst r <> OFuel -> r' = r) /\ trace_grows (snd r) (snd r').

  Lemma extends_refl r : extends r r.
  Proof. split; [reflexivity|apply tg_refl]. Qed.

  (* a call followed by more ([k], [k'] with the less and with the more fuel): if the call ran out of fuel so does
     the whole, and with more fuel the call and whatever follows it only add to the trace; if not, it is the same call
     with more fuel, and what follows is compared *)
  Lemma extends_bind r r' (k k' : outcome -> lstate U -> outcome * lstate U) :
    extends r r' -> (forall s, k OFuel s = (OFuel, s)) ->
    (forall o s, o <> OFuel -> extends (k o s) (k' o s)) -> (forall o s, trace_grows s (snd (k' o s))) ->
    extends (let '(o, s) := r in k o s) (let '(o, s) := r' in k' o s).
  Proof.
    destruct r as [o s], r' as [o' s']. cbn [fst snd]. intros [E G] Hf Hk Hg.
    assert (D : o = OFuel \/ o <> OFuel) by (destruct o as [|[]| |]; [right; discriminate..|left; reflexivity]).
    destruct D as [-> | N]; [|injection (E N) as -> ->; exact (Hk o s N)].
    rewrite Hf. split; [intros C; destruct (C eq_refl)|]. exact (tg_trans _ _ _ G (Hg o' s')).
  Qed.

  (* closes [trace_grows s s'] where [s'] comes from [s] by emitting, enqueueing, updates of other fields and calls:
     peels [s'] down to [s] *)
  Ltac tg := repeat first
    [ progress cbn [snd] | apply tg_refl | apply tg_emit | apply tg_do_enqueue
    | match goal with
      | |- trace_grows _ (set _ _ ?x) => apply (tg_same _ x); [reflexivity|]
      | |- trace_grows _ (snd (exec _ _ _ _)) => eapply tg_trans; [|eapply exec_trace_grows, surjective_pairing]
      | |- trace_grows _ (match ?x with _ => _ end) => destruct x
      | |- trace_grows _ (snd (match ?x with _ => _ end)) => destruct x
      end ].

  (* the call at the head of a body, compared by the induction hypothesis [ih]; [h] compares what follows *)
  Tactic Notation "bind" constr(ih) uconstr(h) := refine (extends_bind _ _ _ _ (ih _ _) (fun _ => eq_refl) h _).

  Theorem exec_fuel_mono : forall f f' c s, f <= f' -> extends (exec code f c s) (exec code f' c s).
  Proof.
    induction f as [|f IH]; intros f' c s Hle; [split; [intros C; destruct (C eq_refl)|tg]|].
    destruct f' as [|f']; [lia|]. apply le_S_n in Hle.
    assert (IH' : forall c s, extends (exec code f c s) (exec code f' c s)) by (intros; apply IH, Hle).
    assert (Hk : forall c o s, o <> OFuel ->
              extends (match o with ONormal => exec code f c s | _ => (o, s) end)
                      (match o with ONormal => exec code f' c s | _ => (o, s) end))
      by (intros c0 [|[]| |] s0 N; first [apply IH' | apply extends_refl]).
    clear IH Hle. destruct c as [| | |cls ticket|prio|sg idx|a|p]; cbn [exec]; cbv beta zeta.
    - (* run() *) bind IH' (fun _ _ _ => extends_refl _). intros o s1. tg.
    - (* _mainloop *)
      destruct (run_loop s); [|apply extends_refl]. bind IH' (Hk _). intros o s1. tg.
    - (* _process_signals_loop *)
      destruct (run_loop s); [|apply extends_refl]. destruct (do_get s) as [[[sg s1]|]|s1]; [|apply extends_refl|apply IH'].
      bind IH' (Hk _). intros o s3. tg.
    - (* _process_signals_with_return *)
      destruct (run_loop s); [|apply extends_refl]. destruct (do_get s) as [[[sg s1]|]|s1]; [|apply extends_refl|apply IH'].
      bind IH' _; [intros [|[]| |] s3 N; try apply extends_refl|intros o s3; tg].
      destruct (check_ticket _ _ _) as [[[] ?]|]; first [apply IH'|apply extends_refl].
    - (* _process_signals_iteration *)
      destruct (negb _ && _); [|apply extends_refl]. destruct (q_pop _) as [[[[p cnt] sg] q']|]; [|apply extends_refl].
      destruct prio as [p0|]; [destruct (p =? p0)%Z; [|apply extends_refl]|];
        (bind IH' (Hk _); intros o s3; tg).
    - (* _process_signal *)
      destruct (handlers_of _ (sg_cls sg)) as [hs|]; [|apply extends_refl].
      destruct (force_quit _); [apply extends_refl|]. destruct (nth_error hs idx) as [[hid data]|]; [|apply extends_refl].
      bind IH' _; [intros [|[]| |] s2 N; try apply extends_refl|intros o s2; unfold new_signal; tg].
      + apply IH'.
      + destruct (new_signal _ _). apply IH'.
    - (* the public API *)
      destruct a as [sp| |sp| |[cls|]|o|cls hid data|arg|sp]; try apply extends_refl.
      + destruct (new_signal s sp) as [sg s1]. destruct (force_quit s1); [apply extends_refl|].
        bind IH' (fun _ _ _ => extends_refl _). intros o s4. tg.
      + bind IH' (fun _ _ _ => extends_refl _). intros o s0. tg.
      + destruct (take_ticket _ _) as [t tm]. bind IH' (fun _ _ _ => extends_refl _). intros o s2. tg.
      + bind IH' (fun _ _ _ => extends_refl _). intros o s1. tg.
    - (* handler bodies *)
      destruct p as [|e|p1 p2|p1 h|a|g|cnd b|e]; try apply extends_refl.
      + bind IH' (Hk _). intros o s1. tg.
      + bind IH' _; [intros [|[]| |] s1 N; first [apply IH'|apply extends_refl]|intros o s1; tg].
      + apply IH'.
      + destruct (g (ust s)). apply IH'.
      + destruct (cnd (ust s)); [|apply extends_refl]. bind IH' (Hk _). intros o s1. tg.
  Qed.
End Sem.

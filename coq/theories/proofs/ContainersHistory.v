(* ContainersHistory.v — C16: the outputs of a history of render / add operations on a long-lived
   tree depend only on the current tree and the width.  In the model this is immediate (the state
   of the object IS the tree, see ContainerObject.v); what ties it to the implementation is the
   correspondence run of checks/C16.py, which drives real long-lived objects through the same
   histories. *)
From SL Require Import Tac proofs.ListFacts.
From SL Require Import PyInt Widget TextWrap KeyPattern Containers ContainerObject proofs.ContainersProofs.
Import ListNotations.

Definition step_tree (t : wtree) (o : op) : wtree :=
  match o with OAdd p x => add_at p t x | _ => t end.

Lemma final_tree_cons t o ops : final_tree t (o :: ops) = final_tree (step_tree t o) ops.
Proof. reflexivity. Qed.

Lemma final_tree_app t ops1 ops2 : final_tree t (ops1 ++ ops2) = final_tree (final_tree t ops1) ops2.
Proof. unfold final_tree. apply fold_left_app. Qed.

Lemma run_ops_app : forall ops1 t ops2,
  run_ops t (ops1 ++ ops2) = run_ops t ops1 ++ run_ops (final_tree t ops1) ops2.
Proof.
  induction ops1 as [|o ops1 IH]; intros t ops2; [reflexivity|].
  rewrite final_tree_cons. destruct o as [w|p x|t' w]; cbn [app run_ops step_tree]; rewrite IH; reflexivity.
Qed.

Lemma history_irrelevant ops t w :
  run_ops t (ops ++ [ORender w]) = run_ops t ops ++ [render_tree (final_tree t ops) w].
Proof. rewrite run_ops_app. reflexivity. Qed.

Lemma final_tree_adds_only : forall ops t, final_tree t ops = final_tree t (filter is_add ops).
Proof.
  induction ops as [|o ops IH]; intros t; [reflexivity|].
  destruct o as [w|p x|t' w]; cbn [filter is_add]; rewrite !final_tree_cons; cbn [step_tree]; apply IH.
Qed.

Lemma final_tree_no_adds ops t : (forall o, In o ops -> is_add o = false) -> final_tree t ops = t.
Proof.
  intros H. rewrite final_tree_adds_only.
  replace (filter is_add ops) with (@nil op); [reflexivity|].
  symmetry. apply filter_none. exact H.
Qed.

Lemma render_again ops t w :
  (forall o, In o ops -> is_add o = false) ->
  run_ops t (ORender w :: ops ++ [ORender w]) =
  render_tree t w :: run_ops t ops ++ [render_tree t w].
Proof.
  intros H. cbn [run_ops]. rewrite history_irrelevant, final_tree_no_adds by exact H. reflexivity.
Qed.

Lemma add_item_list k c items f s kp x :
  add_item (WList k c items f s kp) x = WList k c (items ++ [x]) f s kp.
Proof. reflexivity. Qed.

Lemma add_items_list k c items f s kp xs :
  fold_left add_item xs (WList k c items f s kp) = WList k c (items ++ xs) f s kp.
Proof.
  revert items. induction xs as [|x xs IH]; intros items; cbn [fold_left].
  - now rewrite app_nil_r.
  - rewrite add_item_list, IH, <- app_assoc. reflexivity.
Qed.

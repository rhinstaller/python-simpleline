(* WidgetProofs.v — lemmas about Widget.v (draw / write of simpleline.render.widgets.Widget): C15, and what the
   proofs about wrapped text (C11) and containers (C12, C13, C17) need of a buffer.  Most is stated cell-wise:
   [cell b i j] is the character shown at row i, column j (None = no such cell); the rest bounds [buf_width]. *)
From SL Require Import Tac.
From SL Require Import Widget proofs.ListFacts.
From Coq Require Import Sorted.
Import ListNotations.

Definition cell (b : buffer) (i j : nat) : option char :=
  match nth_error b i with Some l => nth_error l j | None => None end.

Definition row_len (b : buffer) (i : nat) : nat :=
  match nth_error b i with Some l => length l | None => 0 end.

Definition row (b : buffer) (i : nat) : line := nth i b [].

Lemma cell_row b i j : cell b i j = nth_error (row b i) j.
Proof.
  unfold cell, row. destruct (nth_error b i) as [l|] eqn:E.
  - erewrite nth_error_nth; eauto.
  - apply nth_error_None in E. rewrite nth_overflow by lia. destruct j; reflexivity.
Qed.

Lemma row_len_row b i : row_len b i = length (row b i).
Proof.
  unfold row_len, row. destruct (nth_error b i) as [l|] eqn:E.
  - erewrite nth_error_nth; eauto.
  - apply nth_error_None in E. rewrite nth_overflow by lia. reflexivity.
Qed.

Lemma row_nil i : row [] i = [].
Proof. destruct i; reflexivity. Qed.

Lemma cell_some_lt b i j v : cell b i j = Some v -> j < row_len b i.
Proof.
  rewrite cell_row, row_len_row. intros H. apply nth_error_Some. congruence.
Qed.

Lemma cell_none_ge b i j : cell b i j = None <-> row_len b i <= j.
Proof. rewrite cell_row, row_len_row. apply nth_error_None. Qed.

Lemma cell_defined src y x : x < row_len src y -> exists ch, cell src y x = Some ch.
Proof.
  intros H. destruct (cell src y x) as [ch|] eqn:E; [now exists ch|].
  apply cell_none_ge in E. lia.
Qed.

Lemma cell_nil i j : cell [] i j = None.
Proof. unfold cell. destruct i; reflexivity. Qed.

Lemma list_ext_nth_error {A} : forall l1 l2 : list A, (forall n, nth_error l1 n = nth_error l2 n) -> l1 = l2.
Proof.
  induction l1 as [|a l1 IH]; intros [|b l2] H.
  - reflexivity.
  - specialize (H 0). discriminate.
  - specialize (H 0). discriminate.
  - pose proof (H 0) as H0. cbn in H0. injection H0 as ->. f_equal. apply IH. intros n. exact (H (S n)).
Qed.

Lemma buffer_ext : forall b1 b2 : buffer,
  length b1 = length b2 -> (forall i j, cell b1 i j = cell b2 i j) -> b1 = b2.
Proof.
  induction b1 as [|l1 b1 IH]; intros [|l2 b2] Hlen H; cbn [length] in Hlen; try lia; [reflexivity|].
  f_equal.
  - apply list_ext_nth_error. intros n. exact (H 0 n).
  - apply IH; [lia|]. intros i j. exact (H (S i) j).
Qed.

Lemma nth_error_firstn_lt {A} : forall n (l : list A) j, j < n -> nth_error (firstn n l) j = nth_error l j.
Proof.
  induction n as [|n IH]; intros l j H; [lia|].
  destruct l as [|a l]; [reflexivity|]. destruct j as [|j]; [reflexivity|].
  cbn. apply IH. lia.
Qed.

Lemma nth_error_skipn_add {A} : forall n (l : list A) j, nth_error (skipn n l) j = nth_error l (n + j).
Proof.
  induction n as [|n IH]; intros l j; [reflexivity|].
  destruct l as [|a l]; [destruct j; reflexivity|]. cbn. apply IH.
Qed.

Lemma nth_error_pad (l : line) n j :
  nth_error (l ++ repeat SP n) j =
  match nth_error l j with Some v => Some v | None => if j <? length l + n then Some SP else None end.
Proof.
  destruct (nth_error l j) eqn:E.
  - rewrite nth_error_app1 by (apply nth_error_Some; congruence). exact E.
  - apply nth_error_None in E. rewrite nth_error_app2 by lia. destruct (j <? length l + n) eqn:E2.
    + apply nth_error_repeat. lia.
    + apply nth_error_None. rewrite repeat_length. lia.
Qed.

Lemma put_line_length tl c s : length (put_line tl c s) = Nat.max (length tl) (c + length s).
Proof.
  unfold put_line. repeat rewrite ?app_length, ?firstn_length, ?skipn_length, ?repeat_length. lia.
Qed.

Lemma put_line_nth tl c s j :
  nth_error (put_line tl c s) j =
    if (c <=? j) && (j <? c + length s) then nth_error s (j - c)
    else match nth_error tl j with Some v => Some v | None => if j <? c then Some SP else None end.
Proof.
  unfold put_line.
  set (n := c + length s - length tl).
  assert (Hf : length (firstn c (tl ++ repeat SP n)) = c).
  { rewrite firstn_length, app_length, repeat_length. lia. }
  destruct (c <=? j) eqn:E1; cbn [andb].
  - rewrite nth_error_app2 by lia. rewrite Hf.
    destruct (j <? c + length s) eqn:E2; [apply nth_error_app1; lia|].
    rewrite nth_error_app2 by lia. rewrite nth_error_skipn_add, nth_error_pad.
    replace (c + length s + (j - c - length s)) with j by lia. replace (j <? c) with false by lia.
    destruct (nth_error tl j) eqn:E3; [reflexivity|]. apply nth_error_None in E3.
    replace (j <? length tl + n) with false by lia. reflexivity.
  - rewrite nth_error_app1 by lia. rewrite nth_error_firstn_lt by lia. rewrite nth_error_pad.
    destruct (nth_error tl j) eqn:E2; [reflexivity|]. apply nth_error_None in E2.
    replace (j <? c) with true by lia. replace (j <? length tl + n) with true by lia. reflexivity.
Qed.

Lemma overlay_length : forall src b c, length (overlay b c src) = Nat.max (length b) (length src).
Proof.
  induction src as [|s src IH]; intros b c; cbn [overlay length]; [lia|].
  destruct b as [|l b]; cbn [length]; rewrite IH; cbn [length]; lia.
Qed.

Lemma row_cons_S (l : line) b i : row (l :: b) (S i) = row b i.
Proof. reflexivity. Qed.

Lemma overlay_row : forall src b c i,
  row (overlay b c src) i = if i <? length src then put_line (row b i) c (row src i) else row b i.
Proof.
  induction src as [|s src IH]; intros b c i; cbn [overlay length].
  - reflexivity.
  - destruct b as [|l b]; destruct i as [|i]; try reflexivity.
    + rewrite row_cons_S, IH. change (S i <? S (length src)) with (i <? length src).
      rewrite ?row_cons_S, ?row_nil. reflexivity.
    + rewrite row_cons_S, IH. change (S i <? S (length src)) with (i <? length src).
      rewrite ?row_cons_S. reflexivity.
Qed.

Lemma draw_at_length : forall r b c src, length (draw_at b r c src) = Nat.max (length b) (r + length src).
Proof.
  induction r as [|r IH]; intros b c src; cbn [draw_at].
  - rewrite overlay_length. lia.
  - destruct b as [|l b]; cbn [length]; rewrite IH; cbn [length]; lia.
Qed.

Lemma draw_at_row : forall r b c src i,
  row (draw_at b r c src) i =
  if (r <=? i) && (i <? r + length src) then put_line (row b i) c (row src (i - r)) else row b i.
Proof.
  induction r as [|r IH]; intros b c src i; cbn [draw_at].
  - rewrite overlay_row. rewrite Nat.sub_0_r. cbn [Nat.leb andb Nat.add]. reflexivity.
  - destruct b as [|l b]; destruct i as [|i]; try reflexivity.
    + rewrite row_cons_S, IH.
      change (S r <=? S i) with (r <=? i). change (S i <? S r + length src) with (i <? r + length src).
      change (S i - S r) with (i - r). rewrite ?row_nil. reflexivity.
    + rewrite row_cons_S, IH.
      change (S r <=? S i) with (r <=? i). change (S i <? S r + length src) with (i <? r + length src).
      change (S i - S r) with (i - r). rewrite ?row_cons_S. reflexivity.
Qed.

Definition in_rows (r : nat) (src : buffer) (i : nat) : bool := (r <=? i) && (i <? r + length src).
Definition in_rect (r c : nat) (src : buffer) (i j : nat) : bool :=
  in_rows r src i && (c <=? j) && (j <? c + row_len src (i - r)).

Definition draw_cell_spec (T : buffer) (r c : nat) (src : buffer) (i j : nat) : option char :=
  if in_rect r c src i j then cell src (i - r) (j - c)
  else match cell T i j with
       | Some ch => Some ch
       | None => if in_rows r src i && (j <? c) then Some SP else None
       end.

Lemma draw_cells T r c block src i j :
  cell (fst (draw T r c block src)) i j = draw_cell_spec T r c src i j.
Proof.
  unfold draw, draw_cell_spec, in_rect, in_rows. cbn [fst].
  rewrite !cell_row, draw_at_row, !row_len_row.
  destruct ((r <=? i) && (i <? r + length src)); cbn [andb].
  - apply put_line_nth.
  - destruct (nth_error (row T i) j); reflexivity.
Qed.

Lemma in_rect_iff r c src i j :
  in_rect r c src i j = true <-> r <= i < r + length src /\ c <= j < c + row_len src (i - r).
Proof. unfold in_rect, in_rows. lia. Qed.

Lemma draw_inside T r c block src i j :
  r <= i -> i < r + length src -> c <= j -> j < c + row_len src (i - r) ->
  cell (fst (draw T r c block src)) i j = cell src (i - r) (j - c).
Proof.
  intros H1 H2 H3 H4. rewrite draw_cells. unfold draw_cell_spec.
  rewrite (proj2 (in_rect_iff r c src i j)) by lia. reflexivity.
Qed.

Lemma draw_outside_kept T r c block src i j ch :
  ~ (r <= i < r + length src /\ c <= j < c + row_len src (i - r)) ->
  cell T i j = Some ch ->
  cell (fst (draw T r c block src)) i j = Some ch.
Proof.
  intros H1 H2. rewrite draw_cells. unfold draw_cell_spec.
  destruct (in_rect r c src i j) eqn:E.
  - apply in_rect_iff in E. contradiction.
  - rewrite H2. reflexivity.
Qed.

Lemma draw_padding T r c block src i j :
  r <= i -> i < r + length src -> row_len T i <= j -> j < c ->
  cell (fst (draw T r c block src)) i j = Some SP.
Proof.
  intros H1 H2 H3 H4. rewrite draw_cells. unfold draw_cell_spec.
  apply cell_none_ge in H3. rewrite H3.
  replace (in_rect r c src i j) with false by (unfold in_rect; lia).
  replace (in_rows r src i && (j <? c)) with true by (unfold in_rows; lia). reflexivity.
Qed.

Lemma draw_absent T r c block src i j :
  ~ (r <= i < r + length src /\ j < c + row_len src (i - r)) ->
  cell T i j = None ->
  cell (fst (draw T r c block src)) i j = None.
Proof.
  intros H1 H2. rewrite draw_cells. unfold draw_cell_spec.
  destruct (in_rect r c src i j) eqn:E.
  - apply in_rect_iff in E. lia.
  - rewrite H2. destruct (in_rows r src i && (j <? c)) eqn:E2; [|reflexivity].
    exfalso. apply H1. unfold in_rows in E2. lia.
Qed.

Lemma draw_height T r c block src :
  length (fst (draw T r c block src)) = Nat.max (length T) (r + length src).
Proof. apply draw_at_length. Qed.

Lemma draw_row_len T r c block src i :
  row_len (fst (draw T r c block src)) i =
  if in_rows r src i then Nat.max (row_len T i) (c + row_len src (i - r)) else row_len T i.
Proof.
  unfold draw, in_rows. cbn [fst]. rewrite !row_len_row, draw_at_row.
  destruct ((r <=? i) && (i <? r + length src)); [|reflexivity].
  apply put_line_length.
Qed.

Lemma draw_cursor T r c block src :
  snd (draw T r c block src) = (r + length src, if block then c else 0).
Proof. reflexivity. Qed.

Lemma put_line_nil s : put_line [] 0 s = s.
Proof.
  unfold put_line. cbn [app Nat.add length firstn]. rewrite Nat.sub_0_r.
  rewrite skipn_all2 by (rewrite repeat_length; lia). apply app_nil_r.
Qed.

Lemma overlay_nil src : overlay [] 0 src = src.
Proof. induction src as [|s src IH]; [reflexivity|]. cbn [overlay]. now rewrite put_line_nil, IH. Qed.

Lemma draw_at_end b src : draw_at b (length b) 0 src = b ++ src.
Proof.
  induction b as [|l b IH]; cbn [length draw_at app]; [apply overlay_nil | now rewrite IH].
Qed.

Lemma draw_end b src : draw b (length b) 0 false src = (b ++ src, (length (b ++ src), 0)).
Proof. unfold draw. now rewrite draw_at_end, app_length. Qed.

Lemma fold_width_le (b : buffer) : forall a m,
  fold_left (fun acc (l : line) => Nat.max acc (length l)) b a <= m <->
  a <= m /\ Forall (fun l : line => length l <= m) b.
Proof.
  induction b as [|l b IH]; intros a m; cbn [fold_left].
  - split; [intros H; split; [exact H|constructor]|tauto].
  - rewrite IH. split.
    + intros [H1 H2]. split; [lia|]. constructor; [lia|exact H2].
    + intros [H1 H2]. inversion H2 as [|? ? H3 H4]; subst. split; [lia|exact H4].
Qed.

Lemma buf_width_le b m : buf_width b <= m <-> Forall (fun l : line => length l <= m) b.
Proof. unfold buf_width. rewrite fold_width_le. split; [tauto|]. intros H. split; [lia|exact H]. Qed.

Lemma buf_width_le_Z b w : (0 <= w)%Z ->
  (Z.of_nat (buf_width b) <= w)%Z <-> Forall (fun l : line => (Z.of_nat (length l) <= w)%Z) b.
Proof.
  intros Hw. rewrite <- (Z2Nat.id w) at 1 by exact Hw. rewrite <- Nat2Z.inj_le, buf_width_le.
  split; intros H; (eapply Forall_impl; [|exact H]); cbn beta; intros l Hl; lia.
Qed.

Lemma buf_width_le_rows b m : buf_width b <= m <-> forall i, row_len b i <= m.
Proof.
  rewrite buf_width_le, Forall_forall. split.
  - intros H i. rewrite row_len_row. unfold row.
    destruct (nth_in_or_default i b []) as [Hin | ->]; [now apply H|cbn; lia].
  - intros H l Hl. destruct (In_nth_error _ _ Hl) as [i Hi]. specialize (H i).
    unfold row_len in H. now rewrite Hi in H.
Qed.

Lemma row_len_le_width (src : buffer) y : row_len src y <= buf_width src.
Proof. now apply buf_width_le_rows. Qed.

Lemma draw_buf_width b r col block src m :
  buf_width b <= m -> col + buf_width src <= m -> buf_width (fst (draw b r col block src)) <= m.
Proof.
  intros Hb Hs. apply buf_width_le_rows. intros i. rewrite draw_row_len.
  pose proof (row_len_le_width b i). pose proof (row_len_le_width src (i - r)).
  destruct (in_rows r src i); lia.
Qed.

Lemma ensure_row_length b x : length (ensure_row b x) = Nat.max (length b) (S x).
Proof. unfold ensure_row. rewrite app_length, repeat_length. lia. Qed.

Lemma ensure_row_row b x i : row (ensure_row b x) i = row b i.
Proof.
  unfold ensure_row, row. destruct (i <? length b) eqn:E.
  - apply app_nth1. lia.
  - rewrite app_nth2 by lia. rewrite nth_repeat. symmetry. apply nth_overflow. lia.
Qed.

Lemma ensure_row_cell b x i j : cell (ensure_row b x) i j = cell b i j.
Proof. rewrite !cell_row, ensure_row_row. reflexivity. Qed.

Lemma set_in_line_put_line l y ch : set_in_line l y ch = put_line l y [ch].
Proof. unfold set_in_line, put_line. cbn [length app]. rewrite Nat.add_1_r. reflexivity. Qed.

(* _increase_x/y_buffer_size and _save_character_to_buffer together draw the one-character buffer [[ch]] at (x, y) *)
Lemma set_cell_draw : forall x b y ch, set_cell (ensure_row b x) x y ch = draw_at b x y [[ch]].
Proof.
  unfold ensure_row. induction x as [|x IH]; intros [|l b] y ch; cbn [length Nat.sub repeat app set_cell draw_at overlay].
  - now rewrite set_in_line_put_line.
  - now rewrite set_in_line_put_line, app_nil_r.
  - f_equal. exact (IH [] y ch).
  - f_equal. exact (IH b y ch).
Qed.

Lemma step_cell b x y ch i j :
  cell (set_cell (ensure_row b x) x y ch) i j =
  if (i =? x) && (j =? y) then Some ch
  else match cell b i j with
       | Some v => Some v
       | None => if (i =? x) && (j <? y) then Some SP else None
       end.
Proof.
  rewrite set_cell_draw. change (draw_at b x y [[ch]]) with (fst (draw b x y false [[ch]])).
  rewrite draw_cells. unfold draw_cell_spec, in_rect, in_rows. cbn [length].
  destruct (i =? x) eqn:E1.
  - apply Nat.eqb_eq in E1. subst i. rewrite Nat.sub_diag. cbn [row_len nth_error length].
    replace ((x <=? x) && (x <? x + 1)) with true by lia. cbn [andb].
    replace ((y <=? j) && (j <? y + 1)) with (j =? y) by lia.
    destruct (j =? y) eqn:E2; [|reflexivity]. replace (j - y) with 0 by lia. reflexivity.
  - replace ((x <=? i) && (i <? x + 1)) with false by lia. reflexivity.
Qed.

Lemma step_length b x y ch : length (set_cell (ensure_row b x) x y ch) = Nat.max (length b) (S x).
Proof. rewrite set_cell_draw, draw_at_length. cbn [length]. lia. Qed.

Definition wrap_col (col : nat) (block : bool) : nat := if block then col else 0.

(* `width is not None and y >= col + width`, y already incremented *)
Definition at_margin (width : option nat) (col y1 : nat) : bool :=
  match width with Some w => col + w <=? y1 | None => false end.

(* positions written, one per non-newline character, in text order *)
Fixpoint path (text : list char) (x y col : nat) (width : option nat) (block : bool) : list (nat * nat) :=
  match text with
  | [] => []
  | ch :: rest =>
    if (ch =? NL)%N then path rest (S x) (wrap_col col block) col width block
    else (x, y) :: (if at_margin width col (S y)
                    then path rest (S x) (wrap_col col block) col width block
                    else path rest x (S y) col width block)
  end.

Fixpoint path_end (text : list char) (x y col : nat) (width : option nat) (block : bool) : nat * nat :=
  match text with
  | [] => (x, y)
  | ch :: rest =>
    if (ch =? NL)%N then path_end rest (S x) (wrap_col col block) col width block
    else if at_margin width col (S y)
         then path_end rest (S x) (wrap_col col block) col width block
         else path_end rest x (S y) col width block
  end.

(* number of rows the typewriter makes sure exist: the row of every character written and the row
   entered by every newline (a wrap at the margin alone does not create the next row) *)
Fixpoint need_rows (text : list char) (x y col : nat) (width : option nat) (block : bool) : nat :=
  match text with
  | [] => 0
  | ch :: rest =>
    if (ch =? NL)%N then Nat.max (S (S x)) (need_rows rest (S x) (wrap_col col block) col width block)
    else Nat.max (S x) (if at_margin width col (S y)
                        then need_rows rest (S x) (wrap_col col block) col width block
                        else need_rows rest x (S y) col width block)
  end.

Definition visible (text : list char) : list char := filter (fun ch => negb (ch =? NL)%N) text.

Lemma typewriter_cons ch rest b x y col width block :
  typewriter (ch :: rest) b x y col width block =
  if (ch =? NL)%N then typewriter rest (ensure_row b (S x)) (S x) (wrap_col col block) col width block
  else if at_margin width col (S y)
       then typewriter rest (set_cell (ensure_row b x) x y ch) (S x) (wrap_col col block) col width block
       else typewriter rest (set_cell (ensure_row b x) x y ch) x (S y) col width block.
Proof. destruct width; reflexivity. Qed.

Lemma path_length : forall text x y col width block,
  length (path text x y col width block) = length (visible text).
Proof.
  induction text as [|ch rest IH]; intros x y col width block; [reflexivity|].
  cbn [path visible filter]. destruct (ch =? NL)%N eqn:E; cbn [negb].
  - apply IH.
  - cbn [length]. f_equal. destruct (at_margin width col (S y)); apply IH.
Qed.

Definition pos_lt (p q : nat * nat) : Prop := fst p < fst q \/ (fst p = fst q /\ snd p < snd q).
Definition pos_le (p q : nat * nat) : Prop := fst p < fst q \/ (fst p = fst q /\ snd p <= snd q).

Lemma path_ge : forall text x y col width block p,
  In p (path text x y col width block) -> pos_le (x, y) p.
Proof.
  induction text as [|ch rest IH]; intros x y col width block p H; [destruct H|].
  cbn [path] in H. unfold pos_le in *. cbn [fst snd] in *.
  destruct (ch =? NL)%N eqn:E.
  - apply IH in H. cbn [fst snd] in H. lia.
  - destruct H as [H|H].
    + subst p. cbn [fst snd]. lia.
    + destruct (at_margin width col (S y)); apply IH in H; cbn [fst snd] in H; lia.
Qed.

Lemma path_sorted : forall text x y col width block,
  StronglySorted pos_lt (path text x y col width block).
Proof.
  induction text as [|ch rest IH]; intros x y col width block; [constructor|].
  cbn [path]. destruct (ch =? NL)%N eqn:E; [apply IH|].
  constructor.
  - destruct (at_margin width col (S y)); apply IH.
  - apply Forall_forall. intros p H.
    destruct (at_margin width col (S y)); apply path_ge in H;
      unfold pos_le, pos_lt in *; cbn [fst snd] in *; lia.
Qed.

Lemma sorted_NoDup : forall l, StronglySorted pos_lt l -> NoDup l.
Proof. apply StronglySorted_NoDup. unfold pos_lt. intros a. lia. Qed.

Lemma path_next_fresh_wrap text x y x' y' col width block :
  pos_lt (x, y) (x', y') -> ~ In (x, y) (path text x' y' col width block).
Proof.
  intros H Hin. apply path_ge in Hin. unfold pos_lt, pos_le in *. cbn [fst snd] in *. lia.
Qed.

Lemma typewriter_off_path : forall text b x y col width block i j,
  ~ In (i, j) (path text x y col width block) ->
  cell (fst (typewriter text b x y col width block)) i j =
  match cell b i j with
  | Some v => Some v
  | None => if existsb (fun p => (fst p =? i) && (j <? snd p)) (path text x y col width block)
            then Some SP else None
  end.
Proof.
  induction text as [|ch rest IH]; intros b x y col width block i j Hn; [cbn; destruct (cell b i j); reflexivity|].
  rewrite typewriter_cons. cbn [path] in *.
  destruct (ch =? NL)%N eqn:E; [rewrite IH, ensure_row_cell by exact Hn; reflexivity|].
  cbn [In] in Hn.
  assert (Hne : (i =? x) && (j =? y) = false).
  { destruct ((i =? x) && (j =? y)) eqn:E2; [|reflexivity]. exfalso. apply Hn. left. f_equal; lia. }
  cbn [existsb fst snd]. rewrite (Nat.eqb_sym x i).
  destruct (at_margin width col (S y)); rewrite IH by tauto; rewrite step_cell, Hne;
    destruct (cell b i j); try reflexivity; destruct ((i =? x) && (j <? y)); reflexivity.
Qed.

Lemma typewriter_kept text b x y col width block i j v :
  ~ In (i, j) (path text x y col width block) ->
  cell b i j = Some v ->
  cell (fst (typewriter text b x y col width block)) i j = Some v.
Proof. intros Hn Hc. rewrite typewriter_off_path, Hc by exact Hn. reflexivity. Qed.

Lemma typewriter_written : forall text b x y col width block k p ch,
  nth_error (path text x y col width block) k = Some p ->
  nth_error (visible text) k = Some ch ->
  cell (fst (typewriter text b x y col width block)) (fst p) (snd p) = Some ch.
Proof.
  induction text as [|c rest IH]; intros b x y col width block k p ch Hp Hv.
  { destruct k; discriminate. }
  rewrite typewriter_cons. cbn [path] in Hp. cbn [visible filter] in Hv.
  destruct (c =? NL)%N eqn:E; cbn [negb] in Hv.
  - eapply IH; eauto.
  - destruct k as [|k]; cbn [nth_error] in Hp, Hv.
    + injection Hp as <-. injection Hv as <-. cbn [fst snd].
      assert (Hb1 : cell (set_cell (ensure_row b x) x y c) x y = Some c).
      { rewrite step_cell, !Nat.eqb_refl. reflexivity. }
      destruct (at_margin width col (S y)); apply typewriter_kept; auto;
        apply path_next_fresh_wrap; unfold pos_lt; cbn [fst snd]; lia.
    + destruct (at_margin width col (S y)); eapply IH; eauto.
Qed.

Lemma typewriter_padding text b x y col width block i j j' :
  ~ In (i, j) (path text x y col width block) ->
  cell b i j = None ->
  In (i, j') (path text x y col width block) -> j < j' ->
  cell (fst (typewriter text b x y col width block)) i j = Some SP.
Proof.
  intros Hn Hc Hin Hlt. rewrite typewriter_off_path, Hc by exact Hn.
  replace (existsb _ _) with true; [reflexivity|]. symmetry. apply existsb_exists.
  exists (i, j'). split; [exact Hin|]. cbn [fst snd]. lia.
Qed.

Lemma typewriter_absent text b x y col width block i j :
  ~ In (i, j) (path text x y col width block) ->
  cell b i j = None ->
  (forall j', In (i, j') (path text x y col width block) -> j' < j) ->
  cell (fst (typewriter text b x y col width block)) i j = None.
Proof.
  intros Hn Hc Hall. rewrite typewriter_off_path, Hc by exact Hn.
  destruct (existsb _ _) eqn:E; [|reflexivity]. apply existsb_exists in E.
  destruct E as ([i' j'] & Hin & E). cbn [fst snd] in E. assert (i' = i) by lia. subst i'.
  apply Hall in Hin. lia.
Qed.

Lemma typewriter_height : forall text b x y col width block,
  length (fst (typewriter text b x y col width block)) =
  Nat.max (length b) (need_rows text x y col width block).
Proof.
  induction text as [|ch rest IH]; intros b x y col width block; [cbn; lia|].
  rewrite typewriter_cons. cbn [need_rows].
  destruct (ch =? NL)%N eqn:E.
  - rewrite IH, ensure_row_length. lia.
  - destruct (at_margin width col (S y)); rewrite IH, step_length; lia.
Qed.

Lemma typewriter_cursor : forall text b x y col width block,
  snd (typewriter text b x y col width block) = path_end text x y col width block.
Proof.
  induction text as [|ch rest IH]; intros b x y col width block; [reflexivity|].
  rewrite typewriter_cons. cbn [path_end].
  destruct (ch =? NL)%N eqn:E; [apply IH|].
  destruct (at_margin width col (S y)); apply IH.
Qed.

Lemma sorted_nth : forall (l : list (nat * nat)) k1 k2 p1 p2,
  StronglySorted pos_lt l -> k1 < k2 ->
  nth_error l k1 = Some p1 -> nth_error l k2 = Some p2 -> pos_lt p1 p2.
Proof.
  induction l as [|p l IH]; intros k1 k2 p1 p2 Hs Hlt H1 H2; [destruct k1; discriminate|].
  inversion Hs as [|? ? Hs' Hall]; subst.
  destruct k2 as [|k2]; [lia|]. cbn [nth_error] in H2.
  destruct k1 as [|k1]; cbn [nth_error] in H1.
  - injection H1 as <-. rewrite Forall_forall in Hall. apply Hall. eapply nth_error_In; eauto.
  - apply (IH k1 k2 p1 p2); auto. lia.
Qed.

Lemma path_right_bound : forall text x y col w block i j,
  1 <= w -> y < col + w ->
  In (i, j) (path text x y col (Some w) block) -> j < col + w.
Proof.
  induction text as [|ch rest IH]; intros x y col w block i j Hw Hy Hin; [destruct Hin|].
  cbn [path] in Hin.
  assert (Hwc : wrap_col col block < col + w) by (destruct block; cbn; lia).
  destruct (ch =? NL)%N eqn:E.
  - eapply IH; eauto.
  - destruct Hin as [Hin|Hin]; [injection Hin as <- <-; exact Hy|].
    unfold at_margin in Hin. destruct (col + w <=? S y) eqn:E2.
    + eapply IH; eauto.
    + eapply IH; [exact Hw| |exact Hin]. lia.
Qed.

Lemma path_left_bound : forall text x y col width i j,
  col <= y ->
  In (i, j) (path text x y col width true) -> col <= j.
Proof.
  induction text as [|ch rest IH]; intros x y col width i j Hy Hin; [destruct Hin|].
  cbn [path wrap_col] in Hin.
  destruct (ch =? NL)%N eqn:E.
  - eapply IH; [|exact Hin]. lia.
  - destruct Hin as [Hin|Hin]; [injection Hin as <- <-; exact Hy|].
    destruct (at_margin width col (S y)); (eapply IH; [|exact Hin]); lia.
Qed.

Lemma path_block_closed_form : forall text x y col w k,
  1 <= w -> col <= y -> y < col + w ->
  Forall (fun ch => (ch =? NL)%N = false) text ->
  k < length text ->
  nth_error (path text x y col (Some w) true) k =
  Some (x + (y - col + k) / w, col + (y - col + k) mod w).
Proof.
  induction text as [|ch rest IH]; intros x y col w k Hw Hy1 Hy2 Hall Hk; cbn [length] in Hk; [lia|].
  inversion Hall as [|? ? Hch Hrest]; subst.
  cbn [path wrap_col]. rewrite Hch.
  destruct k as [|k]; cbn [nth_error].
  - rewrite Nat.add_0_r. rewrite Nat.div_small by lia. rewrite Nat.mod_small by lia.
    f_equal. f_equal; lia.
  - unfold at_margin. destruct (col + w <=? S y) eqn:E.
    + rewrite IH by (auto; lia).
      replace (y - col + S k) with (col - col + k + 1 * w) by lia.
      rewrite Nat.div_add by lia. rewrite Nat.mod_add by lia. f_equal. f_equal; lia.
    + rewrite IH by (auto; lia).
      replace (S y - col + k) with (y - col + S k) by lia. reflexivity.
Qed.

Lemma write_buffer b cur text row col width block :
  fst (write b cur text row col width block) = fst (typewriter text b row col col width block).
Proof. destruct text; reflexivity. Qed.

Lemma write_cursor b cur text row col width block :
  text <> [] ->
  snd (write b cur text row col width block) = path_end text row col col width block.
Proof. destruct text; [congruence|]. intros _. apply typewriter_cursor. Qed.

Lemma write_wraps text row col w block i j :
  1 <= w ->
  In (i, j) (path text row col col (Some w) block) ->
  j < col + w /\ (block = true -> col <= j).
Proof.
  intros Hw Hin. split.
  - eapply path_right_bound; eauto. lia.
  - intros ->. eapply path_left_bound; [|exact Hin]. lia.
Qed.

Lemma write_block_reading_order text row col w k :
  1 <= w ->
  Forall (fun ch => (ch =? NL)%N = false) text ->
  k < length text ->
  nth_error (path text row col col (Some w) true) k = Some (row + k / w, col + k mod w).
Proof.
  intros Hw Hall Hk. rewrite path_block_closed_form by (auto; lia).
  rewrite Nat.sub_diag. reflexivity.
Qed.

Lemma path_nonblock_as_block : forall text x y col w,
  path text x y col (Some w) false = path text x y 0 (Some (col + w)) true.
Proof.
  induction text as [|ch rest IH]; intros x y col w; [reflexivity|].
  cbn [path wrap_col at_margin Nat.add]. rewrite !IH. reflexivity.
Qed.

Lemma write_nonblock_reading_order text row col w k :
  1 <= w ->
  Forall (fun ch => (ch =? NL)%N = false) text ->
  k < length text ->
  nth_error (path text row col col (Some w) false) k =
  Some (row + (col + k) / (col + w), (col + k) mod (col + w)).
Proof.
  intros Hw Hall Hk. rewrite path_nonblock_as_block, path_block_closed_form by (auto; lia).
  rewrite Nat.sub_0_r. reflexivity.
Qed.

Definition line_path (x y : nat) (l : list char) : list (nat * nat) := map (pair x) (seq y (length l)).

Lemma path_line : forall l x y col block,
  Forall (fun ch => (ch =? NL)%N = false) l -> path l x y col None block = line_path x y l.
Proof.
  induction l as [|c l IH]; intros x y col block H; [reflexivity|]. inversion H as [|? ? Hc Hl]; subst.
  cbn [path at_margin]. rewrite Hc, IH by exact Hl. reflexivity.
Qed.

Lemma line_path_nth l x y j : j < length l -> nth_error (line_path x y l) j = Some (x, y + j).
Proof.
  intros H. unfold line_path. rewrite nth_error_map, (nth_error_nth' _ 0) by (rewrite seq_length; exact H).
  rewrite seq_nth by exact H. reflexivity.
Qed.

Lemma line_path_in l x y i j : In (i, j) (line_path x y l) <-> i = x /\ y <= j < y + length l.
Proof.
  unfold line_path. rewrite in_map_iff. split.
  - intros (j0 & [= <- <-] & H). apply in_seq in H. lia.
  - intros [-> H]. exists j. split; [reflexivity|]. apply in_seq. lia.
Qed.

Lemma path_app : forall t1 t2 x y col width block,
  path (t1 ++ t2) x y col width block =
  path t1 x y col width block ++
  path t2 (fst (path_end t1 x y col width block)) (snd (path_end t1 x y col width block)) col width block.
Proof.
  induction t1 as [|ch t1 IH]; intros t2 x y col width block; [reflexivity|].
  cbn [app path path_end]. destruct (ch =? NL)%N eqn:E; [apply IH|].
  cbn [app]. f_equal. destruct (at_margin width col (S y)); apply IH.
Qed.

Lemma path_newline t1 t2 x y col width block :
  path (t1 ++ NL :: t2) x y col width block =
  path t1 x y col width block ++
  path t2 (S (fst (path_end t1 x y col width block))) (if block then col else 0) col width block.
Proof. rewrite path_app. reflexivity. Qed.

Lemma path_end_app : forall t1 t2 x y col width block,
  path_end (t1 ++ t2) x y col width block =
  path_end t2 (fst (path_end t1 x y col width block)) (snd (path_end t1 x y col width block)) col width block.
Proof.
  induction t1 as [|ch t1 IH]; intros t2 x y col width block; [reflexivity|].
  cbn [app path_end]. destruct (ch =? NL)%N; [apply IH|].
  destruct (at_margin width col (S y)); apply IH.
Qed.

Lemma path_end_line l : forall x y col block,
  Forall (fun ch => (ch =? NL)%N = false) l -> path_end l x y col None block = (x, y + length l).
Proof.
  induction l as [|c l IH]; intros x y col block H; [cbn; f_equal; lia|]. inversion H as [|? ? Hc Hl]; subst.
  cbn [path_end at_margin length]. rewrite Hc, IH by exact Hl. f_equal. lia.
Qed.

Lemma need_rows_line_app l : forall rest x y col block,
  Forall (fun ch => (ch =? NL)%N = false) l ->
  need_rows (l ++ rest) x y col None block =
  Nat.max (match l with [] => 0 | _ => S x end) (need_rows rest x (y + length l) col None block).
Proof.
  induction l as [|c l IH]; intros rest x y col block H.
  - cbn [app length]. rewrite Nat.add_0_r. reflexivity.
  - inversion H as [|? ? Hc Hl]; subst. cbn [app need_rows at_margin length]. rewrite Hc, IH by exact Hl.
    replace (S y + length l) with (y + S (length l)) by lia. destruct l; lia.
Qed.

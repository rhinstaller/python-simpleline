(* TicketProofs.v — the TicketMachine (LoopSem.tmachine) seen as a finite map (line, id) -> flag,
   and its behaviour on every sequence of operations (property C10). *)
From SL Require Import Tac.
From SL Require Import LoopSem LegacyTicket proofs.ListFacts.
From RecordUpdate Require Import RecordUpdate.
Import ListNotations.

(* the flag of ticket [id] in line [line]: None = no such ticket (KeyError) *)
Definition tflag (tm : tmachine) (line id : nat) : option bool :=
  match line_get (tm_lines tm) line with
  | Some ts => option_map snd (find (fun p => (fst p =? id)%nat) ts)
  | None => None
  end.

(* what a successful check leaves behind *)
Definition tpop (tm : tmachine) (line id : nat) : tmachine :=
  tm <| tm_lines := line_update (tm_lines tm) line (filter (fun p => negb (fst p =? id)%nat)) false |>.

Definition tm_wf (tm : tmachine) : Prop :=
  forall line id b, tflag tm line id = Some b -> id < tm_counter tm.

Lemma line_get_update ls l f c l' :
  line_get (line_update ls l f c) l' =
  if (l' =? l)%nat
  then match line_get ls l' with Some ts => Some (f ts) | None => if c then Some (f []) else None end
  else line_get ls l'.
Proof.
  unfold line_get. induction ls as [|[l0 ts] r IH]; cbn [line_update find].
  - rewrite (Nat.eqb_sym l' l). destruct c; cbn; destruct (l =? l')%nat; reflexivity.
  - destruct (l0 =? l)%nat eqn:E; cbn [find fst].
    + apply Nat.eqb_eq in E as ->. rewrite (Nat.eqb_sym l' l). destruct (l =? l')%nat; reflexivity.
    + destruct (l0 =? l')%nat eqn:E'; [|exact IH]. apply Nat.eqb_eq in E' as ->. rewrite E. reflexivity.
Qed.

Lemma find_filter_ne (ts : list (nat * bool)) id id' :
  id' <> id ->
  find (fun p => (fst p =? id')%nat) (filter (fun p => negb (fst p =? id)%nat) ts) =
  find (fun p => (fst p =? id')%nat) ts.
Proof.
  intros Hne. induction ts as [|[i b] r IH]; cbn [filter find fst]; [reflexivity|].
  destruct (i =? id)%nat eqn:E; cbn [negb find fst].
  - apply Nat.eqb_eq in E; subst i.
    destruct (id =? id')%nat eqn:E2; [apply Nat.eqb_eq in E2; congruence|exact IH].
  - destruct (i =? id')%nat; [reflexivity|exact IH].
Qed.

Lemma find_filter_eq (ts : list (nat * bool)) id :
  find (fun p => (fst p =? id)%nat) (filter (fun p => negb (fst p =? id)%nat) ts) = None.
Proof.
  induction ts as [|[i b] r IH]; cbn [filter find fst]; [reflexivity|].
  destruct (i =? id)%nat eqn:E; cbn [negb find fst]; [exact IH|rewrite E; exact IH].
Qed.

Lemma find_map_true (ts : list (nat * bool)) id :
  find (fun p => (fst p =? id)%nat) (map (fun p => (fst p, true)) ts) =
  option_map (fun p => (fst p, true)) (find (fun p => (fst p =? id)%nat) ts).
Proof.
  induction ts as [|[i b] r IH]; cbn [map find fst]; [reflexivity|].
  destruct (i =? id)%nat; [reflexivity|exact IH].
Qed.

Lemma check_ticket_flag tm line id :
  check_ticket tm line id =
  match tflag tm line id with
  | None => None
  | Some true => Some (true, tpop tm line id)
  | Some false => Some (false, tm)
  end.
Proof.
  unfold check_ticket, tflag, tpop. destruct (line_get (tm_lines tm) line) as [ts|]; [|reflexivity].
  destruct (find (fun p => (fst p =? id)%nat) ts) as [[i [|]]|]; reflexivity.
Qed.

Lemma tflag_mark tm l line id :
  tflag (mark_line_to_go tm l) line id =
  if (line =? l)%nat then option_map (fun _ => true) (tflag tm line id) else tflag tm line id.
Proof.
  unfold tflag, mark_line_to_go. cbn [tm_lines set eta_tm].
  change (tm_lines (set tm_lines _ tm)) with
    (line_update (tm_lines tm) l (map (fun p => (fst p, true))) false).
  rewrite line_get_update. destruct (line =? l)%nat; [|reflexivity].
  destruct (line_get (tm_lines tm) line) as [ts|]; [|reflexivity].
  rewrite find_map_true. destruct (find _ ts) as [[i b]|]; reflexivity.
Qed.

Lemma tflag_pop tm l i line id :
  tflag (tpop tm l i) line id =
  if ((line =? l) && (id =? i))%nat then None else tflag tm line id.
Proof.
  unfold tflag, tpop.
  change (tm_lines (set tm_lines _ tm)) with
    (line_update (tm_lines tm) l (filter (fun p => negb (fst p =? i)%nat)) false).
  rewrite line_get_update. destruct (line =? l)%nat; cbn [andb]; [|reflexivity].
  destruct (line_get (tm_lines tm) line) as [ts|]; [|destruct (id =? i)%nat; reflexivity].
  destruct (id =? i)%nat eqn:E2.
  - apply Nat.eqb_eq in E2; subst i. rewrite find_filter_eq. reflexivity.
  - apply Nat.eqb_neq in E2. rewrite find_filter_ne by exact E2. reflexivity.
Qed.

Lemma take_ticket_id tm l : fst (take_ticket tm l) = tm_counter tm.
Proof. reflexivity. Qed.

Lemma take_ticket_counter tm l : tm_counter (snd (take_ticket tm l)) = S (tm_counter tm).
Proof. reflexivity. Qed.

Lemma tflag_take tm l line id :
  tm_wf tm ->
  tflag (snd (take_ticket tm l)) line id =
  if ((line =? l) && (id =? tm_counter tm))%nat then Some false else tflag tm line id.
Proof.
  intros Hwf. unfold tflag, take_ticket. cbn [snd].
  change (tm_lines (set tm_counter _ (set tm_lines _ tm))) with
    (line_update (tm_lines tm) l (fun ts => ts ++ [(tm_counter tm, false)]) true).
  rewrite line_get_update. destruct (line =? l)%nat; cbn [andb]; [|reflexivity].
  pose proof (Hwf line id) as Hw. unfold tflag in Hw.
  destruct (line_get (tm_lines tm) line) as [ts|].
  - rewrite find_app. cbn [find fst].
    destruct (find (fun p => (fst p =? id)%nat) ts) as [[i b]|] eqn:F.
    + cbn [option_map snd] in *. specialize (Hw b eq_refl).
      destruct (id =? tm_counter tm)%nat eqn:E2; [apply Nat.eqb_eq in E2; lia|reflexivity].
    + rewrite (Nat.eqb_sym (tm_counter tm) id). destruct (id =? tm_counter tm)%nat; reflexivity.
  - cbn [app find fst]. rewrite (Nat.eqb_sym (tm_counter tm) id).
    destruct (id =? tm_counter tm)%nat; reflexivity.
Qed.

Lemma wf_empty : tm_wf tm_empty.
Proof. intros line id b H. discriminate H. Qed.

Lemma wf_mark tm l : tm_wf tm -> tm_wf (mark_line_to_go tm l).
Proof.
  intros Hwf line id b H. rewrite tflag_mark in H.
  change (tm_counter (mark_line_to_go tm l)) with (tm_counter tm).
  destruct (line =? l)%nat.
  - destruct (tflag tm line id) as [b'|] eqn:F; [|discriminate H]. exact (Hwf _ _ _ F).
  - exact (Hwf _ _ _ H).
Qed.

Lemma wf_pop tm l i : tm_wf tm -> tm_wf (tpop tm l i).
Proof.
  intros Hwf line id b H. rewrite tflag_pop in H.
  change (tm_counter (tpop tm l i)) with (tm_counter tm).
  destruct ((line =? l) && (id =? i))%nat; [discriminate H|exact (Hwf _ _ _ H)].
Qed.

Lemma wf_take tm l : tm_wf tm -> tm_wf (snd (take_ticket tm l)).
Proof.
  intros Hwf line id b H. rewrite tflag_take in H by exact Hwf. rewrite take_ticket_counter.
  destruct ((line =? l) && (id =? tm_counter tm))%nat eqn:E.
  - apply andb_true_iff in E. destruct E as [_ E]. apply Nat.eqb_eq in E. lia.
  - pose proof (Hwf _ _ _ H). lia.
Qed.

Lemma wf_check tm l i b tm' : tm_wf tm -> check_ticket tm l i = Some (b, tm') -> tm_wf tm'.
Proof.
  intros Hwf H. rewrite check_ticket_flag in H.
  destruct (tflag tm l i) as [[|]|]; inversion H; subst; [apply wf_pop|]; exact Hwf.
Qed.

Inductive tkop := TkTake (line : nat) | TkMark (line : nat) | TkCheck (line id : nat).

Definition tstep (tm : tmachine) (o : tkop) : tmachine :=
  match o with
  | TkTake l => snd (take_ticket tm l)
  | TkMark l => mark_line_to_go tm l
  | TkCheck l i => match check_ticket tm l i with Some (_, tm') => tm' | None => tm end    (* KeyError: unchanged *)
  end.

Definition run_ops (ops : list tkop) : tmachine := fold_left tstep ops tm_empty.

Lemma run_ops_snoc ops o : run_ops (ops ++ [o]) = tstep (run_ops ops) o.
Proof. apply fold_left_app. Qed.

Lemma wf_tstep tm o : tm_wf tm -> tm_wf (tstep tm o).
Proof.
  intros Hwf. destruct o as [l|l|l i]; cbn [tstep]; [apply wf_take|apply wf_mark|]; try exact Hwf.
  destruct (check_ticket tm l i) as [[b tm']|] eqn:C; [exact (wf_check _ _ _ _ _ Hwf C)|exact Hwf].
Qed.

Lemma tflag_check tm l i line id :
  tflag (tstep tm (TkCheck l i)) line id =
  if ((line =? l) && (id =? i))%nat
  then match tflag tm line id with Some true => None | x => x end
  else tflag tm line id.
Proof.
  cbn [tstep]. rewrite check_ticket_flag.
  destruct (tflag tm l i) as [[|]|] eqn:F; [rewrite tflag_pop|..];
    (destruct ((line =? l) && (id =? i))%nat eqn:E; [|reflexivity]);
    apply andb_true_iff in E; destruct E as [->%Nat.eqb_eq ->%Nat.eqb_eq]; rewrite F; reflexivity.
Qed.

Lemma counter_check tm l i : tm_counter (tstep tm (TkCheck l i)) = tm_counter tm.
Proof. cbn [tstep]. rewrite check_ticket_flag. destruct (tflag tm l i) as [[|]|]; reflexivity. Qed.

Fixpoint takes (h : list tkop) : nat :=
  match h with [] => 0 | TkTake _ :: r => S (takes r) | _ :: r => takes r end.

Lemma takes_app a b : takes (a ++ b) = takes a + takes b.
Proof. induction a as [|[l|l|l i] r IH]; cbn; lia. Qed.

Lemma takes_rev a : takes (rev a) = takes a.
Proof. induction a as [|[l|l|l i] r IH]; cbn; [reflexivity|..]; rewrite takes_app; cbn; lia. Qed.

(* reference: the status of ticket (line, id) after a history (newest first), by the rules of the
   docstrings: a take hands out the number of earlier takes, unmarked; a mark of the line marks it; a check
   of a marked ticket removes it *)
Fixpoint status (h : list tkop) (line id : nat) : option bool :=
  match h with
  | [] => None
  | TkTake l :: r => if ((line =? l) && (id =? takes r))%nat then Some false else status r line id
  | TkMark l :: r => if (line =? l)%nat then option_map (fun _ => true) (status r line id) else status r line id
  | TkCheck l i :: r =>
    if ((line =? l) && (id =? i))%nat
    then match status r line id with Some true => None | x => x end
    else status r line id
  end.

Lemma run_ops_spec ops :
  tm_wf (run_ops ops) /\ tm_counter (run_ops ops) = takes ops /\
  forall line id, tflag (run_ops ops) line id = status (rev ops) line id.
Proof.
  induction ops as [|o ops (Hwf & Hc & Hf)] using rev_ind; [split; [exact wf_empty|split; reflexivity]|].
  rewrite run_ops_snoc. split; [apply wf_tstep, Hwf|]. split.
  - rewrite takes_app, <- Hc. destruct o as [l|l|l i]; [cbn; lia..|rewrite counter_check; cbn; lia].
  - intros line id. rewrite rev_unit. destruct o as [l|l|l i]; cbn [status]; rewrite <- Hf.
    + rewrite takes_rev, <- Hc. apply tflag_take, Hwf.
    + apply tflag_mark.
    + apply tflag_check.
Qed.

Lemma run_ops_wf ops : tm_wf (run_ops ops).
Proof. apply run_ops_spec. Qed.

Lemma check_ticket_status ops line id :
  check_ticket (run_ops ops) line id =
  match status (rev ops) line id with
  | None => None
  | Some true => Some (true, tpop (run_ops ops) line id)
  | Some false => Some (false, run_ops ops)
  end.
Proof. rewrite check_ticket_flag. destruct (run_ops_spec ops) as (_ & _ & ->). reflexivity. Qed.

Lemma status_lt h line id b : status h line id = Some b -> id < takes h.
Proof.
  destruct (run_ops_spec (rev h)) as (Hwf & Hc & Hf). rewrite rev_involutive in Hf.
  rewrite <- Hf, <- (takes_rev h), <- Hc. apply Hwf.
Qed.

Lemma status_cons_false o r line id :
  status (o :: r) line id = Some false <->
  (o = TkTake line /\ takes r = id) \/ (o <> TkMark line /\ status r line id = Some false).
Proof.
  destruct o as [l|l|l i]; cbn [status].
  - destruct ((line =? l) && (id =? takes r))%nat eqn:E.
    + apply andb_true_iff in E. destruct E as [->%Nat.eqb_eq ->%Nat.eqb_eq]. tauto.
    + split; [right; split; [discriminate|assumption]|]. intros [[[= ->] <-]|[_ H]]; [|exact H].
      rewrite !Nat.eqb_refl in E. discriminate E.
  - destruct (line =? l)%nat eqn:E.
    + apply Nat.eqb_eq in E as <-. split; [destruct (status r line id); discriminate|].
      intros [[[=] _]|[H _]]. now destruct H.
    + split; [right; split; [intros [= ->]; rewrite Nat.eqb_refl in E; discriminate E|assumption]|].
      intros [[[=] _]|[_ H]]. exact H.
  - transitivity (status r line id = Some false).
    + destruct ((line =? l) && (id =? i))%nat; [|reflexivity].
      destruct (status r line id) as [[|]|]; split; congruence.
    + split; [right; split; [discriminate|assumption]|]. intros [[[=] _]|[_ H]]. exact H.
Qed.

Lemma status_cons_true o r line id :
  status (o :: r) line id = Some true <->
  (o = TkMark line /\ status r line id = Some false) \/ (o <> TkCheck line id /\ status r line id = Some true).
Proof.
  destruct o as [l|l|l i]; cbn [status].
  - destruct ((line =? l) && (id =? takes r))%nat eqn:E.
    + apply andb_true_iff in E. destruct E as [_ ->%Nat.eqb_eq].
      split; [discriminate|]. intros [[[=] _]|[_ H]]. apply status_lt in H. lia.
    + split; [right; split; [discriminate|assumption]|]. intros [[[=] _]|[_ H]]. exact H.
  - destruct (line =? l)%nat eqn:E.
    + apply Nat.eqb_eq in E as <-. destruct (status r line id) as [[|]|]; cbn [option_map].
      * split; [right; split; [discriminate|reflexivity]|reflexivity].
      * split; [left; split; reflexivity|reflexivity].
      * split; [discriminate|]. intros [[_ [=]]|[_ [=]]].
    + split; [right; split; [discriminate|assumption]|]. intros [[[= ->] _]|[_ H]]; [|exact H].
      rewrite Nat.eqb_refl in E. discriminate E.
  - destruct ((line =? l) && (id =? i))%nat eqn:E.
    + apply andb_true_iff in E. destruct E as [->%Nat.eqb_eq ->%Nat.eqb_eq].
      split; [destruct (status r l i) as [[|]|]; discriminate|]. intros [[[=] _]|[H _]]. now destruct H.
    + split; [|intros [[[=] _]|[_ H]]; exact H]. right. split; [|assumption].
      intros [= -> ->]. rewrite !Nat.eqb_refl in E. discriminate E.
Qed.

(* [Q] holds of a history iff [a] occurred when [P] held and [b] has not occurred since: the shape of every
   statement "the ticket is in this state now" *)
Lemma since_iff {O} (a b : O) (P Q : list O -> Prop) :
  ~ Q [] -> (forall ops o, Q (ops ++ [o]) <-> (o = a /\ P ops) \/ (o <> b /\ Q ops)) ->
  forall ops, Q ops <-> exists pre post, ops = pre ++ a :: post /\ P pre /\ ~ In b post.
Proof.
  intros Q0 Hs. induction ops as [|o ops IH] using rev_ind.
  - split; [intros H; destruct (Q0 H)|]. intros (pre & post & E & _). destruct pre; discriminate E.
  - rewrite Hs, IH. split.
    + intros [[-> HP]|[Ho (pre & post & -> & HP & Hn)]]; [exists ops, []; auto|].
      exists pre, (post ++ [o]). rewrite <- app_assoc. repeat split; [exact HP|].
      rewrite in_app_iff. intros [H|[H|[]]]; [exact (Hn H)|exact (Ho H)].
    + intros (pre & post & E & HP & Hn). apply app_cons_snoc_inv in E as [(-> & -> & ->)|(post' & -> & ->)]; [left; auto|].
      right. rewrite in_app_iff in Hn. split; [intros ->; apply Hn; right; left; reflexivity|].
      exists pre, post'. tauto.
Qed.

Lemma status_false_iff ops line id :
  status (rev ops) line id = Some false <->
  exists pre mid, ops = pre ++ TkTake line :: mid /\ takes pre = id /\ ~ In (TkMark line) mid.
Proof.
  apply (since_iff (TkTake line) (TkMark line) (fun h => takes h = id) (fun h => status (rev h) line id = Some false));
    [discriminate|]. intros h o. rewrite rev_unit, status_cons_false, takes_rev. reflexivity.
Qed.

Lemma status_true_iff ops line id :
  status (rev ops) line id = Some true <->
  exists pre mid post, ops = pre ++ TkTake line :: mid ++ TkMark line :: post /\ takes pre = id /\
                       ~ In (TkMark line) mid /\ ~ In (TkCheck line id) post.
Proof.
  rewrite (since_iff (TkMark line) (TkCheck line id) (fun h => status (rev h) line id = Some false)
                     (fun h => status (rev h) line id = Some true) ltac:(discriminate)).
  - split.
    + intros (h & post & -> & (pre & mid & -> & Hid & Hm)%status_false_iff & Hc).
      exists pre, mid, post. rewrite <- app_assoc. auto.
    + intros (pre & mid & post & -> & Hid & Hm & Hc). exists (pre ++ TkTake line :: mid), post.
      rewrite <- app_assoc. repeat split; [|exact Hc]. apply status_false_iff. eauto.
  - intros h o. rewrite rev_unit, status_cons_true. reflexivity.
Qed.

Lemma ticket_machine_released ops line id :
  (exists tm', check_ticket (run_ops ops) line id = Some (true, tm')) <->
  (exists pre mid post,
      ops = pre ++ TkTake line :: mid ++ TkMark line :: post /\ takes pre = id /\
      ~ In (TkMark line) mid /\ ~ In (TkCheck line id) post).
Proof.
  rewrite <- status_true_iff, check_ticket_status.
  destruct (status (rev ops) line id) as [[|]|]; split; try discriminate; eauto; intros [tm' [=]].
Qed.

Lemma ticket_machine_waiting ops line id :
  check_ticket (run_ops ops) line id = Some (false, run_ops ops) <->
  (exists pre mid, ops = pre ++ TkTake line :: mid /\ takes pre = id /\ ~ In (TkMark line) mid).
Proof.
  rewrite <- status_false_iff, check_ticket_status.
  destruct (status (rev ops) line id) as [[|]|]; split; (discriminate || reflexivity).
Qed.

Lemma mark_releases_all tm line id :
  check_ticket tm line id <> None ->
  exists tm', check_ticket (mark_line_to_go tm line) line id = Some (true, tm').
Proof.
  rewrite !check_ticket_flag, tflag_mark, Nat.eqb_refl.
  destruct (tflag tm line id) as [b|]; [|congruence]. intros _. cbn. eexists. reflexivity.
Qed.

Lemma mark_other_line_untouched tm line line' id :
  line' <> line ->
  option_map fst (check_ticket (mark_line_to_go tm line) line' id) = option_map fst (check_ticket tm line' id).
Proof.
  intros Hne. rewrite !check_ticket_flag, tflag_mark.
  destruct (line' =? line)%nat eqn:E; [apply Nat.eqb_eq in E; congruence|].
  destruct (tflag tm line' id) as [[|]|]; reflexivity.
Qed.

Lemma check_after_take tm line :
  tm_wf tm ->
  let '(id, tm') := take_ticket tm line in check_ticket tm' line id = Some (false, tm').
Proof.
  intros Hwf. change (take_ticket tm line) with (tm_counter tm, snd (take_ticket tm line)). cbv iota beta.
  rewrite check_ticket_flag, tflag_take by exact Hwf. rewrite !Nat.eqb_refl. reflexivity.
Qed.

Lemma not_before tm line :
  tm_wf tm ->
  let tm1 := mark_line_to_go tm line in
  let '(id, tm') := take_ticket tm1 line in
  check_ticket tm' line id = Some (false, tm').
Proof. intros Hwf. apply check_after_take, wf_mark, Hwf. Qed.

Lemma take_fresh tm line line' :
  tm_wf tm -> check_ticket tm line' (fst (take_ticket tm line)) = None.
Proof.
  intros Hwf. rewrite check_ticket_flag, take_ticket_id.
  destruct (tflag tm line' (tm_counter tm)) as [b|] eqn:F; [|reflexivity].
  apply Hwf in F. lia.
Qed.

(* lines keyed by the class's name (python-simpleline before 7e1f12d, finding F12) instead of by the class *)
Lemma legacy_wait_then_dispatch_spec name tm waited dispatched :
  tm_wf tm ->
  legacy_wait_then_dispatch name tm waited dispatched = Some (name waited =? name dispatched)%nat.
Proof.
  intros Hwf. unfold legacy_wait_then_dispatch, legacy_register_wait, legacy_check_processed, legacy_mark_processed.
  change (take_ticket tm (name waited)) with (tm_counter tm, snd (take_ticket tm (name waited))). cbv iota beta.
  rewrite check_ticket_flag, tflag_mark, tflag_take by exact Hwf. rewrite !Nat.eqb_refl. cbn [andb option_map].
  destruct (name waited =? name dispatched)%nat; reflexivity.
Qed.

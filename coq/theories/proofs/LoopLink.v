(* LoopLink.v — the link lemma: the ghost trace of the event-loop model is an honest log.
   [W s], the world an observer reconstructs from the events emitted so far, agrees with the concrete
   state [s] on everything the monitors speak about ([link]); every [exec] is a sequence of atomic
   steps ([astep], [reach_Exec], [exec_steps]) each of which keeps the link ([astep_link]).  A monitor whose
   acceptance is kept by every atomic step accepts every session trace ([session_acc]); a step adds
   at most one event, one that the state warrants ([astep_event]), so it is enough that the monitor
   accepts those ([session_ok]).
   Two facts about [C09Exec.Exec] carry this: [reach_Exec], an induction (one lemma [reach_*] per transformer that [Exec]'s
   constructors are made of), and [Post_Exec], the control-flow specification by call (a call that comes back has not grown [psi] =
   open levels + pending stop request), a corollary of the counting argument [C09Exec.count_Exec] that needs no link;
   it is what makes the return of execute_new_loop an honest event too ([A_newloopret]). *)
From SL Require Import Tac.
From Coq Require Import Permutation Sorted.
From RecordUpdate Require Import RecordUpdate.
From SL Require Import LoopSem Monitors proofs.ListFacts proofs.LoopFacts proofs.MonitorFacts proofs.C09Exec proofs.ExecEqs.
Import ListNotations.

Definition ecnt (e : entry) : nat := snd (fst e).
Definition eprio (e : entry) : Z := fst (fst e).
Definition esig (e : entry) : signal := snd e.
Definition eproj (e : entry) : Z * nat := (eprio e, sg_id (esig e)).

Lemma entry_lt_spec a b :
  entry_lt a b = true <-> (eprio a < eprio b)%Z \/ (eprio a = eprio b /\ ecnt a < ecnt b).
Proof.
  destruct a as [[pa ca] sa], b as [[pb cb] sb]; unfold entry_lt, eprio, ecnt; cbn [fst snd].
  rewrite orb_true_iff, andb_true_iff, Z.ltb_lt, Z.eqb_eq, Nat.ltb_lt. tauto.
Qed.
Lemma entry_lt_false a b :
  entry_lt a b = false <-> ~ ((eprio a < eprio b)%Z \/ (eprio a = eprio b /\ ecnt a < ecnt b)).
Proof. rewrite <- entry_lt_spec. destruct (entry_lt a b); split; congruence. Qed.
Lemma entry_lt_asym a b : entry_lt a b = true -> entry_lt b a = true -> False.
Proof. rewrite !entry_lt_spec. lia. Qed.
Lemma entry_lt_trans a b c : entry_lt a b = true -> entry_lt b c = true -> entry_lt a c = true.
Proof. rewrite !entry_lt_spec. lia. Qed.
Lemma entry_lt_total a b : ecnt a <> ecnt b -> entry_lt a b = false -> entry_lt b a = true.
Proof. rewrite entry_lt_false, entry_lt_spec. lia. Qed.

Fixpoint esorted (l : list entry) : Prop :=
  match l with [] => True | a :: r => Forall (fun b => entry_lt a b = true) r /\ esorted r end.

(* [esorted] is [StronglySorted] by [entry_lt], and [einsert], [esort] are the insertion sort of ListFacts.v at [entry_lt] *)
Lemma esorted_iff l : esorted l <-> StronglySorted (fun a b => entry_lt a b = true) l.
Proof.
  induction l as [|a r IH]; cbn [esorted]; [split; constructor|]. rewrite IH. split.
  - intros [F S]. constructor; assumption.
  - intros S. inversion S; auto.
Qed.

Lemma esorted_perm_unique l1 l2 : esorted l1 -> esorted l2 -> Permutation l1 l2 -> l1 = l2.
Proof. rewrite !esorted_iff. apply sorted_perm_unique. exact entry_lt_asym. Qed.

Fixpoint einsert (x : entry) (l : list entry) : list entry :=
  match l with
  | [] => [x]
  | y :: r => if entry_lt x y then x :: l else y :: einsert x r
  end.
Fixpoint esort (l : list entry) : list entry :=
  match l with [] => [] | x :: r => einsert x (esort r) end.

Lemma esort_eq l : esort l = sort_by entry_lt l.
Proof. induction l as [|x r IH]; [reflexivity|]. cbn [esort sort_by fold_right]. rewrite IH. reflexivity. Qed.

Lemma einsert_perm x l : Permutation (x :: l) (einsert x l).
Proof. exact (Permutation_sym (insert_by_perm entry_lt x l)). Qed.
Lemma esort_perm l : Permutation l (esort l).
Proof. rewrite esort_eq. exact (Permutation_sym (sort_by_perm entry_lt l)). Qed.

Lemma einsert_sorted x l :
  esorted l -> Forall (fun y => ecnt y <> ecnt x) l -> esorted (einsert x l).
Proof.
  rewrite !esorted_iff. intros S D. apply (insert_by_sorted entry_lt _ x l entry_lt_trans); [|exact S].
  intros y Hy. destruct (entry_lt x y) eqn:E; [reflexivity|]. rewrite Forall_forall in D.
  apply entry_lt_total; [exact (not_eq_sym (D y Hy))|exact E].
Qed.

Definition cnts (l : list entry) : list nat := map ecnt l.

Lemma esort_sorted l : NoDup (cnts l) -> esorted (esort l).
Proof.
  induction l as [|x r IH]; intros N; cbn; [exact I|].
  inversion N as [|? ? Nx Nr]; subst. apply einsert_sorted; [apply IH, Nr|].
  rewrite Forall_forall. intros y Hy E. apply Nx.
  apply (Permutation_in _ (Permutation_sym (esort_perm r))) in Hy.
  unfold cnts. rewrite <- E. apply in_map, Hy.
Qed.

Lemma cnts_perm l l' : Permutation l l' -> Permutation (cnts l) (cnts l').
Proof. apply Permutation_map. Qed.

Lemma esort_unique l l' : NoDup (cnts l) -> Permutation l l' -> esort l = esort l'.
Proof.
  intros N P. apply esorted_perm_unique.
  - apply esort_sorted, N.
  - apply esort_sorted. eapply Permutation_NoDup; [apply cnts_perm, P|exact N].
  - etransitivity; [apply Permutation_sym, esort_perm|]. etransitivity; [exact P|apply esort_perm].
Qed.

Lemma esort_of_sorted l l' : NoDup (cnts l) -> Permutation l l' -> esorted l' -> esort l = l'.
Proof.
  intros N P S. apply esorted_perm_unique; [apply esort_sorted, N|exact S|].
  etransitivity; [apply Permutation_sym, esort_perm|exact P].
Qed.

Record qwf (q : equeue) : Prop := {
  qwf_nodup : NoDup (cnts (eq_entries q));
  qwf_bound : Forall (fun e => ecnt e < eq_counter q) (eq_entries q);
  qwf_prio : Forall (fun e => eprio e = sg_prio (esig e)) (eq_entries q) }.

Definition abs (q : equeue) : refq := map eproj (esort (eq_entries q)).

Lemma qwf_empty : qwf empty_queue.
Proof. split; cbn; constructor. Qed.

Lemma min_entry_in l : forall m, In (min_entry m l) (m :: l).
Proof.
  induction l as [|e r IH]; intros m; cbn [min_entry]; [left; reflexivity|].
  specialize (IH (if entry_lt e m then e else m)). destruct IH as [H|H].
  - rewrite <- H. destruct (entry_lt e m); [right; left|left]; reflexivity.
  - right; right; exact H.
Qed.

Lemma min_entry_least l : forall m, NoDup (cnts (m :: l)) -> forall x, In x (m :: l) ->
  x = min_entry m l \/ entry_lt (min_entry m l) x = true.
Proof.
  induction l as [|e r IH]; intros m N x Hx; cbn [min_entry].
  - destruct Hx as [->|[]]. left; reflexivity.
  - set (m' := if entry_lt e m then e else m).
    cbn in N. inversion N as [|? ? Nm N']; subst. inversion N' as [|? ? Ne Nr]; subst.
    assert (Cme : ecnt m <> ecnt e) by (intros E; apply Nm; left; congruence).
    assert (N1 : NoDup (cnts (m' :: r))).
    { unfold m'. destruct (entry_lt e m); cbn; constructor; auto. intros H; apply Nm; right; exact H. }
    assert (Hother : forall y, y = m \/ y = e -> y = m' \/ entry_lt m' y = true).
    { intros y Hy. unfold m'. destruct (entry_lt e m) eqn:E.
      - destruct Hy as [->| ->]; [right; exact E|left; reflexivity].
      - destruct Hy as [->| ->]; [left; reflexivity|right].
        apply entry_lt_total; [congruence|exact E]. }
    assert (Hx' : In x (m' :: r) \/ (x = m \/ x = e)).
    { destruct Hx as [->|[->|Hx]]; [right; left; reflexivity|right; right; reflexivity|left; right; exact Hx]. }
    destruct Hx' as [Hx'|Hx']; [apply IH; assumption|].
    destruct (Hother x Hx') as [->|L]; [apply IH; [assumption|left; reflexivity]|].
    destruct (IH m' N1 m' (or_introl eq_refl)) as [H|H]; [rewrite <- H; right; exact L|].
    right. eapply entry_lt_trans; eauto.
Qed.

Lemma remove_entry_perm c l : forall m, In m l -> ecnt m = c -> NoDup (cnts l) ->
  Permutation l (m :: remove_entry c l).
Proof.
  induction l as [|e r IH]; intros m Hm C N; [destruct Hm|].
  cbn [remove_entry]. fold (ecnt e). cbn in N. inversion N as [|? ? Ne Nr]; subst.
  destruct (ecnt e =? ecnt m) eqn:E.
  - apply Nat.eqb_eq in E. destruct Hm as [->|Hm]; [reflexivity|].
    exfalso. apply Ne. rewrite E. apply in_map, Hm.
  - apply Nat.eqb_neq in E. destruct Hm as [->|Hm]; [congruence|].
    etransitivity; [apply perm_skip, (IH m Hm eq_refl Nr)|apply perm_swap].
Qed.

(* what a pop does to the entries, under the hypothesis it needs: distinct counters *)
Lemma q_pop_perm q m q' : NoDup (cnts (eq_entries q)) -> q_pop q = Some (m, q') ->
  Permutation (eq_entries q) (m :: eq_entries q') /\ eq_counter q' = eq_counter q /\ eq_sources q' = eq_sources q.
Proof.
  intros N H. unfold q_pop in H. destruct (eq_entries q) as [|e r] eqn:E; [discriminate|].
  inversion H; subst m q'; clear H. split; [|split; reflexivity].
  exact (remove_entry_perm _ (e :: r) _ (min_entry_in r e) eq_refl N).
Qed.

Lemma q_pop_sorted q m q' : qwf q -> q_pop q = Some (m, q') ->
  esort (eq_entries q) = m :: esort (eq_entries q') /\ Permutation (eq_entries q) (m :: eq_entries q') /\
  eq_counter q' = eq_counter q /\ eq_sources q' = eq_sources q.
Proof.
  intros [N B P] H. destruct (q_pop_perm _ _ _ N H) as (Pm & Ec & Es).
  assert (N2 : NoDup (cnts (m :: eq_entries q'))) by (eapply Permutation_NoDup; [apply cnts_perm, Pm|exact N]).
  inversion N2 as [|? ? Nm Nr]; subst.
  split; [|split; [exact Pm|split; assumption]].
  apply esort_of_sorted; [exact N|..].
  - etransitivity; [exact Pm|]. apply perm_skip, esort_perm.
  - split; [|apply esort_sorted, Nr].
    rewrite Forall_forall. intros x Hx.
    apply (Permutation_in _ (Permutation_sym (esort_perm _))) in Hx.
    unfold q_pop in H. destruct (eq_entries q) as [|e r] eqn:E; [discriminate|]. injection H as <- _.
    destruct (min_entry_least r e N x) as [->|L]; [| |exact L].
    + eapply Permutation_in; [apply Permutation_sym, Pm|right; exact Hx].
    + exfalso. apply Nm. apply in_map, Hx.
Qed.

(* what is popped is below everything that stays *)
Lemma q_pop_least q m q' : qwf q -> q_pop q = Some (m, q') ->
  forall x, In x (eq_entries q') -> entry_lt m x = true.
Proof.
  intros Wq H x Hx. destruct (q_pop_sorted _ _ _ Wq H) as (E & _).
  pose proof (esort_sorted _ (qwf_nodup _ Wq)) as S. rewrite E in S. destruct S as [F _].
  rewrite Forall_forall in F. apply F. eapply Permutation_in; [apply esort_perm|exact Hx].
Qed.

Lemma remove_entry_in c l e : In e (remove_entry c l) -> In e l.
Proof.
  induction l as [|a l IH]; cbn [remove_entry]; [tauto|].
  destruct (snd (fst a) =? c)%nat; cbn [In]; tauto.
Qed.

Lemma q_pop_spec q e q' :
  q_pop q = Some (e, q') -> In e (eq_entries q) /\ (forall x, In x (eq_entries q') -> In x (eq_entries q)).
Proof.
  unfold q_pop. destruct (eq_entries q) as [|a l] eqn:E; [discriminate|].
  intros H; inversion H; subst; clear H. split; [apply min_entry_in|].
  intros x Hx. change (In x (remove_entry (snd (fst (min_entry a l))) (a :: l))) in Hx.
  eapply remove_entry_in; exact Hx.
Qed.

Lemma q_pop_abs q m q' : qwf q -> q_pop q = Some (m, q') -> abs q = eproj m :: abs q'.
Proof. intros Wq H. unfold abs. destruct (q_pop_sorted _ _ _ Wq H) as [-> _]. reflexivity. Qed.

Lemma q_pop_qwf q m q' : qwf q -> q_pop q = Some (m, q') -> qwf q'.
Proof.
  intros Wq H. destruct (q_pop_sorted _ _ _ Wq H) as (_ & P & C & _). destruct Wq as [N B Pr].
  split.
  - apply cnts_perm in P. eapply Permutation_NoDup in N; [|exact P]. inversion N; assumption.
  - rewrite C. eapply Permutation_Forall in B; [|exact P]. inversion B; assumption.
  - eapply Permutation_Forall in Pr; [|exact P]. inversion Pr; assumption.
Qed.

Lemma q_pop_none q : q_pop q = None -> eq_entries q = [].
Proof. unfold q_pop. destruct (eq_entries q); [reflexivity|discriminate]. Qed.

Lemma einsert_new_proj x l :
  Forall (fun y => ecnt y < ecnt x) l ->
  map eproj (einsert x l) = stable_insert (eprio x) (sg_id (esig x)) (map eproj l).
Proof.
  induction l as [|y r IH]; intros F; cbn; [reflexivity|].
  inversion F as [|? ? Fy Fr]; subst.
  assert (E : entry_lt x y = (eprio x <? eprio y)%Z).
  { destruct (entry_lt x y) eqn:L.
    - apply entry_lt_spec in L. symmetry. apply Z.ltb_lt. lia.
    - apply entry_lt_false in L. symmetry. apply Z.ltb_ge. lia. }
  rewrite E. unfold eproj at 2. destruct (eprio x <? eprio y)%Z; cbn; [reflexivity|].
  f_equal. apply IH, Fr.
Qed.

Lemma esort_snoc l x : NoDup (cnts (l ++ [x])) -> esort (l ++ [x]) = einsert x (esort l).
Proof.
  intros N. change (einsert x (esort l)) with (esort (x :: l)).
  apply esort_unique; [exact N|]. apply Permutation_sym, Permutation_cons_append.
Qed.

Lemma cnts_app l x : cnts (l ++ [x]) = cnts l ++ [ecnt x].
Proof. unfold cnts. rewrite map_app. reflexivity. Qed.

Lemma q_put_nodup q sg : qwf q -> NoDup (cnts (eq_entries q ++ [(sg_prio sg, eq_counter q, sg)])).
Proof.
  intros [N B P]. rewrite cnts_app. apply NoDup_snoc; [exact N|]. cbn. intros H.
  apply in_map_iff in H. destruct H as (e & He & Ie). rewrite Forall_forall in B. apply B in Ie. lia.
Qed.

Lemma q_put_abs q sg : qwf q -> abs (q_put q sg) = stable_insert (sg_prio sg) (sg_id sg) (abs q).
Proof.
  intros Wq. unfold abs, q_put. cbn [eq_entries set].
  rewrite esort_snoc by apply q_put_nodup, Wq. rewrite einsert_new_proj; [reflexivity|].
  eapply Permutation_Forall; [apply esort_perm|apply Wq].
Qed.

Lemma q_put_qwf q sg : qwf q -> qwf (q_put q sg).
Proof.
  intros Wq. pose proof (q_put_nodup q sg Wq) as N'. destruct Wq as [N B P].
  unfold q_put. split; cbn [eq_entries eq_counter set].
  - exact N'.
  - apply Forall_app. split; [eapply Forall_impl; [|exact B]; cbn; intros; lia|].
    constructor; [cbn; lia|constructor].
  - apply Forall_app. split; [exact P|]. constructor; [reflexivity|constructor].
Qed.

Lemma q_put_entry_abs q m q' : qwf q -> q_pop q = Some (m, q') -> abs (q_put_entry q' m) = abs q.
Proof.
  intros Wq H. destruct (q_pop_sorted _ _ _ Wq H) as (_ & P & _). unfold abs, q_put_entry. cbn [eq_entries set].
  f_equal. symmetry. apply esort_unique; [apply Wq|].
  etransitivity; [exact P|apply Permutation_cons_append].
Qed.

Lemma q_put_entry_qwf q m q' : qwf q -> q_pop q = Some (m, q') -> qwf (q_put_entry q' m).
Proof.
  intros Wq H. destruct (q_pop_sorted _ _ _ Wq H) as (_ & P & C & _).
  assert (P' : Permutation (eq_entries q) (eq_entries q' ++ [m]))
    by (etransitivity; [exact P|apply Permutation_cons_append]).
  destruct Wq as [N B Pr]. unfold q_put_entry. split; cbn [eq_entries eq_counter set].
  - eapply Permutation_NoDup; [apply cnts_perm, P'|exact N].
  - rewrite C. eapply Permutation_Forall; [exact P'|exact B].
  - eapply Permutation_Forall; [exact P'|exact Pr].
Qed.

Lemma q_add_source_abs q o : abs (q_add_source q o) = abs q.
Proof. unfold abs. rewrite eq_entries_add_source. reflexivity. Qed.
Lemma q_add_source_qwf q o : qwf q -> qwf (q_add_source q o).
Proof. intros [N B P]. split; rewrite ?eq_counter_add_source, eq_entries_add_source; assumption. Qed.

Definition world_of (t : list event) : world := fold_left world_step t world0.

Lemma world_of_snoc t e : world_of (t ++ [e]) = world_step (world_of t) e.
Proof. apply fold_left_snoc. Qed.

Definition wcore_eq (w w' : world) : Prop :=
  w_sig w = w_sig w' /\ w_hand w = w_hand w' /\ w_levels w = w_levels w' /\ w_active w = w_active w' /\
  (forall q, sources w q = sources w' q) /\ (forall q, pend w q = pend w' q) /\ w_fq w = w_fq w' /\
  w_quit w = w_quit w' /\ w_runloop w = w_runloop w'.

Definition keeps_wcore (e : event) : bool :=
  match e with
  | ESigNew _ _ _ _ | ERegHandler _ _ _ | ERegSource _ _ | ESetQuitCb _ | EEnq _ _ | EDispatch _ _ _
  | ENewLoopEnter _ | ENewLoopReturn _ | EClosePop _ | EForceQuit | ERunEnter => false
  | _ => true
  end.

Lemma world_step_keeps_wcore w e : keeps_wcore e = true -> wcore_eq (world_step w e) w.
Proof.
  intros P. unfold wcore_eq. autorewrite with ws.
  destruct e; try discriminate P; repeat split; intros q; autorewrite with ws; reflexivity.
Qed.

Definition gq (qs : list equeue) (q : nat) : equeue := nth q qs empty_queue.
Definition sig_rec (w : world) (sg : signal) : Prop :=
  lookup (sg_id sg) (w_sig w) = Some (sg_cls sg, sg_prio sg, sg_src sg).
Definition sid_fresh_in (qs : list equeue) (sid : nat) : Prop :=
  forall q e, In e (eq_entries (gq qs q)) -> sg_id (esig e) <> sid.

(* the link on the components of the state it speaks about *)
Record linkc (w : world) (qs : list equeue) (lv : list nat) (ac : nat) (hs : list (nat * list (nat * nat)))
       (fq : bool) (qc : option nat) (ns : nat) (rl : bool) : Prop := {
  lk_levels : w_levels w = lv;
  lk_active : w_active w = ac;
  lk_fq : w_fq w = fq;
  lk_quit : w_quit w = qc;
  lk_hand : w_hand w = hs;
  lk_src : forall q, sources w q = eq_sources (gq qs q);
  lk_pend : forall q, pend w q = abs (gq qs q);
  lk_qwf : forall q, qwf (gq qs q);
  lk_active_lt : ac < length qs;
  lk_levels_lt : Forall (fun q => q < length qs) lv;
  lk_sig : forall q e, In e (eq_entries (gq qs q)) -> sig_rec w (esig e);
  lk_sig_lt : forall sid v, lookup sid (w_sig w) = Some v -> sid < ns;
  lk_sid_uniq : forall q1 q2 e1 e2,
      In e1 (eq_entries (gq qs q1)) -> In e2 (eq_entries (gq qs q2)) ->
      sg_id (esig e1) = sg_id (esig e2) -> q1 = q2 /\ e1 = e2;
  (* the stop flag: whenever the loops have been told to stop, the observer knows *)
  lk_runloop : rl = false -> w_runloop w = false;
  lk_fq_levels : fq = true -> lv = [] }.
Arguments lk_levels {_ _ _ _ _ _ _ _ _}.
Arguments lk_active {_ _ _ _ _ _ _ _ _}.
Arguments lk_fq {_ _ _ _ _ _ _ _ _}.
Arguments lk_quit {_ _ _ _ _ _ _ _ _}.
Arguments lk_hand {_ _ _ _ _ _ _ _ _}.
Arguments lk_src {_ _ _ _ _ _ _ _ _}.
Arguments lk_pend {_ _ _ _ _ _ _ _ _}.
Arguments lk_qwf {_ _ _ _ _ _ _ _ _}.
Arguments lk_active_lt {_ _ _ _ _ _ _ _ _}.
Arguments lk_levels_lt {_ _ _ _ _ _ _ _ _}.
Arguments lk_sig {_ _ _ _ _ _ _ _ _}.
Arguments lk_sig_lt {_ _ _ _ _ _ _ _ _}.
Arguments lk_sid_uniq {_ _ _ _ _ _ _ _ _}.
Arguments lk_runloop {_ _ _ _ _ _ _ _ _}.
Arguments lk_fq_levels {_ _ _ _ _ _ _ _ _}.

Lemma linkc_wcore w w' qs lv ac hs fq qc ns rl :
  wcore_eq w' w -> linkc w qs lv ac hs fq qc ns rl -> linkc w' qs lv ac hs fq qc ns rl.
Proof.
  intros (E1 & E2 & E3 & E4 & E5 & E6 & E7 & E8 & E9) L. destruct L.
  split; unfold sig_rec in *; try intros q; rewrite ?E1, ?E2, ?E3, ?E4, ?E5, ?E6, ?E7, ?E8, ?E9; eauto.
Qed.

Ltac st_simpl := cbn [qstore levels active handlers tickets run_loop force_quit quit_cb next_sig ext trace ust
                      emit set set_q].
Ltac st_simpl_in H := cbn [qstore levels active handlers tickets run_loop force_quit quit_cb next_sig ext trace ust
                      emit set set_q] in H.

Section Link.
  Context {U : Type}.
  Notation lstate := (lstate U).
  Implicit Types s : lstate.

  Definition W (s : lstate) : world := world_of (rev (trace s)).

  Lemma W_cons s s' e : trace s' = e :: trace s -> W s' = world_step (W s) e.
  Proof. unfold W. intros ->. apply world_of_snoc. Qed.

  Lemma W_emit e s : W (emit e s) = world_step (W s) e.
  Proof. apply W_cons. reflexivity. Qed.

  Lemma W_trace s s' : trace s' = trace s -> W s' = W s.
  Proof. unfold W. intros ->. reflexivity. Qed.

  Definition sid_fresh (s : lstate) (sid : nat) : Prop := sid_fresh_in (qstore s) sid.

  Definition linkw (w : world) (s : lstate) : Prop :=
    linkc w (qstore s) (levels s) (active s) (handlers s) (force_quit s) (quit_cb s) (next_sig s) (run_loop s).
  Definition link (s : lstate) : Prop := linkw (W s) s.

  Lemma link_active_lt s : link s -> active s < length (qstore s).
  Proof. intros L. apply L. Qed.
  Lemma link_levels_lt s : link s -> Forall (fun q => q < length (qstore s)) (levels s).
  Proof. intros L. apply L. Qed.
  Lemma link_fq_levels s : link s -> force_quit s = true -> levels s = [].
  Proof. intros L. apply L. Qed.
  Lemma link_runloop s : link s -> run_loop s = false -> w_runloop (W s) = false.
  Proof. intros L. apply L. Qed.
  Lemma link_sig_lt s sid v : link s -> lookup sid (w_sig (W s)) = Some v -> sid < next_sig s.
  Proof. intros L. apply L. Qed.
  Lemma link_levels s : link s -> w_levels (W s) = levels s.
  Proof. intros L. apply L. Qed.
  Lemma link_active s : link s -> w_active (W s) = active s.
  Proof. intros L. apply L. Qed.
  Lemma link_fq s : link s -> w_fq (W s) = force_quit s.
  Proof. intros L. apply L. Qed.
  Lemma link_quit s : link s -> w_quit (W s) = quit_cb s.
  Proof. intros L. apply L. Qed.
  Lemma link_hand s cls : link s -> hand (W s) cls = handlers_of s cls.
  Proof.
    intros L. unfold hand, handlers_of. rewrite (lk_hand L). apply lookup_find.
  Qed.
  Lemma link_sources s q : link s -> sources (W s) q = eq_sources (get_q s q).
  Proof. intros L. apply L. Qed.
  Lemma link_pend s q : link s -> pend (W s) q = abs (get_q s q).
  Proof. intros L. apply L. Qed.
  Lemma link_qwf s q : link s -> qwf (get_q s q).
  Proof. intros L. apply L. Qed.
  Lemma link_sig_rec s q e : link s -> In e (eq_entries (get_q s q)) -> sig_rec (W s) (esig e).
  Proof. intros L. apply L. Qed.
  Lemma link_sid_uniq s q1 q2 e1 e2 : link s ->
    In e1 (eq_entries (get_q s q1)) -> In e2 (eq_entries (get_q s q2)) ->
    sg_id (esig e1) = sg_id (esig e2) -> q1 = q2 /\ e1 = e2.
  Proof. intros L. apply L. Qed.

  Definition score_eq (s s' : lstate) : Prop :=
    qstore s = qstore s' /\ levels s = levels s' /\ active s = active s' /\ handlers s = handlers s' /\
    force_quit s = force_quit s' /\ quit_cb s = quit_cb s' /\ next_sig s = next_sig s' /\ run_loop s = run_loop s'.

  Lemma score_refl s : score_eq s s.
  Proof. repeat split. Qed.

  Lemma link_irrel s s' : score_eq s s' -> trace s' = trace s -> link s -> link s'.
  Proof.
    intros (F1 & F2 & F3 & F4 & F5 & F6 & F7 & F8) T L. unfold link, linkw in *. rewrite (W_trace _ _ T).
    rewrite <- F1, <- F2, <- F3, <- F4, <- F5, <- F6, <- F7, <- F8. exact L.
  Qed.

  Lemma link_set_tickets s t : link (s <| tickets := t |>) <-> link s.
  Proof. split; apply link_irrel; try reflexivity; repeat split. Qed.
  Lemma link_set_ext s x : link (s <| ext := x |>) <-> link s.
  Proof. split; apply link_irrel; try reflexivity; repeat split. Qed.
  Lemma link_set_ust s u : link (s <| ust := u |>) <-> link s.
  Proof. split; apply link_irrel; try reflexivity; repeat split. Qed.

  Lemma link_cons s s' e : trace s' = e :: trace s -> linkw (world_step (W s) e) s' -> link s'.
  Proof. intros T. unfold link. rewrite (W_cons _ _ _ T). auto. Qed.

  Lemma link_emit_keeps_wcore e s : keeps_wcore e = true -> link s -> link (emit e s).
  Proof.
    intros P L. unfold link, linkw. rewrite W_emit. st_simpl.
    eapply linkc_wcore; [apply world_step_keeps_wcore, P|exact L].
  Qed.

  Lemma sig_rec_emit e s sg :
    match e with ESigNew _ _ _ _ => False | _ => True end -> sig_rec (W s) sg -> sig_rec (W (emit e s)) sg.
  Proof. intros He. unfold sig_rec. rewrite W_emit, ws_sig. destruct e; (exact (fun H => H) || destruct He). Qed.
End Link.

Lemma gq_set_nth qs q v q' : q < length qs ->
  gq (set_nth qs q v) q' = if (q' =? q)%nat then v else gq qs q'.
Proof. intros H. unfold gq. apply nth_set_nth, H. Qed.
Lemma gq_snoc qs q : gq (qs ++ [empty_queue]) q = gq qs q.
Proof. apply nth_snoc_default. Qed.
Lemma gq_out qs q : length qs <= q -> gq qs q = empty_queue.
Proof. intros H. unfold gq. apply nth_overflow, H. Qed.

Lemma linkc_signew {w qs lv ac hs fq qc ns rl} sp :
  linkc w qs lv ac hs fq qc ns rl ->
  let w' := world_step w (ESigNew ns (sp_cls sp) (sp_prio sp) (sp_src sp)) in
  linkc w' qs lv ac hs fq qc (S ns) rl /\ sig_rec w' (mk_signal ns sp) /\ sid_fresh_in qs ns.
Proof.
  intros L w'.
  assert (Hfresh : sid_fresh_in qs ns).
  { intros q e He E. apply (lk_sig L), (lk_sig_lt L) in He. lia. }
  split; [|split; [|exact Hfresh]]; unfold w'.
  - pose proof L as [].
    split; unfold sig_rec; try intros q; autorewrite with ws; cbn [lookup]; auto.
    + intros e He. destruct (Nat.eqb_spec (sg_id (esig e)) ns) as [E|_]; [destruct (Hfresh q e He E)|exact (lk_sig L q e He)].
    + intros v. destruct (Nat.eqb_spec q ns) as [->|_]; [lia|]. intros H. apply (lk_sig_lt L) in H. lia.
  - unfold sig_rec. rewrite ws_sig. cbn. rewrite Nat.eqb_refl. reflexivity.
Qed.

(* one queue object is replaced, with at most one entry [x] that was not in it *)
Lemma linkc_replace {w} e {qs lv ac hs fq qc ns rl q v} x :
  linkc w qs lv ac hs fq qc ns rl -> q < length qs ->
  match e with EEnq _ _ | EDispatch _ _ _ | ERequeue _ _ | ERegSource _ _ => True | _ => False end ->
  (forall q', sources (world_step w e) q' = if (q' =? q)%nat then eq_sources v else sources w q') ->
  (forall q', pend (world_step w e) q' = if (q' =? q)%nat then abs v else pend w q') ->
  qwf v ->
  (forall y, In y (eq_entries v) -> In y (eq_entries (gq qs q)) \/
             (x = Some y /\ sig_rec w (esig y) /\ sid_fresh_in qs (sg_id (esig y)))) ->
  linkc (world_step w e) (set_nth qs q v) lv ac hs fq qc ns rl.
Proof.
  intros L Hq He Hsrc Hpend Hwf Hin. pose proof L as [].
  assert (S : w_sig (world_step w e) = w_sig w /\ w_hand (world_step w e) = w_hand w /\
              w_levels (world_step w e) = w_levels w /\ w_active (world_step w e) = w_active w /\
              w_fq (world_step w e) = w_fq w /\ w_quit (world_step w e) = w_quit w /\
              w_runloop (world_step w e) = w_runloop w).
  { autorewrite with ws. destruct e; try contradiction; repeat split. }
  destruct S as (S1 & S2 & S3 & S4 & S7 & S8 & S9).
  assert (Hin' : forall q' y, In y (eq_entries (gq (set_nth qs q v) q')) -> In y (eq_entries (gq qs q')) \/
                   (q' = q /\ x = Some y /\ sig_rec w (esig y) /\ sid_fresh_in qs (sg_id (esig y)))).
  { intros q' y. rewrite gq_set_nth by exact Hq. destruct (Nat.eqb_spec q' q) as [->|]; [|auto].
    intros Hy. destruct (Hin y Hy); auto. }
  split; rewrite ?set_nth_length; unfold sig_rec in *; rewrite ?S1, ?S2, ?S3, ?S4, ?S7, ?S8, ?S9; auto.
  - intros q'. rewrite Hsrc, gq_set_nth by exact Hq. destruct (q' =? q)%nat; auto.
  - intros q'. rewrite Hpend, gq_set_nth by exact Hq. destruct (q' =? q)%nat; auto.
  - intros q'. rewrite gq_set_nth by exact Hq. destruct (q' =? q)%nat; auto.
  - intros q' y Hy. destruct (Hin' _ _ Hy) as [H|(_ & _ & H & _)]; eauto.
  - intros q1 q2 e1 e2 H1 H2 E.
    destruct (Hin' _ _ H1) as [O1|(-> & X1 & _ & F1)], (Hin' _ _ H2) as [O2|(-> & X2 & _ & F2)].
    + eapply (lk_sid_uniq L); eauto.
    + destruct (F2 _ _ O1 E).
    + destruct (F1 _ _ O2 (eq_sym E)).
    + split; congruence.
Qed.

Lemma sig_rec_prio w sg : sig_rec w sg -> sig_prio w (sg_id sg) = sg_prio sg.
Proof. unfold sig_rec, sig_prio. intros ->. reflexivity. Qed.
Lemma sig_rec_cls w sg : sig_rec w sg -> sig_cls w (sg_id sg) = sg_cls sg.
Proof. unfold sig_rec, sig_cls. intros ->. reflexivity. Qed.
Lemma sig_rec_src w sg : sig_rec w sg -> sig_src w (sg_id sg) = sg_src sg.
Proof. unfold sig_rec, sig_src. intros ->. reflexivity. Qed.
Lemma linkc_enq w qs lv ac hs fq qc ns rl q sg :
  linkc w qs lv ac hs fq qc ns rl -> q < length qs -> sig_rec w sg -> sid_fresh_in qs (sg_id sg) ->
  linkc (world_step w (EEnq (sg_id sg) q)) (set_nth qs q (q_put (gq qs q) sg)) lv ac hs fq qc ns rl.
Proof.
  intros L Hq R F.
  apply (linkc_replace (EEnq (sg_id sg) q) (Some (sg_prio sg, eq_counter (gq qs q), sg)) L Hq I).
  - intros q'. rewrite ws_sources. destruct (Nat.eqb_spec q' q) as [->|]; [apply L|reflexivity].
  - intros q'. rewrite ws_pend. destruct (Nat.eqb_spec q' q) as [->|]; [|reflexivity].
    rewrite q_put_abs, (sig_rec_prio _ _ R) by apply L. f_equal. apply L.
  - apply q_put_qwf, L.
  - intros e. unfold q_put. cbn [eq_entries set]. rewrite in_app_iff. intros [H|[<-|[]]]; auto.
Qed.

Lemma linkc_pop_in {w qs lv ac hs fq qc ns rl q m q'} :
  linkc w qs lv ac hs fq qc ns rl -> q_pop (gq qs q) = Some (m, q') ->
  In m (eq_entries (gq qs q)) /\ (forall e, In e (eq_entries q') -> In e (eq_entries (gq qs q))) /\
  pend w q = eproj m :: abs q' /\ eq_sources q' = eq_sources (gq qs q).
Proof.
  intros L P. pose proof (lk_qwf L q) as Wq. destruct (q_pop_spec _ _ _ P) as [Im Isub].
  destruct (q_pop_sorted _ _ _ Wq P) as (_ & _ & _ & Es).
  split; [exact Im|split; [exact Isub|split; [|exact Es]]].
  rewrite (lk_pend L). apply q_pop_abs; assumption.
Qed.

Lemma linkc_dispatch w qs lv ac hs fq qc ns rl q m q' sid d :
  linkc w qs lv ac hs fq qc ns rl -> q < length qs -> q_pop (gq qs q) = Some (m, q') ->
  linkc (world_step w (EDispatch sid q d)) (set_nth qs q q') lv ac hs fq qc ns rl.
Proof.
  intros L Hq P. destruct (linkc_pop_in L P) as (Im & Isub & Hp & Es).
  apply (linkc_replace (EDispatch sid q d) None L Hq I); auto.
  - intros q0. rewrite ws_sources, Es. destruct (Nat.eqb_spec q0 q) as [->|]; [apply L|reflexivity].
  - intros q0. rewrite ws_pend. destruct (Nat.eqb_spec q0 q) as [->|]; [rewrite Hp|]; reflexivity.
  - apply (q_pop_qwf _ _ _ (lk_qwf L q) P).
Qed.

Lemma linkc_requeue w qs lv ac hs fq qc ns rl q m q' sid :
  linkc w qs lv ac hs fq qc ns rl -> q < length qs -> q_pop (gq qs q) = Some (m, q') ->
  linkc (world_step w (ERequeue sid q)) (set_nth qs q (q_put_entry q' m)) lv ac hs fq qc ns rl.
Proof.
  intros L Hq P. destruct (linkc_pop_in L P) as (Im & Isub & Hp & Es).
  pose proof (lk_qwf L q) as Wq.
  apply (linkc_replace (ERequeue sid q) None L Hq I).
  - intros q0. rewrite ws_sources. destruct (Nat.eqb_spec q0 q) as [->|]; [|reflexivity].
    unfold q_put_entry. cbn [eq_sources set]. rewrite Es. apply L.
  - intros q0. rewrite ws_pend. destruct (Nat.eqb_spec q0 q) as [->|]; [|reflexivity].
    rewrite (q_put_entry_abs _ _ _ Wq P). apply L.
  - eapply q_put_entry_qwf; eauto.
  - intros e. unfold q_put_entry. cbn [eq_entries set]. rewrite in_app_iff. intros [H|[<-|[]]]; auto.
Qed.

Lemma linkc_regsource w qs lv ac hs fq qc ns rl q o :
  linkc w qs lv ac hs fq qc ns rl -> q < length qs ->
  linkc (world_step w (ERegSource o q)) (set_nth qs q (q_add_source (gq qs q) o)) lv ac hs fq qc ns rl.
Proof.
  intros L Hq. apply (linkc_replace (ERegSource o q) None L Hq I).
  - intros q0. rewrite ws_sources. destruct (Nat.eqb_spec q0 q) as [->|]; [|reflexivity].
    rewrite (lk_src L), eq_sources_add_source. reflexivity.
  - intros q0. rewrite ws_pend. destruct (Nat.eqb_spec q0 q) as [->|]; [|reflexivity].
    rewrite q_add_source_abs. apply L.
  - apply q_add_source_qwf, L.
  - intros e. rewrite eq_entries_add_source. auto.
Qed.

Lemma linkc_newlevel {w qs lv ac hs fq qc ns rl} :
  linkc w qs lv ac hs fq qc ns rl -> fq = false ->
  linkc (world_step w (ENewLoopEnter (length qs))) (qs ++ [empty_queue]) (lv ++ [length qs]) (length qs) hs fq qc ns rl.
Proof.
  intros L FQ. pose proof L as [].
  split; unfold sources, pend, sig_rec in *; cbn [world_step]; cbn; try (intros; rewrite ?gq_snoc in *; eauto; fail).
  - rewrite (lk_levels L). reflexivity.
  - rewrite app_length. cbn. lia.
  - rewrite app_length. cbn. apply Forall_app. split.
    + eapply Forall_impl; [|exact (lk_levels_lt L)]. cbn. intros. lia.
    + constructor; [lia|constructor].
  - congruence.
Qed.

Lemma linkc_closepop {w qs lv ac hs fq qc ns rl top rest_rev} :
  linkc w qs lv ac hs fq qc ns rl -> rev lv = top :: rest_rev ->
  linkc (world_step w (EClosePop top)) qs (rev rest_rev) (match rest_rev with [] => ac | q :: _ => q end) hs fq qc ns
        (match rest_rev with [] => rl | _ :: _ => false end).
Proof.
  intros L R. pose proof L as [].
  assert (Elv : lv = rev rest_rev ++ [top]) by (rewrite <- (rev_involutive lv), R; reflexivity).
  assert (Erl : removelast (w_levels w) = rev rest_rev) by (rewrite (lk_levels L), Elv; apply removelast_last).
  pose proof (lk_levels_lt L) as Lt. rewrite Elv in Lt. apply Forall_app in Lt.
  split; unfold sig_rec in *; autorewrite with ws; auto.
  - rewrite Erl. unfold last_opt. rewrite rev_involutive. destruct rest_rev; auto.
  - intros q. rewrite ws_sources. apply L.
  - intros q. rewrite ws_pend. apply L.
  - destruct rest_rev as [|q r]; [apply L|]. destruct Lt as [Lt _]. rewrite Forall_forall in Lt. apply Lt.
    cbn. rewrite in_app_iff. right; left; reflexivity.
  - apply Lt.
  - intros F. apply (lk_fq_levels L) in F. rewrite F in R. cbn in R. discriminate R.
Qed.

Lemma linkc_forcequit {w qs lv ac hs fq qc ns rl} :
  linkc w qs lv ac hs fq qc ns rl -> linkc (world_step w EForceQuit) qs [] ac hs true qc ns false.
Proof.
  intros [].
  split; unfold sources, pend, sig_rec in *; cbn [world_step]; cbn; auto.
Qed.

Lemma linkc_runenter {w qs lv ac hs fq qc ns rl} :
  linkc w qs lv ac hs fq qc ns rl -> linkc (world_step w ERunEnter) qs lv ac hs false qc ns true.
Proof.
  intros [].
  split; unfold sources, pend, sig_rec in *; cbn [world_step]; cbn; auto; try discriminate.
Qed.

Lemma linkc_reghandler w qs lv ac hs fq qc ns rl c h d :
  linkc w qs lv ac hs fq qc ns rl ->
  linkc (world_step w (ERegHandler c h d)) qs lv ac (add_handler hs c h d) fq qc ns rl.
Proof.
  intros L. pose proof L as [].
  split; unfold sources, pend, sig_rec in *; cbn [world_step]; cbn; auto.
  rewrite update_add_handler, (lk_hand L). reflexivity.
Qed.

Lemma linkc_setquit {w qs lv ac hs fq qc ns rl a} :
  linkc w qs lv ac hs fq qc ns rl -> linkc (world_step w (ESetQuitCb a)) qs lv ac hs fq (Some a) ns rl.
Proof.
  intros [].
  split; unfold sources, pend, sig_rec in *; cbn [world_step]; cbn; auto.
Qed.

Lemma linkc_init : linkc world0 [empty_queue] [0] 0 [] false None 0 true.
Proof.
  split; unfold sources, pend, sig_rec; cbn; auto.
  - intros [|[|q]]; reflexivity.
  - intros [|[|q]]; reflexivity.
  - intros [|[|q]]; apply qwf_empty.
  - intros [|[|q]] e; cbn; tauto.
  - discriminate.
  - intros [|[|q1]] q2 e1 e2; cbn; tauto.
  - discriminate.
Qed.

(* _mainloop re-arms the stop flag on its way out (no event) ... *)
Lemma linkc_rearm {w qs lv ac hs fq qc ns rl} :
  linkc w qs lv ac hs fq qc ns rl -> linkc w qs lv ac hs fq qc ns true.
Proof.
  intros []. split; auto. discriminate.
Qed.

(* ... and the observer learns it at the following ENewLoopReturn *)
Lemma linkc_newloopret {w qs lv ac hs fq qc ns rl} q :
  linkc w qs lv ac hs fq qc ns rl -> (fq = false -> rl = true) ->
  linkc (world_step w (ENewLoopReturn q)) qs lv ac hs fq qc ns rl.
Proof.
  intros [] H.
  split; unfold sources, pend, sig_rec in *; cbn [world_step]; destruct (w_fq w) eqn:F; cbn; auto; try congruence.
  intros R. rewrite H in R by congruence. discriminate.
Qed.

(* events emitted on their own, with no change of the linked state *)
Definition plain (e : event) : bool :=
  match e with
  | EHandler _ _ _ | EHandlerEnd _ _ _ | EDispatchEnd _ | EProcEnter _ _ | EProcReturn _ _
  | EQuitCb _ | ERunReturn | EKill | EExt _ | EMark _ | ETop | EUser _ _ _ => true
  | _ => false
  end.
Lemma plain_keeps_wcore e : plain e = true -> keeps_wcore e = true.
Proof. destruct e; cbn; congruence. Qed.

Section Steps.
  Context {U : Type}.
  Notation lstate := (lstate U).
  Implicit Types s : lstate.

  Inductive astep : lstate -> lstate -> Prop :=
  | A_irrel s s' : score_eq s s' -> trace s' = trace s -> astep s s'      (* tickets, ust, ext; [run_loop] is read: [A_rearm] *)
  | A_emit s e : plain e = true -> astep s (emit e s)
  | A_newsig s sp : astep s (snd (new_signal s sp))
  | A_enq s sg : sig_rec (W s) sg -> sid_fresh s (sg_id sg) -> astep s (do_enqueue s sg)
  | A_dispatch s p c sg q' : q_pop (get_q s (active s)) = Some ((p, c, sg), q') ->
      astep s (emit (EDispatch (sg_id sg) (active s) (length (levels s))) (set_q s (active s) q'))
  | A_requeue s p c sg q' : q_pop (get_q s (active s)) = Some ((p, c, sg), q') ->
      astep s (emit (ERequeue (sg_id sg) (active s)) (set_q s (active s) (q_put_entry q' (p, c, sg))))
  | A_runenter s : astep s (emit ERunEnter (s <| force_quit := false |> <| run_loop := true |>))
  | A_forcequit s :
      astep s (emit EForceQuit (s <| force_quit := true |> <| levels := [] |> <| run_loop := false |>))
  | A_newlevel s : force_quit s = false ->
      astep s (emit (ENewLoopEnter (length (qstore s)))
                    (s <| qstore := qstore s ++ [empty_queue] |> <| active := length (qstore s) |>
                       <| levels := levels s ++ [length (qstore s)] |>))
  | A_closepop s top rest_rev : rev (levels s) = top :: rest_rev ->
      astep s (match rest_rev with
               | [] => emit (EClosePop top) (s <| levels := rev rest_rev |>)
               | q :: _ => emit (EClosePop top) (s <| levels := rev rest_rev |>) <| active := q |> <| run_loop := false |>
               end)
  | A_regsource s o :
      astep s (emit (ERegSource o (active s)) (set_q s (active s) (q_add_source (get_q s (active s)) o)))
  | A_reghandler s cls hid data :
      astep s (emit (ERegHandler cls hid data) (s <| handlers := add_handler (handlers s) cls hid data |>))
  | A_setquit s arg : astep s (emit (ESetQuitCb arg) (s <| quit_cb := Some arg |>))
  | A_rearm s : astep s (s <| run_loop := true |>)           (* _mainloop on its way out *)
  | A_newloopret s q :                                       (* execute_new_loop returns *)
      (force_quit s = false -> run_loop s = true) ->
      (~ In q (levels s) \/ In q (w_stillborn (W s))) ->
      astep s (emit (ENewLoopReturn q) s).

  Inductive steps : lstate -> lstate -> Prop :=
  | steps_refl s : steps s s
  | steps_cons s s1 s2 : astep s s1 -> steps s1 s2 -> steps s s2.

  Lemma steps_one s s' : astep s s' -> steps s s'.
  Proof. intros H. eapply steps_cons; [exact H|apply steps_refl]. Qed.
  Lemma steps_trans s s1 s2 : steps s s1 -> steps s1 s2 -> steps s s2.
  Proof. induction 1; intros H2; [exact H2|]. eapply steps_cons; eauto. Qed.

  Definition pops s (q sid : nat) : Prop :=
    exists p c sg q', q_pop (get_q s q) = Some ((p, c, sg), q') /\ sid = sg_id sg.
  (* What the state warrants of the event a step adds: something for six kinds of event, nothing for the others.  So
     [session_ok] serves the monitors that read only these (C01, C03); one that also reads handler frames, waits or
     the exit in flight (C02, C09, C10) needs the calling context, i.e. an induction on [Exec]. *)
  Definition ev_ok s (e : event) : Prop :=
    match e with
    | ESigNew sid _ _ _ => sid = next_sig s
    | EEnq sid q => exists sg, sid = sg_id sg /\ sig_rec (W s) sg /\
                      q = match route s (rev (levels s)) (sg_src sg) with Some q => q | None => active s end
    | EDispatch sid q d => pops s q sid /\ q = active s /\ d = length (levels s)
    | ERequeue sid q => pops s q sid /\ q = active s
    | EClosePop top => exists rest_rev, rev (levels s) = top :: rest_rev
    | ENewLoopReturn q => ~ In q (levels s) \/ In q (w_stillborn (W s))
    | _ => True
    end.

  Lemma astep_event s s' : astep s s' -> trace s' = trace s \/ exists e, trace s' = e :: trace s /\ ev_ok s e.
  Proof.
    destruct 1 as [s s' C T|s e P|s sp|s sg R F|s p c sg q' P|s p c sg q' P|s|s|s FQ|s top rest_rev R|s o|s cls hid data|s arg|s|s q H1 H2];
      [left; exact T| | | | | | | | | | | | |left; reflexivity|]; right;
      try (eexists; split; [reflexivity|exact I]).
    - exists e. split; [reflexivity|]. destruct e; try exact I; discriminate P.
    - eexists. split; reflexivity.
    - unfold do_enqueue. destruct (force_quit s); eexists; (split; [reflexivity|]); [exact I|exists sg; auto].
    - eexists. split; [reflexivity|]. repeat split. exists p, c, sg, q'. auto.
    - eexists. split; [reflexivity|]. repeat split. exists p, c, sg, q'. auto.
    - exists (EClosePop top). split; [destruct rest_rev; reflexivity|exists rest_rev; exact R].
    - eexists. split; [reflexivity|exact H2].
  Qed.

  Lemma link_route_target s sg : link s ->
    match route s (rev (levels s)) (sg_src sg) with Some q => q | None => active s end < length (qstore s).
  Proof.
    intros L. destruct (route s (rev (levels s)) (sg_src sg)) as [q|] eqn:R.
    - eapply route_lt; [|exact R]. apply Forall_rev, link_levels_lt, L.
    - apply link_active_lt, L.
  Qed.

  Lemma link_new_signal s sp : link s ->
    link (snd (new_signal s sp)) /\ sig_rec (W (snd (new_signal s sp))) (fst (new_signal s sp)) /\
    sid_fresh (snd (new_signal s sp)) (sg_id (fst (new_signal s sp))).
  Proof.
    intros L. unfold new_signal, link, linkw, sid_fresh. cbn [fst snd]. rewrite !W_emit. st_simpl.
    change (W (s <| next_sig := S (next_sig s) |>)) with (W s).
    apply (linkc_signew sp L).
  Qed.

  Lemma astep_link s s' : link s -> astep s s' -> link s'.
  Proof.
    (* where the step visibly adds one event, [link_cons] leaves the matching [linkc_*] lemma to apply *)
    intros L A. destruct A; try (eapply (link_cons s); [reflexivity|]).
    - eapply link_irrel; eauto.
    - eapply linkc_wcore; [apply world_step_keeps_wcore, plain_keeps_wcore, H|exact L].
    - apply (linkc_signew sp L).
    - unfold do_enqueue. destruct (force_quit s) eqn:FQ; [apply link_emit_keeps_wcore; [reflexivity|exact L]|].
      eapply (link_cons s); [reflexivity|]. apply linkc_enq; try assumption. apply (link_route_target s sg L).
    - eapply linkc_dispatch; [exact L|apply link_active_lt, L|exact H].
    - eapply linkc_requeue; [exact L|apply link_active_lt, L|exact H].
    - apply (linkc_runenter L).
    - apply (linkc_forcequit L).
    - apply (linkc_newlevel L H).
    - destruct rest_rev as [|q r]; (eapply (link_cons s); [reflexivity|]); apply (linkc_closepop L H).
    - apply linkc_regsource; [exact L|apply link_active_lt, L].
    - apply linkc_reghandler, L.
    - apply (linkc_setquit L).
    - exact (linkc_rearm L).
    - apply (linkc_newloopret q L H).
  Qed.

  Lemma steps_link s s' : link s -> steps s s' -> link s'.
  Proof. intros L H. induction H; [exact L|]. apply IHsteps. eapply astep_link; eauto. Qed.

  Lemma link_plain e s : plain e = true -> link s -> link (emit e s).
  Proof. intros Pl. exact (link_emit_keeps_wcore e s (plain_keeps_wcore e Pl)). Qed.

  Lemma link_init (u : U) : link (init_state u).
  Proof. unfold link, linkw, W. cbn. apply linkc_init. Qed.
End Steps.

(* how the stack of levels can change: a prefix survives, what is pushed is new *)
Definition lrel (qn : nat) (l l' : list nat) : Prop :=
  exists k post, l' = firstn k l ++ post /\ Forall (fun x => qn <= x) post.

Lemma lrel_refl qn l : lrel qn l l.
Proof. exists (length l), []. rewrite firstn_all, app_nil_r. split; [reflexivity|constructor]. Qed.

Lemma lrel_trans qn qn' l l' l'' : qn <= qn' -> lrel qn l l' -> lrel qn' l' l'' -> lrel qn l l''.
Proof.
  intros Hq (k & post & -> & F) (k' & post' & -> & F').
  exists (Nat.min k' k), (firstn (k' - length (firstn k l)) post ++ post'). split.
  - rewrite firstn_app, firstn_firstn, app_assoc. reflexivity.
  - apply Forall_app. split; [apply Forall_firstn, F|]. eapply Forall_impl; [|exact F']. cbn. intros. lia.
Qed.

Section Spec.
  Context {U : Type}.
  Notation lstate := (lstate U).
  Implicit Types s : lstate.

  Definition psi s : nat :=
    if force_quit s then 0 else length (levels s) + (if run_loop s then 0 else 1).

  Definition Rel s s' : Prop :=
    length (qstore s) <= length (qstore s') /\
    lrel (length (qstore s)) (levels s) (levels s') /\
    incl (w_stillborn (W s)) (w_stillborn (W s')).

  Lemma rel_refl s : Rel s s.
  Proof. split; [lia|split; [apply lrel_refl|apply incl_refl]]. Qed.
  Lemma rel_trans s s1 s2 : Rel s s1 -> Rel s1 s2 -> Rel s s2.
  Proof.
    intros (A1 & B1 & C1) (A2 & B2 & C2). split; [lia|split].
    - eapply lrel_trans; eauto.
    - eapply incl_tran; eauto.
  Qed.

  Lemma astep_rel s s' : astep s s' -> Rel s s'.
  Proof.
    intros A.
    assert (HS : incl (w_stillborn (W s)) (w_stillborn (W s'))).
    { destruct (astep_event _ _ A) as [T|(e & T & _)]; [rewrite (W_trace _ _ T); apply incl_refl|].
      rewrite (W_cons _ _ _ T). apply w_stillborn_step. }
    assert (same : length (qstore s') = length (qstore s) -> levels s' = levels s -> Rel s s').
    { intros E1 E2. split; [lia|split; [rewrite E2; apply lrel_refl|exact HS]]. }
    destruct A as [s s' C T|s e P|s sp|s sg R F|s p c sg q' P|s p c sg q' P|s|s|s FQ|s top rest_rev R|s o|s cls hid data|s arg|s|s q H1 H2];
      try (apply same; [st_simpl; rewrite ?set_nth_length|]; reflexivity).
    - destruct C as (C1 & C2 & _). apply same; congruence.
    - revert HS same. unfold do_enqueue. destruct (force_quit s); intros HS same;
        (apply same; [st_simpl; rewrite ?set_nth_length|]; reflexivity).
    - split; [st_simpl; lia|split; [|exact HS]]. exists 0, []. split; [reflexivity|constructor].
    - split; [st_simpl; rewrite app_length; lia|split; [|exact HS]].
      st_simpl. exists (length (levels s)), [length (qstore s)]. rewrite firstn_all. split; [reflexivity|].
      constructor; [lia|constructor].
    - assert (Elv : levels s = rev rest_rev ++ [top]) by (rewrite <- (rev_involutive (levels s)), R; reflexivity).
      split; [destruct rest_rev; st_simpl; lia|split; [|exact HS]].
      exists (length (rev rest_rev)), []. rewrite Elv, firstn_app, firstn_all, Nat.sub_diag, !app_nil_r.
      split; [destruct rest_rev; reflexivity|constructor].
  Qed.

  Lemma steps_rel s s' : steps s s' -> Rel s s'.
  Proof. induction 1 as [s|s s1 s2 A S IH]; [apply rel_refl|]. eapply rel_trans; [apply astep_rel, A|exact IH]. Qed.

  (* a nested loop returns only once its level is gone — unless it was opened under a pending stop request *)
  Lemma newloop_return_ok s1 s4 :
    link s1 -> force_quit s1 = false ->
    let q := length (qstore s1) in
    let s2e := emit (ENewLoopEnter q)
                    (s1 <| qstore := qstore s1 ++ [empty_queue] |> <| active := q |> <| levels := levels s1 ++ [q] |>) in
    Rel s2e s4 -> link s4 ->
    (force_quit s4 = true \/ (run_loop s4 = true /\ length (levels s4) + 1 <= psi s2e)) ->
    ~ In q (levels s4) \/ In q (w_stillborn (W s4)).
  Proof.
    intros L1 FQ1 q s2e (Hq & (k & post & Elv & Fp) & Hst) L4 H.
    destruct H as [F4|(R4 & Hlen)].
    { left. rewrite (link_fq_levels _ L4 F4). intros []. }
    unfold psi, s2e in Hlen. st_simpl_in Hlen. rewrite FQ1, app_length in Hlen. cbn [length] in Hlen.
    unfold s2e in Elv, Fp, Hq. st_simpl_in Elv. st_simpl_in Fp. st_simpl_in Hq.
    rewrite app_length in Fp, Hq. cbn [length] in Fp, Hq.
    destruct (run_loop s1) eqn:R1.
    - left. intros I. rewrite Elv in I, Hlen. rewrite app_length in Hlen. apply in_app_iff in I. destruct I as [I|I].
      + destruct (Nat.le_gt_cases k (length (levels s1))) as [Hk|Hk].
        * rewrite firstn_app in I. replace (k - length (levels s1)) with 0 in I by lia. cbn in I. rewrite app_nil_r in I.
          assert (I' : In q (levels s1)) by (eapply In_firstn; exact I).
          pose proof (link_levels_lt _ L1) as Hlt. rewrite Forall_forall in Hlt. apply Hlt in I'. unfold q in I'. lia.
        * rewrite firstn_all2 in Hlen by (rewrite app_length; cbn; lia). rewrite app_length in Hlen. cbn in Hlen. lia.
      + rewrite Forall_forall in Fp. apply Fp in I. fold q in I. lia.
    - right. apply Hst. unfold s2e. rewrite W_emit.
      change (W (s1 <| qstore := qstore s1 ++ [empty_queue] |> <| active := q |> <| levels := levels s1 ++ [q] |>)) with (W s1).
      cbn [world_step]. cbn. rewrite (link_runloop _ L1 R1). left. reflexivity.
  Qed.
End Spec.

Section Exec.
  Context {U : Type}.
  Notation lstate := (lstate U).
  Implicit Types s : lstate.
  Variable code : nat -> signal -> nat -> prog U.

  (* [psi] reads what the counting reads *)
  Lemma psi_cnt s s' : cnt s = cnt s' -> psi s = psi s'.
  Proof. unfold cnt, psi. intros E. injection E as -> -> ->. reflexivity. Qed.

  Definition Post (c : call U) (s : lstate) (o : outcome) (s' : lstate) : Prop :=
    quiet o ->
    match c with
    | CRun => True
    | CMainloop => o = ONormal /\
                   (force_quit s' = true \/ (run_loop s' = true /\ length (levels s') + 1 <= psi s))
    | CProcLoop => o = ONormal /\ psi s' <= psi s /\ run_loop s' = false
    | CProcessSignal _ _ | CProcIter _ => o = ONormal /\ psi s' <= psi s
    | _ => psi s' <= psi s
    end.

  Lemma exit_flag c s o s' : Exec code c s o s' -> o = ONormal ->
    match c with
    | CMainloop => force_quit s' = true \/ run_loop s' = true
    | CProcLoop => run_loop s' = false
    | _ => True
    end.
  Proof.
    induction 1; intros N; try discriminate N; try exact I; auto; try contradiction.
    unfold ml_exit. destruct (force_quit s) eqn:F; [left; exact F|right; reflexivity].
  Qed.

  Lemma spends_psi n s s' : spends n s s' -> psi s' + n <= psi s \/ force_quit s' = true.
  Proof.
    intros A. destruct (force_quit s') eqn:F'; [right; reflexivity|left].
    destruct (spends_elim _ _ _ A F') as (F & P & _). unfold psi. rewrite F, F'. exact P.
  Qed.

  Lemma psi_fq s : force_quit s = true -> psi s = 0.
  Proof. unfold psi. intros ->. reflexivity. Qed.

  Theorem Post_Exec c s o s' : Exec code c s o s' -> Post c s o s'.
  Proof.
    intros X Q. destruct c; try exact I.
    all: pose proof (spends_psi _ _ _ (count_Exec code _ _ _ _ X ltac:(discriminate) Q)) as P; cbn [gain] in P.
    all: try (destruct P as [P|P]; [|rewrite (psi_fq _ P)]; lia).
    all: assert (N : o = ONormal) by
        (destruct Q as [Q|Q]; [exact Q|destruct (no_error_Exec code _ _ _ _ X eq_refl Q)]).
    all: split; [exact N|].
    - (* _mainloop *)
      destruct P as [P|P]; [|left; exact P].
      destruct (exit_flag _ _ _ _ X N) as [F|R]; [left; exact F|].
      destruct (force_quit s') eqn:F'; [left; reflexivity|right; split; [exact R|]].
      unfold psi in P at 1. rewrite F', R in P. lia.
    - (* _process_signals_loop *)
      split; [|exact (exit_flag _ _ _ _ X N)]. destruct P as [P|P]; [|rewrite (psi_fq _ P)]; lia.
    - destruct P as [P|P]; [|rewrite (psi_fq _ P)]; lia.
    - destruct P as [P|P]; [|rewrite (psi_fq _ P)]; lia.
  Qed.

  Definition reach (s0 s : lstate) : Prop := link s0 /\ steps s0 s.

  Lemma reach_refl s : link s -> reach s s.
  Proof. intros L. split; [exact L|apply steps_refl]. Qed.
  Lemma reach_link s0 s : reach s0 s -> link s.
  Proof. intros [L S]. exact (steps_link _ _ L S). Qed.
  Lemma reach_steps s0 s s' : reach s0 s -> steps s s' -> reach s0 s'.
  Proof. intros [L S] S'. split; [exact L|exact (steps_trans _ _ _ S S')]. Qed.
  Lemma reach_step s0 s s' : astep s s' -> reach s0 s -> reach s0 s'.
  Proof. intros A R. exact (reach_steps _ _ _ R (steps_one _ _ A)). Qed.

  Lemma reach_emit e s0 s : plain e = true -> reach s0 s -> reach s0 (emit e s).
  Proof. intros P. apply reach_step, A_emit, P. Qed.
  Lemma reach_irrel s0 s s' : score_eq s s' -> trace s' = trace s -> reach s0 s -> reach s0 s'.
  Proof. intros C T. apply reach_step, A_irrel; assumption. Qed.
  Lemma reach_ps_mark sg idx s0 s : reach s0 s -> reach s0 (ps_mark sg idx s).
  Proof. unfold ps_mark. destruct (idx =? 0)%nat; [|auto]. apply reach_irrel; [repeat split|reflexivity]. Qed.
  Lemma reach_ps_emit e sg idx s0 s : plain e = true -> reach s0 s -> reach s0 (emit e (ps_mark sg idx s)).
  Proof. intros P R. exact (reach_emit e _ _ P (reach_ps_mark sg idx _ _ R)). Qed.
  Lemma reach_disp s0 s sg s1 : do_get s = inl (Some (sg, s1)) -> reach s0 s -> reach s0 (disp sg s s1).
  Proof. intros G. apply do_get_some in G as (p & c & q' & P & ->). apply reach_step, (A_dispatch _ _ _ _ _ P). Qed.
  (* a new signal is on record and in no queue yet: what [A_enq] asks for *)
  Lemma reach_new_signal s0 s sp sg s1 : new_signal s sp = (sg, s1) -> reach s0 s ->
    reach s0 s1 /\ sig_rec (W s1) sg /\ sid_fresh s1 (sg_id sg).
  Proof.
    intros N R. destruct (link_new_signal s sp (reach_link _ _ R)) as (_ & Rc & F). pose proof (A_newsig s sp) as A.
    rewrite N in A, Rc, F. exact (conj (reach_step _ _ _ A R) (conj Rc F)).
  Qed.
  Lemma reach_enq s0 s sg : sig_rec (W s) sg -> sid_fresh s (sg_id sg) -> reach s0 s -> reach s0 (do_enqueue s sg).
  Proof. intros Rc F. apply reach_step, A_enq; assumption. Qed.
  (* enqueue_signal(Signal(...)), and the ExceptionSignal of a failed handler *)
  Lemma reach_new_enq s0 s sp sg s1 : new_signal s sp = (sg, s1) -> reach s0 s -> reach s0 (do_enqueue s1 sg).
  Proof. intros N R. destruct (reach_new_signal _ _ _ _ _ N R) as (R1 & Rc & F). exact (reach_enq _ _ _ Rc F R1). Qed.
  (* a submission from another thread arrives *)
  Lemma reach_ext s0 s s1 : do_get s = inr s1 -> reach s0 s -> reach s0 s1.
  Proof.
    intros G R. apply do_get_inr in G as (_ & sp & r & _ & ->). unfold ext_arrival.
    destruct (new_signal (s <| ext := r |>) sp) as [sg s2] eqn:N.
    assert (R0 : reach s0 (s <| ext := r |>)) by (apply (reach_irrel _ s); [repeat split|reflexivity|exact R]).
    destruct (reach_new_signal _ _ _ _ _ N R0) as (R2 & Rc & F).
    exact (reach_enq _ _ _ (sig_rec_emit (EExt (sg_id sg)) _ _ I Rc) F (reach_emit (EExt (sg_id sg)) _ _ eq_refl R2)).
  Qed.
  (* the state in which execute_new_loop enqueues its first signal ([nl_enter] is [do_enqueue] of it) *)
  Local Notation nl_open s1 :=
    (emit (ENewLoopEnter (length (qstore s1)))
          (s1 <| qstore := qstore s1 ++ [empty_queue] |> <| active := length (qstore s1) |>
              <| levels := levels s1 ++ [length (qstore s1)] |>)).
  Lemma reach_nl_enter s0 s sp sg s1 :
    new_signal s sp = (sg, s1) -> force_quit s1 = false -> reach s0 s ->
    reach s0 (nl_open s1) /\ astep (nl_open s1) (nl_enter sg s1).
  Proof.
    intros N FQ R. destruct (reach_new_signal _ _ _ _ _ N R) as (R1 & Rc & F).
    split; [exact (reach_step _ _ _ (A_newlevel s1 FQ) R1)|].
    apply A_enq; [exact (sig_rec_emit (ENewLoopEnter _) _ _ I Rc)|].
    intros q0 e. st_simpl. unfold gq. rewrite nth_snoc_default. apply F.
  Qed.
  Lemma reach_close s0 s top rest_rev : rev (levels s) = top :: rest_rev -> reach s0 s ->
    reach s0 (match rest_rev with
              | [] => emit (EClosePop top) (s <| levels := rev rest_rev |>)
              | q :: _ => emit (EClosePop top) (s <| levels := rev rest_rev |>) <| active := q |> <| run_loop := false |>
              end).
  Proof. intros Rv. apply reach_step, (A_closepop _ _ _ Rv). Qed.

  Theorem reach_Exec c s o s' : Exec code c s o s' -> forall z, reach z s -> reach z s'.
  Proof.
    induction 1; intros z R; auto.
    - (* X_run_stop *) apply reach_emit; [reflexivity|]. pose proof (IHExec _ (reach_step _ _ _ (A_runenter s) R)) as R1.
      unfold quit_call. destruct (quit_cb s1); [apply reach_emit; [reflexivity|]|]; exact R1.
    - (* X_run_abort *) exact (IHExec _ (reach_step _ _ _ (A_runenter s) R)).
    - (* X_ml_done *) unfold ml_exit. destruct (force_quit s); [exact R|exact (reach_step _ _ _ (A_rearm s) R)].
    - (* X_pl_ext *) exact (IHExec _ (reach_ext _ _ _ H0 R)).
    - (* X_pl_disp *) exact (IHExec2 _ (IHExec1 _ (reach_disp _ _ _ _ H0 R))).
    - (* X_pl_abort *) exact (IHExec _ (reach_disp _ _ _ _ H0 R)).
    - (* X_pw_ext *) exact (IHExec _ (reach_ext _ _ _ H0 R)).
    - (* X_pw_abort *) exact (IHExec _ (reach_disp _ _ _ _ H0 R)).
    - (* X_pw_released *) apply (reach_irrel _ s3); [repeat split|reflexivity|]. exact (IHExec _ (reach_disp _ _ _ _ H0 R)).
    - (* X_pw_again *) exact (IHExec2 _ (IHExec1 _ (reach_disp _ _ _ _ H0 R))).
    - (* X_pw_keyerror *) exact (IHExec _ (reach_disp _ _ _ _ H0 R)).
    - (* X_pi_go *) exact (IHExec2 _ (IHExec1 _ (reach_step _ _ _ (A_dispatch _ _ _ _ _ H0) R))).
    - (* X_pi_abort *) exact (IHExec _ (reach_step _ _ _ (A_dispatch _ _ _ _ _ H0) R)).
    - (* X_pi_requeue *) exact (reach_step _ _ _ (A_requeue _ _ _ _ _ H0) R).
    - (* X_ps_kill *) exact (reach_ps_emit EKill _ _ _ _ eq_refl R).
    - (* X_ps_nohandler *) exact (reach_ps_emit (EDispatchEnd _) _ _ _ _ eq_refl R).
    - (* X_ps_fq *) exact (reach_ps_emit (EDispatchEnd _) _ _ _ _ eq_refl R).
    - (* X_ps_end *) exact (reach_ps_emit (EDispatchEnd _) _ _ _ _ eq_refl R).
    - (* X_ps_ok *) apply IHExec2, reach_emit; [reflexivity|]. exact (IHExec1 _ (reach_ps_emit (EHandler _ _ _) _ _ _ _ eq_refl R)).
    - (* X_ps_error *) apply IHExec2, (reach_new_enq _ _ _ _ _ H3), reach_emit; [reflexivity|].
      exact (IHExec1 _ (reach_ps_emit (EHandler _ _ _) _ _ _ _ eq_refl R)).
    - (* X_ps_throw *) apply reach_emit; [reflexivity|]. exact (IHExec _ (reach_ps_emit (EHandler _ _ _) _ _ _ _ eq_refl R)).
    - (* X_ps_abort *) exact (IHExec _ (reach_ps_emit (EHandler _ _ _) _ _ _ _ eq_refl R)).
    - (* X_enqueue *) exact (reach_new_enq _ _ _ _ _ H R).
    - (* X_force_quit *) exact (reach_step _ _ _ (A_forcequit s) R).
    - (* X_nl_fq *) exact (proj1 (reach_new_signal _ _ _ _ _ H R)).
    - (* X_nl_ok: the nested main loop has spent the level it was given, so the level is gone *)
      destruct (reach_nl_enter _ _ _ _ _ H H0 R) as [R2 A3].
      pose proof (IHExec _ (reach_step _ _ _ A3 (reach_refl _ (reach_link _ _ R2)))) as [L2 S4].
      pose proof (IHExec _ (reach_step _ _ _ A3 R2)) as R4.
      pose proof (Post_Exec _ _ _ _ H1 (or_introl eq_refl)) as (_ & D).
      unfold nl_enter in D. rewrite (psi_cnt _ _ (cnt_do_enqueue _ _)) in D.
      refine (reach_step _ _ _ (A_newloopret s4 _ _ _) R4).
      + intros F4. destruct D as [D|(D & _)]; [congruence|exact D].
      + pose proof (reach_link _ _ (proj1 (reach_new_signal _ _ _ _ _ H R))) as L1.
        exact (newloop_return_ok s1 s4 L1 H0 (steps_rel _ _ S4) (reach_link _ _ R4) D).
    - (* X_nl_abort *) destruct (reach_nl_enter _ _ _ _ _ H H0 R) as [R2 A3]. exact (IHExec _ (reach_step _ _ _ A3 R2)).
    - (* X_cl_abort *) exact (IHExec _ (reach_emit (EProcEnter _ _) _ _ eq_refl R)).
    - (* X_cl_empty *) apply reach_emit; [reflexivity|]. exact (IHExec _ (reach_emit (EProcEnter _ _) _ _ eq_refl R)).
    - (* X_cl_last *)
      exact (reach_close z (emit (EProcReturn None 0) s0) top [] H0 (reach_emit (EProcReturn None 0) _ _ eq_refl (IHExec _ (reach_emit (EProcEnter _ _) _ _ eq_refl R)))).
    - (* X_cl_pop *)
      exact (reach_close z (emit (EProcReturn None 0) s0) top (q :: rest) H0 (reach_emit (EProcReturn None 0) _ _ eq_refl (IHExec _ (reach_emit (EProcEnter _ _) _ _ eq_refl R)))).
    - (* X_pn_ok *) apply reach_emit; [reflexivity|]. exact (IHExec _ (reach_emit (EProcEnter _ _) _ _ eq_refl R)).
    - (* X_pn_abort *) exact (IHExec _ (reach_emit (EProcEnter _ _) _ _ eq_refl R)).
    - (* X_pt_ok *) apply reach_emit; [reflexivity|]. apply IHExec, reach_emit; [reflexivity|].
      apply (reach_irrel _ s); [repeat split|reflexivity|exact R].
    - (* X_pt_abort *) apply IHExec, reach_emit; [reflexivity|]. apply (reach_irrel _ s); [repeat split|reflexivity|exact R].
    - (* X_reg_source *) exact (reach_step _ _ _ (A_regsource s o) R).
    - (* X_reg_handler *) exact (reach_step _ _ _ (A_reghandler s cls hid data) R).
    - (* X_set_quit *) exact (reach_step _ _ _ (A_setquit s arg) R).
    - (* X_ext_add *) apply (reach_irrel _ s); [repeat split|reflexivity|exact R].
    - (* X_st *) apply IHExec. apply (reach_irrel _ s); [repeat split|reflexivity|exact R].
    - (* X_emit *) apply reach_emit; [destruct e; reflexivity|exact R].
  Qed.

  Corollary link_Exec c s o s' : Exec code c s o s' -> link s -> link s'.
  Proof. intros X L. exact (reach_link _ _ (reach_Exec _ _ _ _ X _ (reach_refl _ L))). Qed.

  Theorem exec_spec : forall fuel c s o s', link s -> exec code fuel c s = (o, s') -> steps s s' /\ Post c s o s'.
  Proof.
    intros fuel c s o s' L H. apply exec_Exec in H.
    split; [exact (proj2 (reach_Exec _ _ _ _ H _ (reach_refl _ L)))|exact (Post_Exec _ _ _ _ H)].
  Qed.

  Theorem exec_steps : forall fuel c s o s', link s -> exec code fuel c s = (o, s') -> steps s s'.
  Proof. intros fuel c s o s' L H. apply (exec_spec fuel c s o s' L H). Qed.
End Exec.

Section Top.
  Context {U : Type}.
  Notation lstate := (lstate U).
  Implicit Types s : lstate.
  Variable code : nat -> signal -> nat -> prog U.

  Definition acc (chk : world -> event -> bool) (s : lstate) : Prop := ok chk (rev (trace s)) = true.

  Lemma acc_cons chk s s' e : trace s' = e :: trace s -> acc chk s' <-> acc chk s /\ chk (W s) e = true.
  Proof. unfold acc, W. intros ->. cbn [rev]. rewrite ok_snoc. apply andb_true_iff. Qed.
  Lemma acc_trace chk s s' : trace s' = trace s -> acc chk s -> acc chk s'.
  Proof. unfold acc. intros ->. auto. Qed.
  Lemma acc_init chk (u : U) : acc chk (init_state u).
  Proof. reflexivity. Qed.

  Lemma steps_inv (I : lstate -> Prop) :
    (forall s s', link s -> I s -> astep s s' -> I s') ->
    forall s s', link s -> I s -> steps s s' -> I s'.
  Proof.
    intros HI s s' L HIs S. induction S; [exact HIs|].
    apply IHS; [eapply astep_link; eauto|eapply HI; eauto].
  Qed.

  Theorem link_exec_strong : forall fuel c s o s', link s -> exec code fuel c s = (o, s') -> link s'.
  Proof. intros fuel c s o s' L H. eapply steps_link; [exact L|eapply exec_steps; eauto]. Qed.

  Definition sig_mono (s s' : lstate) : Prop :=
    forall sid v, lookup sid (w_sig (W s)) = Some v -> lookup sid (w_sig (W s')) = Some v.

  Lemma astep_sig_mono s s' : link s -> astep s s' -> sig_mono s s'.
  Proof.
    intros L A sid v Hs. destruct (astep_event _ _ A) as [T|(e & T & E)]; [rewrite (W_trace _ _ T); exact Hs|].
    rewrite (W_cons _ _ _ T), ws_sig. destruct e; try exact Hs. cbn in E. subst. cbn [lookup].
    pose proof (link_sig_lt _ _ _ L Hs) as Hlt. destruct (Nat.eqb_spec sid (next_sig s)); [lia|exact Hs].
  Qed.

  Lemma steps_sig_mono s s' : link s -> steps s s' -> sig_mono s s'.
  Proof.
    intros L S. induction S as [s|s s1 s2 A S IHS]; [intros sid v Hs; exact Hs|].
    intros sid v Hs. apply IHS; [eapply astep_link; eauto|]. eapply astep_sig_mono; eauto.
  Qed.

  Theorem exec_sig_mono : forall fuel c s o s', link s -> exec code fuel c s = (o, s') -> sig_mono s s'.
  Proof. intros. eapply steps_sig_mono; [assumption|eapply exec_steps; eauto]. Qed.

  Definition sig_ok (c : call U) (s : lstate) : Prop :=
    match c with CProcessSignal sg _ => sig_rec (W s) sg | _ => True end.

  Theorem link_exec : forall fuel c s o s', link s -> sig_ok c s -> exec code fuel c s = (o, s') -> link s'.
  Proof. intros fuel c s o s' L _ H. eapply link_exec_strong; eauto. Qed.

  Lemma link_pop_sig_rec s q p c sg q' : link s -> q_pop (get_q s q) = Some ((p, c, sg), q') ->
    sig_rec (W s) sg /\ p = sg_prio sg /\ pend (W s) q = (p, sg_id sg) :: abs q'.
  Proof.
    intros L P. destruct (linkc_pop_in L P) as (Im & _ & Hp & _).
    split; [apply (lk_sig L _ _ Im)|split; [|exact Hp]].
    pose proof (qwf_prio _ (lk_qwf L q)) as Pr. rewrite Forall_forall in Pr. apply (Pr _ Im).
  Qed.

  Theorem exec_post : forall fuel c s o s', link s -> exec code fuel c s = (o, s') -> Post c s o s'.
  Proof. intros fuel c s o s' L H. apply (exec_spec code fuel c s o s' L H). Qed.

  Lemma link_top s : link s -> link (emit ETop s).
  Proof. apply link_emit_keeps_wcore. reflexivity. Qed.

  Lemma session_steps fuel acts s : link s -> steps s (snd (run_session code fuel acts s)).
  Proof.
    intros L.
    apply (run_sessions_keep code fuel (reach s) (fun _ => True));
      [|apply Forall_forall; auto|exact (reach_refl s L)].
    intros a s1 _ R. pose proof (reach_emit ETop _ _ eq_refl R) as R0. unfold run_call.
    destruct (exec code fuel _ (emit ETop s1)) as [o s2] eqn:E.
    exact (reach_steps _ _ _ R0 (exec_steps code _ _ _ _ _ (reach_link _ _ R0) E)).
  Qed.

  Corollary link_session : forall fuel acts (u : U), link (snd (run_session code fuel acts (init_state u))).
  Proof. intros. eapply steps_link; [apply link_init|apply session_steps, link_init]. Qed.

  Theorem session_acc chk :
    (forall s s', link s -> acc chk s -> astep s s' -> acc chk s') ->
    forall fuel acts (u : U), ok chk (rev (trace (snd (run_session code fuel acts (init_state u))))) = true.
  Proof.
    intros HI fuel acts u.
    apply (steps_inv (acc chk) HI (init_state u)); [apply link_init|apply acc_init|apply session_steps, link_init].
  Qed.

  Corollary session_ok chk :
    (forall s e, link s -> ev_ok s e -> chk (W s) e = true) ->
    forall fuel acts (u : U), ok chk (rev (trace (snd (run_session code fuel acts (init_state u))))) = true.
  Proof.
    intros H. apply session_acc. intros s s' L A St.
    destruct (astep_event _ _ St) as [T|(e & T & E)]; [exact (acc_trace _ _ _ T A)|].
    apply (acc_cons _ _ _ _ T). auto.
  Qed.
End Top.

(* ConcLive.v — C19_all_dispatched_partial: when the loop thread neither closes a level nor force-quits,
   every signal that was put is pending in a queue the loop still knows, or has been dispatched. *)
From SL Require Import Tac proofs.ListFacts.
From Coq Require Import Permutation.
From RecordUpdate Require Import RecordUpdate.
From SL Require Import Conc proofs.ConcProofs proofs.ConcLocks proofs.ConcOrder.
Import ListNotations.

Definition okact (a : action) : bool := match a with AClose | AForceQuit => false | _ => true end.
Definition okpc (p : pc) : bool :=
  match p with P0 | PE _ _ | PRAdd _ _ | PRRel _ | POAcq _ | POApp _ | PORel _ => true | _ => false end.
Definition okthread (th : thread) : bool := forallb okact (t_prog th) && okpc (t_pc th).
Definition no_close_quit (progs : list (list action)) : Prop :=
  forall t p, nth_error progs t = Some p -> forallb okact p = true.

Definition pc_target (p : pc) : option nat :=
  match p with
  | PE _ (EAcqQ q _) | PE _ (ETest q _) | PE _ (ERelQ q _ _) | PE _ (ECnt q _) | PE _ (EPut q _ _) => Some q
  | _ => None
  end.
Definition is_opening (p : pc) : bool := match p with POAcq _ | POApp _ => true | _ => false end.

(* Of the moves of ConcProofs.move that a thread without close_loop / force_quit makes while _force_quit is unset:
   s_open is the second case of the three (a new queue becomes the active one, not yet appended), p_app the third
   (it is appended); every other move leaves _event_queues and _active_queue alone.  Only em_put adds a pending
   entry, into the queue the program point names; em_next (a level of _event_queues) and em_load (the active queue)
   choose that queue. *)
Lemma tstep_live : forall u th h th' h', tstep u th h = Some (th', h') -> h_fq h = false -> okthread th = true ->
  okthread th' = true /\ h_fq h' = false /\ h_drop h' = h_drop h /\
  ((h_evq h' = h_evq h /\ h_active h' = h_active h /\ (is_opening (t_pc th) = true -> is_opening (t_pc th') = true)) \/
   (is_opening (t_pc th) = false /\ is_opening (t_pc th') = true /\ h_evq h' = h_evq h /\ submit_thread th = false) \/
   (is_opening (t_pc th) = true /\ h_evq h' = h_evq h ++ [h_active h] /\ h_active h' = h_active h)) /\
  (forall x, In x (h_pend h') -> In x (h_pend h) \/ pc_target (t_pc th) = Some (fst x)) /\
  (forall q, pc_target (t_pc th') = Some q -> pc_target (t_pc th) = Some q \/ In q (h_evq h) \/ q = h_active h).
Proof.
  intros u th h th' h' H F O. destruct (tstep_spec _ _ _ _ _ H) as (l & h0 & -> & M). open_move M.
  all: unfold okthread in O; cbn in O; rewrite ?andb_false_r, ?andb_true_r in O; try discriminate O; try congruence.
  all: unfold okthread, submit_thread, got, lbl;
       cbn [mk after t_pc t_prog okpc pc_target is_opening submit_pc h_fq h_drop h_evq h_active h_pend set
            forallb is_submit andb].
  all: rewrite ?O, ?andb_false_r.
  all: repeat split; auto; try discriminate.
  - intros x X. left. match goal with Hp : pop_min _ _ = Some _ |- _ => apply (pop_min_in _ _ _ _ Hp) end. auto.
  - right; left. auto.
  - intros q0 X. inversion X; subst. right; left. eapply nth_error_In; eauto.
  - intros x X. apply in_app_or in X. destruct X as [X|[X|[]]]; [left; exact X|right; subst x; reflexivity].
  - intros x X. apply in_app_or in X. destruct X as [X|[X|[]]]; [left; exact X|right; subst x; reflexivity].
  - intros q X. inversion X. auto.
Qed.

Lemma live_iff : forall h q, live h q = true <-> In q (h_evq h) \/ q = h_active h.
Proof.
  intros. unfold live. rewrite orb_true_iff, Nat.eqb_eq. split; intros [H|H]; auto.
  - left. apply existsb_exists in H. destruct H as (x & Hx & E). apply Nat.eqb_eq in E. subst. exact Hx.
  - left. apply existsb_exists. exists q. split; [exact H|apply Nat.eqb_refl].
Qed.

Definition opening0 (thr : list thread) : Prop :=
  exists th0, nth_error thr 0 = Some th0 /\ is_opening (t_pc th0) = true.

Record linv (st : cstate) : Prop := {
  l_ok : forall t th, nth_error (c_thr st) t = Some th -> okthread th = true;
  l_fq : h_fq (c_sh st) = false;
  l_pend : forall x, In x (h_pend (c_sh st)) -> live (c_sh st) (fst x) = true;
  l_tgt : forall t th, nth_error (c_thr st) t = Some th ->
            forall q, pc_target (t_pc th) = Some q -> live (c_sh st) q = true;
  l_act : In (h_active (c_sh st)) (h_evq (c_sh st)) \/ opening0 (c_thr st);
  l_drop : h_drop (c_sh st) = []
}.

Lemma ok_not_holding : forall th, okthread th = true -> thr_held th = [].
Proof. intros [prog p] H. apply andb_true_iff in H. destruct H as [_ H]. destruct p; try discriminate H; reflexivity. Qed.

Lemma linv_step : forall t st, subinv st -> linv st -> linv (step t st).
Proof.
  intros t st S L. destruct (stepP t st) as [t st|l1 th l2 h th' h' Ht]; [exact L|].
  pose proof (nth_error_mid l1 th l2) as Hu.
  destruct L as [LO LF LP LT LA LD]. cbn [c_thr c_sh] in *.
  destruct (tstep_live _ _ _ _ _ Ht LF (LO _ _ Hu)) as (O' & F' & D' & Ev & Pe & Tg).
  assert (U0 : submit_thread th = false -> l1 = []) by apply (loop_thread _ _ _ _ S).
  assert (Mono : forall q, live h q = true -> live h' q = true).
  { intros q Hq. apply live_iff in Hq. apply live_iff.
    destruct Ev as [(A & B & _)|[(A & B & C & D)|(A & B & C)]].
    - rewrite A, B. exact Hq.
    - rewrite C. left. destruct Hq as [Hq|Hq]; [exact Hq|]. subst q.
      destruct LA as [LA|(th0 & H0 & Ho)]; [exact LA|]. exfalso.
      specialize (U0 D). subst l1. cbn in H0. inversion H0; subst. congruence.
    - rewrite B, C. destruct Hq as [Hq|Hq]; [left; apply in_or_app; left; exact Hq|right; exact Hq]. }
  split; cbn [c_thr c_sh]; auto.
  - apply (mid_lift (fun _ a => okthread a = true) (fun _ a => okthread a = true) l1 th); auto.
  - intros x Hx. apply Mono. destruct (Pe _ Hx) as [X|X]; [apply LP; exact X|eapply LT; eauto].
  - apply (mid_lift (fun _ a => forall q, pc_target (t_pc a) = Some q -> live h q = true)
                    (fun _ a => forall q, pc_target (t_pc a) = Some q -> live h' q = true) l1 th); [exact LT| |auto].
    intros X q Hq. destruct (Tg _ Hq) as [Y|Y]; [auto|apply Mono, live_iff; exact Y].
  - destruct Ev as [(A & B & C)|[(A & B & C & D)|(A & B & C)]].
    + rewrite A, B. destruct LA as [LA|(th0 & H0 & Ho)]; [left; exact LA|right].
      destruct l1 as [|x l1]; cbn [app nth_error] in *.
      * inversion H0; subst. exists th'. split; [reflexivity|auto].
      * exists th0. auto.
    + right. specialize (U0 D). subst l1. exists th'. cbn. auto.
    + left. rewrite B, C. apply in_or_app. right. left. reflexivity.
  - congruence.
Qed.

Lemma submit_ok : forall p, forallb is_submit p = true -> forallb okact p = true.
Proof.
  induction p as [|a p IH]; cbn; auto. intros H. apply andb_true_iff in H. destruct H as [A B].
  destruct a; try discriminate A. cbn. auto.
Qed.

Lemma linv_init : forall progs, submitters_only progs ->
  (forall p, nth_error progs 0 = Some p -> forallb okact p = true) -> linv (init progs).
Proof.
  intros progs S N. split.
  - intros t th H. destruct (init_nth _ _ _ H) as (p & E & ->).
    unfold okthread. cbn. rewrite andb_true_r. destruct t; [exact (N p E)|]. apply submit_ok, (S _ _ E). discriminate.
  - reflexivity.
  - cbn. contradiction.
  - intros t th H q Hq. destruct (init_nth _ _ _ H) as (p & _ & ->). discriminate.
  - left. cbn. left. reflexivity.
  - reflexivity.
Qed.

Lemma flat_map_nil : forall {A B} (f : A -> list B) l, (forall x, In x l -> f x = []) -> flat_map f l = [].
Proof.
  induction l as [|a l IH]; intros H; [reflexivity|]. cbn. rewrite (H a) by (left; reflexivity).
  apply IH. intros x Hx. apply H. right. exact Hx.
Qed.

(* "_partial": the hypothesis that no level is closed or force-quit while submissions are in flight is needed (F10);
   it constrains the loop thread only, a submitter can do neither *)
Theorem all_dispatched_partial : forall progs sch, submitters_only progs ->
  (forall p, nth_error progs 0 = Some p -> forallb okact p = true) ->
  let st := steps sch (init progs) in
  pending_dead st = [] /\ held st = [] /\ h_drop (c_sh st) = [] /\ h_fq (c_sh st) = false /\
  Permutation (unput st ++ pending_live st ++ h_disp (c_sh st)) (all_sids progs).
Proof.
  intros progs sch S N st.
  assert (L : linv st).
  { apply reach_ind; [apply linv_init; assumption|]. intros sch0 t. apply linv_step, subinv_reach, S. }
  assert (Hd : pending_dead st = []).
  { unfold pending_dead. rewrite filter_none; [reflexivity|]. intros x Hx. rewrite (l_pend _ L x Hx). reflexivity. }
  assert (Hh : held st = []).
  { unfold held. apply flat_map_nil. intros th Hth. apply In_nth_error in Hth. destruct Hth as (n & Hn). eapply ok_not_holding, (l_ok _ L); eauto. }
  assert (Hl : pending_live st = pending st).
  { unfold pending_live, pending. rewrite filter_all; [reflexivity|]. apply (l_pend _ L). }
  repeat split; auto; try apply (l_drop _ L); try apply (l_fq _ L).
  pose proof (conservation progs sch) as C. fold st in C. unfold places in C.
  rewrite Hh, (l_drop _ L), app_nil_r in C. cbn [app] in C. rewrite Hl. exact C.
Qed.

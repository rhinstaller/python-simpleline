(* C12Proofs.v — the window part of C12: a WindowContainer renders to its title block followed by
   the concatenation of its items' own renders ([render_window] in proofs/ContainersProofs.v, read for
   the two kinds of title), and [show_all_prints]: what show_all prints is that render.
   (Paging: proofs/PagingProofs.v; prompt: proofs/PromptProofs.v.) *)
From SL Require Import Tac.
From SL Require Import PyInt Widget TextWrap KeyPattern Containers Paging proofs.PagingProofs
     proofs.ContainersProofs.
Import ListNotations.

Lemma window_untitled : forall title items w b,
  (title = None \/ exists t, title = Some t /\ t_text t = []) ->
  (render_tree (WWindow title items) w = ROk b <->
   exists ibs, Forall2 (fun it ib => render_tree it w = ROk ib) items ibs /\ b = concat ibs).
Proof.
  intros title items w b Ht. rewrite render_window.
  assert (E : window_title title w = ROk []).
  { destruct Ht as [->|(t & -> & Ht)]; [reflexivity|]. cbn [window_title]. now rewrite Ht. }
  rewrite E. split.
  - intros (hd & ibs & [= <-] & HF & ->). now exists ibs.
  - intros (ibs & HF & ->). now exists [], ibs.
Qed.

Lemma window_titled : forall t items w b,
  t_text t <> [] ->
  (render_tree (WWindow (Some t) items) w = ROk b <->
   exists tb ibs, render_text t w = ROk tb /\
     Forall2 (fun it ib => render_tree it w = ROk ib) items ibs /\ b = tb ++ [[]] ++ concat ibs).
Proof.
  intros t items w b Ht. rewrite render_window. cbn [window_title].
  destruct (t_text t) as [|c s]; [congruence|]. split.
  - intros (hd & ibs & Hhd & HF & ->).
    destruct (render_text t w) as [tb| |]; cbn [bind] in Hhd; try discriminate. injection Hhd as <-.
    exists tb, ibs. now rewrite <- app_assoc.
  - intros (tb & ibs & -> & HF & ->). exists (tb ++ [[]]), ibs. now rewrite <- app_assoc.
Qed.

Lemma show_all_prints : forall window w H evs,
  (3 <= H)%Z -> show_all window w H = ROk evs ->
  exists b, render_tree window w = ROk b /\ evs = print_widget b H /\ prints_of evs = b.
Proof.
  intros window w H evs HH Hs. unfold show_all in Hs.
  destruct (render_tree window w) as [b| |]; try discriminate Hs.
  injection Hs as <-. exists b. repeat split. now apply paging_prints_all.
Qed.

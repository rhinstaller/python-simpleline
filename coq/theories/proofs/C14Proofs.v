From SL Require Import Tac.
From SL Require Import PyInt KeyPattern proofs.PyIntProofs.
Import ListNotations.
Local Open Scope Z_scope.

Lemma selected kp items s i it :
  parse_int s = Some (Z.of_nat i + kp_offset kp) ->
  nth_error items i = Some it ->
  process_user_input (Some kp) items (KStr s) = (true, fire it).
Proof.
  intros Hp H. unfold process_user_input, translate_input_to_widget_id. rewrite Hp.
  replace (Z.of_nat i + kp_offset kp - kp_offset kp) with (Z.of_nat i) by lia.
  destruct (0 <=? Z.of_nat i) eqn:E; [|lia].
  rewrite Nat2Z.id, H. reflexivity.
Qed.

Lemma roundtrip kp items i it :
  nth_error items i = Some it ->
  process_user_input (Some kp) items (KStr (shown_number kp i)) = (true, fire it).
Proof. apply selected. unfold shown_number. apply parse_int_dec. Qed.

Lemma not_selected kp items s :
  (forall i, (i < length items)%nat -> parse_int s <> Some (Z.of_nat i + kp_offset kp)) ->
  process_user_input (Some kp) items (KStr s) = (false, []).
Proof.
  intros H. unfold process_user_input, translate_input_to_widget_id.
  destruct (parse_int s) as [z|] eqn:Hp; [|reflexivity].
  destruct (0 <=? z - kp_offset kp) eqn:E; [|reflexivity].
  destruct (nth_error items (Z.to_nat (z - kp_offset kp))) as [it|] eqn:Hn; [|reflexivity].
  exfalso. apply (H (Z.to_nat (z - kp_offset kp))).
  - apply nth_error_Some. congruence.
  - f_equal. lia.
Qed.

Lemma at_most_one kp items k : (length (snd (process_user_input kp items k)) <= 1)%nat.
Proof.
  unfold process_user_input.
  destruct kp as [kp|]; [|cbn; lia]. destruct k as [s|]; [|cbn; lia].
  destruct (translate_input_to_widget_id kp s) as [r|]; [|cbn; lia].
  destruct (0 <=? r); [|cbn; lia].
  destruct (nth_error items (Z.to_nat r)) as [it|]; [|cbn; lia].
  unfold fire. destruct (it_callback it); cbn; lia.
Qed.

Lemma numbers_distinct kp i j : shown_number kp i = shown_number kp j -> i = j.
Proof.
  unfold shown_number. intros H. apply (f_equal parse_int) in H.
  rewrite !parse_int_dec in H. injection H. lia.
Qed.

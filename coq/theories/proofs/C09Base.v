(* C09Base.v — what the C09 monitor looks at: the [view] of a world, its step function, the link between
   the ghost world of a trace and the loop's own state, and what the state transformers of [exec] do to the
   fields the monitor depends on.  The passes of C09Passes.v read every state through its [core] ([core_of]; the lemmas
   [core_*] say what a transformer does to it); the field-by-field lemmas ([levels_*], [run_loop_*], [force_quit_*], [quit_cb_*],
   [trace_*]) say the same of single fields, for a proof that follows one particular run. *)
From SL Require Import Tac.
From RecordUpdate Require Import RecordUpdate.
From SL Require Import LoopSem Monitors.
From SL Require Import proofs.ListFacts proofs.LoopFacts proofs.MonitorFacts proofs.C09Exec.
Import ListNotations.

Definition world_of (t : list event) : world := fold_left world_step t world0.     (* t oldest first *)
Definition Wt (t : list event) : world := world_of (rev t).                         (* t newest first *)

Lemma Wt_cons e t : Wt (e :: t) = world_step (Wt t) e.
Proof. unfold Wt, world_of. cbn [rev]. apply fold_left_snoc. Qed.

Definition accT (t : list event) : bool := ok_C09 (rev t).            (* t newest first *)
Lemma accT_cons e t : accT (e :: t) = accT t && chk_C09 (Wt t) e.
Proof. unfold accT, ok_C09. cbn [rev]. apply ok_snoc. Qed.
Lemma accT_nil : accT [] = true.
Proof. reflexivity. Qed.

Record view := {
  v_levels : list nat; v_fq : bool; v_quit : option nat;
  v_in_run : bool; v_rl1 : bool; v_cause : bool; v_exiting : bool; v_qc : bool }.

Definition view_of (w : world) : view :=
  {| v_levels := w_levels w; v_fq := w_fq w; v_quit := w_quit w; v_in_run := w_in_run w;
     v_rl1 := w_run_levels1 w; v_cause := w_cause w; v_exiting := w_exiting w; v_qc := w_quit_called w |}.

Definition isnil {A} (l : list A) : bool := match l with [] => true | _ => false end.
Definition is_exit (how : option exn) : bool := match how with Some XExit => true | _ => false end.

(* field by field, so that every projection of a step reduces *)
Definition view_step (v : view) (e : event) : view :=
  {| v_levels := match e with
                 | ENewLoopEnter q => v_levels v ++ [q]
                 | EClosePop _ => removelast (v_levels v)
                 | EForceQuit => []
                 | _ => v_levels v end;
     v_fq := match e with EForceQuit => true | ERunEnter => false | _ => v_fq v end;
     v_quit := match e with ESetQuitCb a => Some a | _ => v_quit v end;
     v_in_run := match e with ERunEnter => true | ERunReturn => false | _ => v_in_run v end;
     v_rl1 := match e with ERunEnter => (length (v_levels v) =? 1)%nat | _ => v_rl1 v end;
     v_cause := match e with
                | EHandlerEnd _ _ how => v_cause v || is_exit how
                | EClosePop _ => v_cause v || isnil (removelast (v_levels v))
                | EForceQuit => true
                | ERunEnter => false
                | _ => v_cause v end;
     v_exiting := match e with
                  | EHandlerEnd _ _ how => v_exiting v || is_exit how
                  | EClosePop _ => v_exiting v || isnil (removelast (v_levels v))
                  | ERunEnter | ERunReturn | ETop => false
                  | _ => v_exiting v end;
     v_qc := match e with EQuitCb _ => true | ERunEnter => false | _ => v_qc v end |}.

Lemma last_opt_nil {A} (l : list A) : last_opt l = None <-> l = [].
Proof.
  unfold last_opt. split.
  - intros H. destruct (rev l) eqn:E; [|discriminate]. apply (f_equal (@rev A)) in E. rewrite rev_involutive in E. exact E.
  - intros ->. reflexivity.
Qed.

Lemma view_of_step w e : view_of (world_step w e) = view_step (view_of w) e.
Proof.
  destruct e; try reflexivity.
  - (* ESigNew *) cbn. destruct (w_expect_exc w =? 1)%nat; reflexivity.
  - (* EEnq *) cbn. destruct (w_expect_exc w =? 2)%nat; reflexivity.
  - (* EDropped *) cbn. destruct (w_expect_exc w =? 2)%nat; reflexivity.
  - (* EHandlerEnd *) destruct how as [[]|]; cbn; unfold view_of, view_step; cbn;
      rewrite ?orb_true_r, ?orb_false_r; reflexivity.
  - (* ENewLoopReturn *) cbn. destruct (w_fq w); reflexivity.
  - (* EClosePop *)
    cbn. destruct (last_opt (removelast (w_levels w))) eqn:L; unfold view_of, view_step; cbn.
    + destruct (removelast (w_levels w)); [discriminate L|]. cbn. rewrite !orb_false_r. reflexivity.
    + apply last_opt_nil in L. rewrite L. cbn. rewrite !orb_true_r. reflexivity.
  - (* EProcEnter *) destruct wait; reflexivity.
  - (* EProcReturn *) destruct wait; reflexivity.
Qed.

Definition V (t : list event) : view := view_of (Wt t).
Lemma V_cons e t : V (e :: t) = view_step (V t) e.
Proof. unfold V. rewrite Wt_cons. apply view_of_step. Qed.
Lemma V_nil : V [] = view_of world0.
Proof. reflexivity. Qed.

Definition chk_view (v : view) (e : event) : bool :=
  (if v_fq v then
     match e with EHandler _ _ _ | EEnq _ _ | ENewLoopEnter _ | EDispatch _ _ _ => false | _ => true end
   else true) &&
  (if v_exiting v && v_in_run v then
     match e with
     | EHandlerEnd _ _ (Some XExit) | EQuitCb _ | ERunReturn => true
     | _ => false
     end
   else true) &&
  match e with
  | EQuitCb a => v_in_run v && negb (v_qc v) &&
                 match v_quit v with Some a' => (a =? a')%nat | None => false end
  | ERunReturn =>
    v_in_run v &&
    (match v_quit v with Some _ => v_qc v | None => true end) &&
    (negb (v_rl1 v) || v_cause v)
  | _ => true
  end.

Lemma chk_C09_view w e : chk_C09 w e = chk_view (view_of w) e.
Proof. unfold chk_C09, chk_view. destruct e; reflexivity. Qed.

Lemma accT_cons_view e t : accT (e :: t) = accT t && chk_view (V t) e.
Proof. rewrite accT_cons, chk_C09_view. reflexivity. Qed.

(* [fq_sensitive]: the events refused once force_quit is in effect.  [run_event]: the two events of run()
   itself, which have conditions of their own.  While no exit is in flight nothing else is refused ([chk_ok]). *)
Definition fq_sensitive (e : event) : bool :=
  match e with EHandler _ _ _ | EEnq _ _ | ENewLoopEnter _ | EDispatch _ _ _ => true | _ => false end.
Definition run_event (e : event) : bool :=
  match e with EQuitCb _ | ERunReturn => true | _ => false end.

Lemma chk_ok v e :
  v_exiting v = false -> run_event e = false -> (fq_sensitive e = true -> v_fq v = false) ->
  chk_view v e = true.
Proof.
  intros X R F. unfold chk_view. rewrite X. cbn [andb].
  destruct (v_fq v); [|destruct e; try reflexivity; discriminate R].
  destruct e; try reflexivity; try discriminate R; cbn in F; discriminate F; reflexivity.
Qed.

Lemma chk_exit_end v h sid : chk_view v (EHandlerEnd h sid (Some XExit)) = true.
Proof. unfold chk_view. destruct (v_fq v), (v_exiting v && v_in_run v); reflexivity. Qed.

Lemma chk_quitcb v a :
  v_in_run v = true -> v_qc v = false -> v_quit v = Some a -> chk_view v (EQuitCb a) = true.
Proof.
  intros R Q A. unfold chk_view. rewrite R, Q, A, Nat.eqb_refl.
  destruct (v_fq v), (v_exiting v); reflexivity.
Qed.
Lemma chk_runreturn v :
  v_in_run v = true -> match v_quit v with Some _ => v_qc v | None => true end = true ->
  (v_rl1 v = true -> v_cause v = true) -> chk_view v ERunReturn = true.
Proof.
  intros R Q C. unfold chk_view. rewrite R, Q.
  destruct (v_rl1 v); [rewrite C by reflexivity|]; destruct (v_fq v), (v_exiting v); reflexivity.
Qed.

(* events that change no field of the view *)
Definition inert (e : event) : bool :=
  match e with
  | ENewLoopEnter _ | EClosePop _ | EForceQuit | ESetQuitCb _ | EQuitCb _ | ERunEnter | ERunReturn | ETop => false
  | EHandlerEnd _ _ how => negb (is_exit how)
  | _ => true
  end.

Lemma view_step_inert v e : inert e = true -> view_step v e = v.
Proof.
  destruct v, e; try reflexivity; try discriminate.
  destruct how as [[]|]; try discriminate; intros _; unfold view_step; cbn; rewrite !orb_false_r; reflexivity.
Qed.

Lemma inert_run_event e : inert e = true -> run_event e = false.
Proof. destruct e; try reflexivity; discriminate. Qed.

(* what every event outside run()'s own three leaves alone: run()'s bookkeeping; "cause" can only be gained *)
Definition run_only (e : event) : bool :=
  match e with ERunEnter | ERunReturn | EQuitCb _ => true | _ => false end.

Definition vfr (v v' : view) : Prop :=
  v_in_run v' = v_in_run v /\ v_qc v' = v_qc v /\ v_rl1 v' = v_rl1 v /\ (v_cause v = true -> v_cause v' = true).

Lemma vfr_refl v : vfr v v.
Proof. repeat split; auto. Qed.
Lemma vfr_trans v v1 v2 : vfr v v1 -> vfr v1 v2 -> vfr v v2.
Proof. intros (A & B & C & D) (A' & B' & C' & D'). repeat split; try congruence. auto. Qed.
Lemma vfr_step v e : run_only e = false -> vfr v (view_step v e).
Proof.
  intros H. destruct e; try discriminate H; repeat split; cbn; auto; intros ->; reflexivity.
Qed.

Definition winv (v : view) : Prop :=
  (v_fq v = true -> v_cause v = true) /\
  (v_rl1 v = true -> v_cause v = false -> v_levels v <> []).

Lemma winv_step v e : winv v -> winv (view_step v e).
Proof.
  intros [A B]. split.
  - destruct e; cbn; auto; intros H; rewrite (A H); reflexivity.
  - destruct e; cbn; auto.
    + intros R C. apply orb_false_elim in C as [C _]. auto.
    + intros R C E. symmetry in E. revert E. apply app_cons_not_nil.
    + intros R C. apply orb_false_elim in C as [C N]. destruct (removelast (v_levels v)); [discriminate N|discriminate].
    + discriminate.
    + intros R _. destruct (v_levels v); [discriminate R|discriminate].
Qed.

Lemma winv_V t : winv (V t).
Proof.
  induction t as [|e t IH].
  - split; cbn; [discriminate|discriminate].
  - rewrite V_cons. apply winv_step, IH.
Qed.

Lemma rev_nil_inv {A} (l : list A) : rev l = [] -> l = [].
Proof. intros H. apply (f_equal (@rev A)) in H. rewrite rev_involutive in H. exact H. Qed.

(* All that the C09 clauses depend on in a loop state.  The passes read every state through [core_of]:
   updates of the other fields then vanish by computation, and the transformers that [exec] is made of
   become [push] and a few explicit records. *)
Record core := {
  c_levels : list nat; c_run : bool; c_fq : bool; c_quit : option nat; c_trace : list event }.

Definition push (e : event) (k : core) : core :=
  {| c_levels := c_levels k; c_run := c_run k; c_fq := c_fq k; c_quit := c_quit k; c_trace := e :: c_trace k |}.
(* execute_new_loop opens a level *)
Definition new_level (q : nat) (k : core) : core :=
  {| c_levels := c_levels k ++ [q]; c_run := c_run k; c_fq := c_fq k; c_quit := c_quit k;
     c_trace := ENewLoopEnter q :: c_trace k |}.
(* close_loop pops a level *)
Definition close_level (top : nat) (lv : list nat) (r : bool) (k : core) : core :=
  {| c_levels := lv; c_run := r; c_fq := c_fq k; c_quit := c_quit k; c_trace := EClosePop top :: c_trace k |}.
(* force_quit *)
Definition quit_now (k : core) : core :=
  {| c_levels := []; c_run := false; c_fq := true; c_quit := c_quit k; c_trace := EForceQuit :: c_trace k |}.
(* set_quit_callback *)
Definition set_quit (a : nat) (k : core) : core :=
  {| c_levels := c_levels k; c_run := c_run k; c_fq := c_fq k; c_quit := Some a;
     c_trace := ESetQuitCb a :: c_trace k |}.
(* run() on entry *)
Definition enter_run (k : core) : core :=
  {| c_levels := c_levels k; c_run := true; c_fq := false; c_quit := c_quit k; c_trace := ERunEnter :: c_trace k |}.
(* _mainloop on its way out *)
Definition rearm (k : core) : core :=
  {| c_levels := c_levels k; c_run := negb (c_fq k) || c_run k; c_fq := c_fq k; c_quit := c_quit k;
     c_trace := c_trace k |}.

Section St.
  Context {U : Type}.
  Implicit Types s : lstate U.

  Definition enq_ev s (sg : signal) : event :=
    if force_quit s then EDropped (sg_id sg)
    else EEnq (sg_id sg) (match route s (rev (levels s)) (sg_src sg) with Some q => q | None => active s end).

  Lemma levels_emit e s : levels (emit e s) = levels s. Proof. reflexivity. Qed.
  Lemma run_loop_emit e s : run_loop (emit e s) = run_loop s. Proof. reflexivity. Qed.
  Lemma force_quit_emit e s : force_quit (emit e s) = force_quit s. Proof. reflexivity. Qed.
  Lemma quit_cb_emit e s : quit_cb (emit e s) = quit_cb s. Proof. reflexivity. Qed.
  Lemma trace_emit e s : trace (emit e s) = e :: trace s. Proof. reflexivity. Qed.
  Lemma qstore_emit e s : qstore (emit e s) = qstore s. Proof. reflexivity. Qed.

  Lemma levels_set_qstore f s : levels (set qstore f s) = levels s. Proof. reflexivity. Qed.
  Lemma levels_set_levels v s : levels (s <| levels := v |>) = v. Proof. reflexivity. Qed.
  Lemma levels_set_active f s : levels (set active f s) = levels s. Proof. reflexivity. Qed.
  Lemma levels_set_handlers f s : levels (set handlers f s) = levels s. Proof. reflexivity. Qed.
  Lemma levels_set_tickets f s : levels (set tickets f s) = levels s. Proof. reflexivity. Qed.
  Lemma levels_set_run_loop f s : levels (set run_loop f s) = levels s. Proof. reflexivity. Qed.
  Lemma levels_set_force_quit f s : levels (set force_quit f s) = levels s. Proof. reflexivity. Qed.
  Lemma levels_set_quit_cb f s : levels (set quit_cb f s) = levels s. Proof. reflexivity. Qed.
  Lemma levels_set_next_sig f s : levels (set next_sig f s) = levels s. Proof. reflexivity. Qed.
  Lemma levels_set_ext f s : levels (set ext f s) = levels s. Proof. reflexivity. Qed.
  Lemma levels_set_ust f s : levels (set ust f s) = levels s. Proof. reflexivity. Qed.
  Lemma run_loop_set_qstore f s : run_loop (set qstore f s) = run_loop s. Proof. reflexivity. Qed.
  Lemma run_loop_set_levels f s : run_loop (set levels f s) = run_loop s. Proof. reflexivity. Qed.
  Lemma run_loop_set_active f s : run_loop (set active f s) = run_loop s. Proof. reflexivity. Qed.
  Lemma run_loop_set_handlers f s : run_loop (set handlers f s) = run_loop s. Proof. reflexivity. Qed.
  Lemma run_loop_set_tickets f s : run_loop (set tickets f s) = run_loop s. Proof. reflexivity. Qed.
  Lemma run_loop_set_run_loop v s : run_loop (s <| run_loop := v |>) = v. Proof. reflexivity. Qed.
  Lemma run_loop_set_force_quit f s : run_loop (set force_quit f s) = run_loop s. Proof. reflexivity. Qed.
  Lemma run_loop_set_quit_cb f s : run_loop (set quit_cb f s) = run_loop s. Proof. reflexivity. Qed.
  Lemma run_loop_set_next_sig f s : run_loop (set next_sig f s) = run_loop s. Proof. reflexivity. Qed.
  Lemma run_loop_set_ext f s : run_loop (set ext f s) = run_loop s. Proof. reflexivity. Qed.
  Lemma run_loop_set_ust f s : run_loop (set ust f s) = run_loop s. Proof. reflexivity. Qed.
  Lemma force_quit_set_qstore f s : force_quit (set qstore f s) = force_quit s. Proof. reflexivity. Qed.
  Lemma force_quit_set_levels f s : force_quit (set levels f s) = force_quit s. Proof. reflexivity. Qed.
  Lemma force_quit_set_active f s : force_quit (set active f s) = force_quit s. Proof. reflexivity. Qed.
  Lemma force_quit_set_handlers f s : force_quit (set handlers f s) = force_quit s. Proof. reflexivity. Qed.
  Lemma force_quit_set_tickets f s : force_quit (set tickets f s) = force_quit s. Proof. reflexivity. Qed.
  Lemma force_quit_set_run_loop f s : force_quit (set run_loop f s) = force_quit s. Proof. reflexivity. Qed.
  Lemma force_quit_set_force_quit v s : force_quit (s <| force_quit := v |>) = v. Proof. reflexivity. Qed.
  Lemma force_quit_set_quit_cb f s : force_quit (set quit_cb f s) = force_quit s. Proof. reflexivity. Qed.
  Lemma force_quit_set_next_sig f s : force_quit (set next_sig f s) = force_quit s. Proof. reflexivity. Qed.
  Lemma force_quit_set_ext f s : force_quit (set ext f s) = force_quit s. Proof. reflexivity. Qed.
  Lemma force_quit_set_ust f s : force_quit (set ust f s) = force_quit s. Proof. reflexivity. Qed.
  Lemma quit_cb_set_qstore f s : quit_cb (set qstore f s) = quit_cb s. Proof. reflexivity. Qed.
  Lemma quit_cb_set_levels f s : quit_cb (set levels f s) = quit_cb s. Proof. reflexivity. Qed.
  Lemma quit_cb_set_active f s : quit_cb (set active f s) = quit_cb s. Proof. reflexivity. Qed.
  Lemma quit_cb_set_handlers f s : quit_cb (set handlers f s) = quit_cb s. Proof. reflexivity. Qed.
  Lemma quit_cb_set_tickets f s : quit_cb (set tickets f s) = quit_cb s. Proof. reflexivity. Qed.
  Lemma quit_cb_set_run_loop f s : quit_cb (set run_loop f s) = quit_cb s. Proof. reflexivity. Qed.
  Lemma quit_cb_set_force_quit f s : quit_cb (set force_quit f s) = quit_cb s. Proof. reflexivity. Qed.
  Lemma quit_cb_set_quit_cb v s : quit_cb (s <| quit_cb := v |>) = v. Proof. reflexivity. Qed.
  Lemma quit_cb_set_next_sig f s : quit_cb (set next_sig f s) = quit_cb s. Proof. reflexivity. Qed.
  Lemma quit_cb_set_ext f s : quit_cb (set ext f s) = quit_cb s. Proof. reflexivity. Qed.
  Lemma quit_cb_set_ust f s : quit_cb (set ust f s) = quit_cb s. Proof. reflexivity. Qed.
  Lemma trace_set_qstore f s : trace (set qstore f s) = trace s. Proof. reflexivity. Qed.
  Lemma trace_set_levels f s : trace (set levels f s) = trace s. Proof. reflexivity. Qed.
  Lemma trace_set_active f s : trace (set active f s) = trace s. Proof. reflexivity. Qed.
  Lemma trace_set_handlers f s : trace (set handlers f s) = trace s. Proof. reflexivity. Qed.
  Lemma trace_set_tickets f s : trace (set tickets f s) = trace s. Proof. reflexivity. Qed.
  Lemma trace_set_run_loop f s : trace (set run_loop f s) = trace s. Proof. reflexivity. Qed.
  Lemma trace_set_force_quit f s : trace (set force_quit f s) = trace s. Proof. reflexivity. Qed.
  Lemma trace_set_quit_cb f s : trace (set quit_cb f s) = trace s. Proof. reflexivity. Qed.
  Lemma trace_set_next_sig f s : trace (set next_sig f s) = trace s. Proof. reflexivity. Qed.
  Lemma trace_set_ext f s : trace (set ext f s) = trace s. Proof. reflexivity. Qed.
  Lemma trace_set_ust f s : trace (set ust f s) = trace s. Proof. reflexivity. Qed.

  Lemma levels_set_q s q v : levels (set_q s q v) = levels s. Proof. reflexivity. Qed.
  Lemma run_loop_set_q s q v : run_loop (set_q s q v) = run_loop s. Proof. reflexivity. Qed.
  Lemma force_quit_set_q s q v : force_quit (set_q s q v) = force_quit s. Proof. reflexivity. Qed.
  Lemma quit_cb_set_q s q v : quit_cb (set_q s q v) = quit_cb s. Proof. reflexivity. Qed.
  Lemma trace_set_q s q v : trace (set_q s q v) = trace s. Proof. reflexivity. Qed.

  Definition core_of s : core :=
    {| c_levels := levels s; c_run := run_loop s; c_fq := force_quit s; c_quit := quit_cb s; c_trace := trace s |}.

  Lemma core_emit e s : core_of (emit e s) = push e (core_of s).
  Proof. reflexivity. Qed.

  (* enqueue_signal adds one event to the core and _mark_signal_processed leaves it alone; field by field below *)
  Lemma core_do_enqueue s sg : core_of (do_enqueue s sg) = push (enq_ev s sg) (core_of s).
  Proof. unfold do_enqueue, enq_ev. destruct (force_quit s) eqn:E; unfold core_of, push; cbn; rewrite ?E; reflexivity. Qed.
  Lemma core_ps_mark sg idx s : core_of (ps_mark sg idx s) = core_of s.
  Proof. unfold ps_mark. destruct (idx =? 0)%nat; reflexivity. Qed.

  Lemma levels_do_enqueue s sg : levels (do_enqueue s sg) = levels s.
  Proof. exact (f_equal c_levels (core_do_enqueue s sg)). Qed.
  Lemma run_loop_do_enqueue s sg : run_loop (do_enqueue s sg) = run_loop s.
  Proof. exact (f_equal c_run (core_do_enqueue s sg)). Qed.
  Lemma force_quit_do_enqueue s sg : force_quit (do_enqueue s sg) = force_quit s.
  Proof. exact (f_equal c_fq (core_do_enqueue s sg)). Qed.
  Lemma quit_cb_do_enqueue s sg : quit_cb (do_enqueue s sg) = quit_cb s.
  Proof. exact (f_equal c_quit (core_do_enqueue s sg)). Qed.
  Lemma trace_do_enqueue s sg : trace (do_enqueue s sg) = enq_ev s sg :: trace s.
  Proof. exact (f_equal c_trace (core_do_enqueue s sg)). Qed.

  Lemma levels_ps_mark sg idx s : levels (ps_mark sg idx s) = levels s.
  Proof. exact (f_equal c_levels (core_ps_mark sg idx s)). Qed.
  Lemma run_loop_ps_mark sg idx s : run_loop (ps_mark sg idx s) = run_loop s.
  Proof. exact (f_equal c_run (core_ps_mark sg idx s)). Qed.
  Lemma force_quit_ps_mark sg idx s : force_quit (ps_mark sg idx s) = force_quit s.
  Proof. exact (f_equal c_fq (core_ps_mark sg idx s)). Qed.
  Lemma quit_cb_ps_mark sg idx s : quit_cb (ps_mark sg idx s) = quit_cb s.
  Proof. exact (f_equal c_quit (core_ps_mark sg idx s)). Qed.
  Lemma trace_ps_mark sg idx s : trace (ps_mark sg idx s) = trace s.
  Proof. exact (f_equal c_trace (core_ps_mark sg idx s)). Qed.

  Lemma new_signal_eq s sp sg s1 : new_signal s sp = (sg, s1) ->
    sg = mk_signal (next_sig s) sp /\
    s1 = emit (ESigNew (next_sig s) (sp_cls sp) (sp_prio sp) (sp_src sp)) (s <| next_sig := S (next_sig s) |>).
  Proof. unfold new_signal. intros H. injection H as <- <-. auto. Qed.

  (* plain events leave the view's fields alone *)
  Lemma view_step_enq_ev v s sg : view_step v (enq_ev s sg) = view_step v (EMark 0).
  Proof. unfold enq_ev. destruct (force_quit s); reflexivity. Qed.
  Lemma view_step_user v e : view_step v (user_event e) = view_step v (EMark 0).
  Proof. destruct e; reflexivity. Qed.

  Lemma levels_disp sg s s1 : levels (disp sg s s1) = levels s1. Proof. reflexivity. Qed.
  Lemma run_loop_disp sg s s1 : run_loop (disp sg s s1) = run_loop s1. Proof. reflexivity. Qed.
  Lemma force_quit_disp sg s s1 : force_quit (disp sg s s1) = force_quit s1. Proof. reflexivity. Qed.
  Lemma quit_cb_disp sg s s1 : quit_cb (disp sg s s1) = quit_cb s1. Proof. reflexivity. Qed.
  Lemma trace_disp sg s s1 :
    trace (disp sg s s1) = EDispatch (sg_id sg) (active s) (length (levels s)) :: trace s1.
  Proof. reflexivity. Qed.

  Lemma levels_run_enter s : levels (run_enter s) = levels s. Proof. reflexivity. Qed.
  Lemma run_loop_run_enter s : run_loop (run_enter s) = true. Proof. reflexivity. Qed.
  Lemma force_quit_run_enter s : force_quit (run_enter s) = false. Proof. reflexivity. Qed.
  Lemma quit_cb_run_enter s : quit_cb (run_enter s) = quit_cb s. Proof. reflexivity. Qed.
  Lemma trace_run_enter s : trace (run_enter s) = ERunEnter :: trace s. Proof. reflexivity. Qed.

  Definition nl_pre (s1 : lstate U) : lstate U :=
    emit (ENewLoopEnter (length (qstore s1)))
         (s1 <| qstore := qstore s1 ++ [empty_queue] |> <| active := length (qstore s1) |>
             <| levels := levels s1 ++ [length (qstore s1)] |>).
  Lemma levels_nl_pre s1 : levels (nl_pre s1) = levels s1 ++ [length (qstore s1)]. Proof. reflexivity. Qed.
  Lemma run_loop_nl_pre s1 : run_loop (nl_pre s1) = run_loop s1. Proof. reflexivity. Qed.
  Lemma force_quit_nl_pre s1 : force_quit (nl_pre s1) = force_quit s1. Proof. reflexivity. Qed.
  Lemma quit_cb_nl_pre s1 : quit_cb (nl_pre s1) = quit_cb s1. Proof. reflexivity. Qed.
  Lemma trace_nl_pre s1 : trace (nl_pre s1) = ENewLoopEnter (length (qstore s1)) :: trace s1. Proof. reflexivity. Qed.
  Lemma nl_enter_eq sg s1 : nl_enter sg s1 = do_enqueue (nl_pre s1) sg. Proof. reflexivity. Qed.

  Lemma quit_call_some s a : quit_cb s = Some a -> quit_call s = emit (EQuitCb a) s.
  Proof. unfold quit_call. intros ->. reflexivity. Qed.
  Lemma quit_call_none s : quit_cb s = None -> quit_call s = s.
  Proof. unfold quit_call. intros ->. reflexivity. Qed.
  Lemma ml_exit_fq s : force_quit s = true -> ml_exit s = s.
  Proof. unfold ml_exit. intros ->. reflexivity. Qed.
  Lemma ml_exit_nofq s : force_quit s = false -> ml_exit s = s <| run_loop := true |>.
  Proof. unfold ml_exit. intros ->. reflexivity. Qed.

  Lemma core_new_signal s sp sg s1 : new_signal s sp = (sg, s1) ->
    core_of s1 = push (ESigNew (next_sig s) (sp_cls sp) (sp_prio sp) (sp_src sp)) (core_of s).
  Proof. intros H. apply new_signal_eq in H as [_ ->]. reflexivity. Qed.
  Lemma core_do_get_some s sg s1 : do_get s = inl (Some (sg, s1)) -> core_of s1 = core_of s.
  Proof. intros H. apply do_get_some in H as (_ & _ & q' & _ & ->). reflexivity. Qed.
  Lemma core_ml_exit s : core_of (ml_exit s) = rearm (core_of s).
  Proof. unfold ml_exit. destruct (force_quit s) eqn:E; unfold core_of, rearm; cbn; rewrite E; reflexivity. Qed.

  Lemma inert_enq_ev s sg : inert (enq_ev s sg) = true.
  Proof. unfold enq_ev. destruct (force_quit s); reflexivity. Qed.
  Lemma enq_ev_fq s sg : fq_sensitive (enq_ev s sg) && force_quit s = false.
  Proof. unfold enq_ev. destruct (force_quit s); reflexivity. Qed.
  Lemma inert_user e : inert (user_event e) = true.
  Proof. destruct e; reflexivity. Qed.
  Lemma user_fq e : fq_sensitive (user_event e) = false.
  Proof. destruct e; reflexivity. Qed.

  (* the link of the ghost view [V (trace s)] with the loop's own fields *)
  Definition link s : Prop :=
    v_levels (V (trace s)) = levels s /\ v_fq (V (trace s)) = force_quit s /\ v_quit (V (trace s)) = quit_cb s.
  Definition inv s : Prop := force_quit s = true -> run_loop s = false.
End St.

Arguments core_new_signal {U s sp sg s1}.
Arguments core_do_get_some {U s sg s1}.
Arguments V : simpl never.

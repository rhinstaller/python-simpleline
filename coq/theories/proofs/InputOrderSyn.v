(* InputOrderSyn.v — the syntactic form of "a single event queue":
   a session in which no command list (setup / refresh / show_all / closed / input / signal callbacks, SIfCount branches
   included, and the application's own actions) contains SPushModal, and which has no quit dialog (quit = None), never
   calls execute_new_loop: its trace has no ENewLoopEnter ([no_modal_no_nested]).  With proofs/InputOrder.v this gives
   the order of the delivered lines under a decidable hypothesis on the session ([lines_in_order_syn]).
   Method: LoopHoare.v's [loop_rule] (through InputLink.v's [Spec_of_loop]: [spec_nest_all]) and InputLink.v's [keeps]
   rules once more, with the invariant [InvNest], "no ENewLoopEnter so far, and the scheduler has no quit screen";
   nothing is asked of a signal in dispatch, nothing may be passed to execute_new_loop; the screens' code is walked
   syntactically ([Safe3]: no primitive step is execute_new_loop; every state write keeps st_quit = None). *)
From SL Require Import Tac.
From RecordUpdate Require Import RecordUpdate.
From SL Require Import PyInt LoopSem ScreenSem ScreenMon proofs.ScreenFacts proofs.InputLink proofs.C06Proofs proofs.InputOrder.
Import ListNotations.

Fixpoint scmd_nomodal (c : scmd) : bool :=
  match c with
  | SPushModal _ _ => false
  | SIfCount _ t e => forallb scmd_nomodal t && forallb scmd_nomodal e
  | _ => true
  end.
Definition cmds_nomodal (l : list scmd) : bool := forallb scmd_nomodal l.
Definition spec_nomodal (sp : screen_spec) : bool :=
  cmds_nomodal (sc_setup_cmds sp) && cmds_nomodal (sc_refresh sp) && cmds_nomodal (sc_show sp) && cmds_nomodal (sc_closed sp) &&
  forallb (fun x => cmds_nomodal (fst (snd x))) (sc_input sp) && cmds_nomodal (fst (sc_input_default sp)) &&
  forallb cmds_nomodal (sc_custom sp).
Definition no_modal_syntax (specl : list screen_spec) (quit : option nat) (acts : list saction) : bool :=
  forallb spec_nomodal specl && match quit with None => true | Some _ => false end &&
  forallb (fun a => match a with SACmds l => cmds_nomodal l | SARun => true end) acts.

Lemma nested_one e t : isnest e = false -> nested (e :: t) = nested t.
Proof. intros H. unfold nested. cbn [existsb]. rewrite H. reflexivity. Qed.

Section Syn.
  Variable specs : nat -> screen_spec.
  Hypothesis Hnm : forall scr, spec_nomodal (specs scr) = true.
  Notation lst := (lstate sstate).
  Implicit Types s : lst.
  Implicit Types Q : outcome -> lst -> Prop.

  Definition ANest s : Prop := nested (trace s) = false.
  Definition InvNest s : Prop := nested (trace s) = false /\ st_quit (ust s) = None.
  Definition NoSigPre (sg : signal) (idx : nat) s : Prop := True.
  Definition nospec (sp : sigspec) : Prop := False.          (* nothing may be passed to execute_new_loop *)

  Notation SPNest := (Spec (screen_code specs) ANest ANest InvNest NoRel NoSigPre nospec).

  Lemma InvNest_same s s' : trace s' = trace s -> ust s' = ust s -> InvNest s -> InvNest s'.
  Proof. intros T U [H1 H2]. split; [rewrite T; exact H1|rewrite U; exact H2]. Qed.
  Lemma InvNest_emit e s : isnest e = false -> InvNest s -> InvNest (emit e s).
  Proof. intros N [H1 H2]. split; [cbn [trace emit set]; rewrite (nested_one _ _ N); exact H1|exact H2]. Qed.
  Lemma InvNest_enqueue s sg : InvNest s -> InvNest (do_enqueue s sg).
  Proof.
    intros HI. unfold do_enqueue. destruct (force_quit s); apply InvNest_emit; try reflexivity; [exact HI|].
    eapply InvNest_same; [| |exact HI]; reflexivity.
  Qed.
  Lemma InvNest_new_signal s sp : InvNest s -> InvNest (snd (new_signal s sp)).
  Proof. intros HI. unfold new_signal. cbn [snd]. apply InvNest_emit; [reflexivity|]. eapply InvNest_same; [| |exact HI]; reflexivity. Qed.

  Lemma InvNest_A s : InvNest s -> ANest s.
  Proof. intros H. apply H. Qed.

  Notation OTNest := (keeps (screen_code specs) ANest ANest InvNest NoRel NoSigPre nospec).

  Definition api_ok3 (a : api) : Prop := match a with ANewLoop _ => False | _ => True end.

  Lemma OTNest_api a : api_ok3 a -> OTNest (PApi a).
  Proof.
    intros OK. apply keeps_api; [exact InvNest_A|]. intros s HI. destruct a; try contradiction; cbn [api_exact lcall].
    - apply InvNest_enqueue, InvNest_new_signal, HI.
    - apply InvNest_emit; [reflexivity|exact HI].
    - exact I.
    - exact I.
    - apply InvNest_emit; [reflexivity|exact HI].
    - apply InvNest_emit; [reflexivity|exact HI].
    - apply InvNest_emit; [reflexivity|exact HI].
    - exact HI.
  Qed.

  (* programs none of whose primitive steps is execute_new_loop, and whose state writes keep "no quit screen" *)
  Inductive Safe3 : sprog -> Prop :=
  | S3_ret : Safe3 PRet
  | S3_throw e : Safe3 (PThrow e)
  | S3_seq p q : Safe3 p -> Safe3 q -> Safe3 (PSeq p q)
  | S3_try p h : Safe3 p -> Safe3 h -> Safe3 (PTry p h)
  | S3_st g : (forall u, st_quit u = None -> st_quit (fst (g u)) = None) ->
              (forall u, st_quit u = None -> Safe3 (snd (g u))) -> Safe3 (PSt g)
  | S3_while c b : Safe3 b -> Safe3 (PWhile c b)
  | S3_emit e : Safe3 (PEmit e)
  | S3_api a : api_ok3 a -> Safe3 (PApi a).

  Lemma user_event_not_nest e : isnest (user_event e) = false.
  Proof. destruct e; reflexivity. Qed.

  Theorem Safe3_OTNest p : Safe3 p -> OTNest p.
  Proof.
    induction 1 as [|e|p q _ IHp _ IHq|p h _ IHp _ IHh|g H1 _ IH|c b _ IHb|e|a Ha].
    - apply keeps_ret, InvNest_A.
    - apply keeps_throw; exact InvNest_A.
    - apply keeps_seq; assumption.
    - apply keeps_try; assumption.
    - apply keeps_st; [exact InvNest_A|]. intros s [N Pu]. split; [split; [exact N|apply H1, Pu]|apply IH, Pu].
    - apply keeps_while; [exact InvNest_A|exact IHb].
    - apply keeps_emit; [exact InvNest_A|]. intros s. apply InvNest_emit, user_event_not_nest.
    - apply OTNest_api, Ha.
  Qed.

  Lemma S3_rd (f : sstate -> sprog) : (forall u, st_quit u = None -> Safe3 (f u)) -> Safe3 (rd f).
  Proof. intros H. apply S3_st; intros u Pu; [exact Pu|apply H, Pu]. Qed.
  Lemma S3_wr (g : sstate -> sstate) : (forall u, st_quit u = None -> st_quit (g u) = None) -> Safe3 (wr g).
  Proof. intros H. apply S3_st; intros u Pu; [apply H, Pu|apply S3_ret]. Qed.

  Ltac safe3_step :=
    lazymatch goal with
    | |- Safe3 PRet => apply S3_ret
    | |- Safe3 (PThrow _) => apply S3_throw
    | |- Safe3 (PSeq _ _) => apply S3_seq
    | |- Safe3 (PTry _ _) => apply S3_try
    | |- Safe3 (PWhile _ _) => apply S3_while
    | |- Safe3 (rd _) => apply S3_rd; intros ? ?; cbv zeta
    | |- Safe3 (wr _) => apply S3_wr; let u := fresh "u" in let Pu := fresh "Pu" in intros u Pu; exact Pu
    | |- Safe3 (ev _ _) => apply S3_emit
    | |- Safe3 (evt _ _ _) => apply S3_emit
    | |- Safe3 (PEmit _) => apply S3_emit
    | |- Safe3 (PApi _) => apply S3_api; exact I
    | Pu : st_quit ?u = None |- Safe3 (match st_quit ?u with _ => _ end) => rewrite Pu
    | |- Safe3 (if ?c then _ else _) => destruct c
    | |- Safe3 (match ?x with _ => _ end) => destruct x
    | |- Safe3 ?p => first [ assumption | solve [auto with safe3 nocore] | let h := hd p in unfold h ]
    end.
  Ltac safe3 := repeat safe3_step.

  Lemma Safe3_emit_failed_all l : Safe3 (emit_failed_all l).
  Proof. induction l as [|r l IH]; cbn [emit_failed_all]; safe3. Qed.
  Hint Resolve Safe3_emit_failed_all : safe3.
  Lemma Safe3_start_input_thread req check : Safe3 (start_input_thread req check).
  Proof. safe3. Qed.
  Hint Resolve Safe3_start_input_thread : safe3.
  Lemma Safe3_new_input_handler src owner cb k : (forall m, Safe3 (k m)) -> Safe3 (new_input_handler src owner cb k).
  Proof. intros H. unfold new_input_handler. safe3; try apply H. Qed.
  Lemma Safe3_handler_get_input k skip : Safe3 (handler_get_input k skip).
  Proof. safe3. Qed.
  Hint Resolve Safe3_handler_get_input : safe3.
  Lemma Safe3_get_input_blocking scr : Safe3 (get_input_blocking specs scr).
  Proof. unfold get_input_blocking. safe3. Qed.
  Lemma Safe3_handler_ask self h skip : Safe3 (handler_ask self h skip).
  Proof. unfold handler_ask. safe3. Qed.
  Lemma Safe3_handler_wait h : Safe3 (handler_wait h).
  Proof. safe3. Qed.
  Hint Resolve Safe3_get_input_blocking Safe3_handler_ask Safe3_handler_wait : safe3.

  Lemma Safe3_cmds cn : Safe3 cn -> (forall c, scmd_nomodal c = true -> forall self cnt, Safe3 (do_scmd specs cn self cnt c)) /\
    (forall l, cmds_nomodal l = true -> forall self cnt, Safe3 (do_scmds specs cn self cnt l)).
  Proof.
    intros Hcn. apply (do_scmd_closed specs Safe3 scmd_nomodal cn S3_ret S3_seq).
    - intros k t e NM. apply andb_true_iff, NM.
    - intros c Hc NM self cnt. destruct c; try contradiction; try discriminate NM; cbn [do_scmd]; safe3.
  Qed.
  Definition Safe3_do_scmds cn (H : Safe3 cn) := proj2 (Safe3_cmds cn H).

  Lemma nm scr : lists_ok (fun l => cmds_nomodal l = true) (specs scr).
  Proof. exact (lists_okb_ok _ _ (Hnm scr)). Qed.

  Lemma Safe3_call_closed d : Safe3 (call_closed specs d).
  Proof. unfold call_closed. safe3. apply Safe3_do_scmds; [safe3|exact (ok_closed (nm _))]. Qed.
  Hint Resolve Safe3_call_closed : safe3.
  Lemma Safe3_close_screen cf : Safe3 (close_screen specs cf).
  Proof. unfold close_screen, ev_stack, sched_redraw. safe3. Qed.
  Hint Resolve Safe3_close_screen : safe3.
  Lemma Safe3_run_cmds self cnt l : cmds_nomodal l = true -> Safe3 (run_cmds specs self cnt l).
  Proof. intros NM. unfold run_cmds. apply Safe3_do_scmds; [apply Safe3_close_screen|exact NM]. Qed.
  Lemma Safe3_call_setup d : Safe3 (call_setup specs d).
  Proof.
    unfold call_setup. pose proof (ok_setup (nm (sd_scr d))) as NM.
    destruct (sc_setup_cmds (specs (sd_scr d))) as [|c l]; [unfold call_setup_plain; safe3|].
    unfold call_setup_cmds. apply S3_rd. intros u Pu. cbv zeta.
    apply S3_seq; [safe3|]. apply S3_seq; [safe3|]. apply S3_seq; [apply Safe3_run_cmds; exact NM|]. safe3.
  Qed.
  Lemma Safe3_call_refresh d : Safe3 (call_refresh specs d).
  Proof. unfold call_refresh. safe3. apply Safe3_run_cmds. exact (ok_refresh (nm _)). Qed.
  Lemma Safe3_ask_pages scr k : Safe3 (ask_pages specs scr k).
  Proof. induction k as [|k IH]; cbn [ask_pages]; safe3. Qed.
  Hint Resolve Safe3_call_setup Safe3_call_refresh Safe3_ask_pages : safe3.
  Lemma Safe3_call_show_all d : Safe3 (call_show_all specs d).
  Proof. unfold call_show_all. safe3. apply Safe3_run_cmds. exact (ok_show (nm _)). Qed.
  Lemma Safe3_call_input scr key : Safe3 (call_input specs scr key).
  Proof.
    unfold call_input. apply S3_rd. intros u Pu. cbv zeta.
    destruct (assoc_str key (sc_input (specs scr))) as [[c r]|] eqn:AS; cbv beta iota; safe3; apply Safe3_run_cmds.
    - exact (ok_assoc (nm scr) AS).
    - exact (ok_default (nm scr)).
  Qed.
  Lemma Safe3_get_input scr args : Safe3 (get_input specs scr args).
  Proof. unfold get_input. safe3. Qed.
  Hint Resolve Safe3_call_show_all Safe3_call_input Safe3_get_input : safe3.
  Lemma Safe3_process_input_result act b : Safe3 (process_input_result specs act b).
  Proof. unfold process_input_result, with_top, sched_redraw. safe3. Qed.
  Hint Resolve Safe3_process_input_result : safe3.
  Lemma Safe3_process_input scr line : Safe3 (process_input specs scr line).
  Proof. unfold process_input, raise_exception_signal. safe3. Qed.
  Lemma Safe3_draw_screen d : Safe3 (draw_screen specs d).
  Proof. unfold draw_screen, raise_exception_signal. safe3. Qed.
  Hint Resolve Safe3_process_input Safe3_draw_screen : safe3.
  Lemma Safe3_process_screen : Safe3 (process_screen specs).
  Proof. unfold process_screen, with_top, sched_redraw, raise_exception_signal. safe3. Qed.
  Lemma Safe3_custom_handler k sg scr : Safe3 (custom_handler specs k sg scr).
  Proof.
    unfold custom_handler. safe3. apply Safe3_run_cmds.
    exact (ok_nth_custom (fun l => cmds_nomodal l = true) k eq_refl (nm scr)).
  Qed.
  Lemma Safe3_input_received_handler sg : Safe3 (input_received_handler sg).
  Proof. unfold input_received_handler, emit_ready. safe3. Qed.
  Lemma Safe3_input_ready_handler k sg : Safe3 (input_ready_handler specs k sg).
  Proof. unfold input_ready_handler. safe3. Qed.
  Lemma Safe3_screen_code hid sg data : Safe3 (screen_code specs hid sg data).
  Proof.
    unfold screen_code. destruct (hid =? H_RENDER)%nat; [apply Safe3_process_screen|].
    destruct (hid =? H_CLOSE)%nat; [apply Safe3_close_screen|].
    destruct (hid =? H_RECEIVED)%nat; [apply Safe3_input_received_handler|].
    destruct (10 <=? hid)%nat; [apply Safe3_input_ready_handler|].
    destruct (3 <=? hid)%nat; [apply Safe3_custom_handler|apply S3_ret].
  Qed.

  Theorem spec_nest_all : forall n, SPNest n.
  Proof.
    apply Spec_of_loop, loop_rule.
    - (* Inv_F *) intros s HI. apply HI.
    - (* R_refl *) intros s. exact I.
    - (* R_trans *) intros a b c _ _. exact I.
    - (* X_R *) intros a b c _ H. exact H.
    - (* G_kill *) intros s HI. unfold ANest. cbn [trace emit set]. rewrite nested_one by reflexivity. apply HI.
    - (* G_step *) intros s s' Q ST HI. split; [|split; [exact I|destruct ST; intros; exact I]].
      destruct ST as [s s' (T & U & _)|s e NE|s p c sg q' _|s p c sg q' _|s sp r _ _|s|s sp []|s sp []].
      + eapply InvNest_same; eauto.
      + apply InvNest_emit; [destruct e; try discriminate NE; reflexivity|exact HI].
      + apply InvNest_emit; [reflexivity|]. eapply InvNest_same; [| |exact HI]; reflexivity.
      + apply InvNest_emit; [reflexivity|]. eapply InvNest_same; [| |exact HI]; reflexivity.
      + unfold C09Exec.ext_arrival, new_signal. apply InvNest_enqueue.
        apply InvNest_emit; [reflexivity|]. apply InvNest_emit; [reflexivity|]. eapply InvNest_same; [| |exact HI]; reflexivity.
      + apply InvNest_enqueue, InvNest_new_signal, HI.
    - (* handlers *) apply handler_wpS.
      + (* unwinding *) intros s h sid H. unfold ANest in *. cbn [trace emit set]. rewrite nested_one by reflexivity. exact H.
      + (* bodies *) intros n HS s sg idx hs hid data HI _ _ _ _.
        apply (Safe3_OTNest _ (Safe3_screen_code hid sg data)); [exact HS|apply InvNest_emit; [reflexivity|exact HI]|].
        intros o s2 HI2. cbv zeta. split; [apply InvNest_emit; [reflexivity|exact HI2]|split; exact I].
  Qed.

  Theorem session_no_nested fuel acts s : InvNest s ->
    forallb (fun a => match a with SACmds l => cmds_nomodal l | SARun => true end) acts = true ->
    ANest (snd (app_session specs fuel acts s)).
  Proof.
    intros HI NM.
    apply (session_keeps specs ANest ANest InvNest NoRel NoSigPre nospec
             (fun a => match a with SACmds l => cmds_nomodal l | SARun => true end = true) fuel InvNest_A).
    - auto.
    - exact spec_nest_all.
    - intros s0. apply InvNest_emit. reflexivity.
    - intros l N. apply Safe3_OTNest, Safe3_run_cmds, N.
    - exact HI.
    - apply Forall_forall, forallb_forall, NM.
  Qed.
End Syn.

Theorem no_modal_no_nested specs specl typed quit run_empty fuel acts :
  (forall n, specs n = nth n specl default_spec) -> no_modal_syntax specl quit acts = true ->
  no_nested_loop (rev (trace (snd (app_run_all specs specl typed quit run_empty fuel acts)))) = true.
Proof.
  intros HS NM. unfold no_modal_syntax in NM.
  apply andb_true_iff in NM. destruct NM as [NM N3]. apply andb_true_iff in NM. destruct NM as [N1 N2].
  destruct quit as [q|]; [discriminate N2|]. clear N2.
  unfold app_run_all.
  destruct (exec (screen_code specs) 20 (CProg app_initialize) (init_state (sstate0 specl typed None run_empty))) as [o s1] eqn:E.
  assert (HI : InvNest s1) by (cbn in E; inversion E; subst o s1; split; reflexivity).
  pose proof (session_no_nested specs (specs_allb _ specs specl HS eq_refl N1) fuel acts s1 HI N3) as H.
  unfold no_nested_loop. apply negb_true_iff. change (existsb isnest ?t) with (nested t). rewrite nested_rev. exact H.
Qed.

Theorem lines_in_order_syn specs specl typed quit run_empty fuel acts :
  (forall n, specs n = nth n specl default_spec) -> no_modal_syntax specl quit acts = true ->
  Subseq (ready_texts (rev (trace (snd (app_run_all specs specl typed quit run_empty fuel acts))))) (map line_of typed).
Proof.
  intros HS NM. apply (lines_in_order specs specl typed quit run_empty fuel acts).
  apply no_modal_no_nested; assumption.
Qed.

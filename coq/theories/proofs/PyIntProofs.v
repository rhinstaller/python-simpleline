From SL Require Import Tac.
From SL Require Import PyInt.
Import ListNotations.
Local Open Scope N_scope.

Definition all_digits (l : str) : bool := forallb is_digit l.

Definition step (a d : N) : N := 10 * a + (d - 48).

Lemma all_digits_cons c l : all_digits (c :: l) = is_digit c && all_digits l.
Proof. reflexivity. Qed.

Lemma digits_all_digits l : forall acc prev,
  all_digits l = true -> (prev = true \/ l <> []) ->
  digits l acc prev = Some (fold_left step l acc).
Proof.
  induction l as [|c r IH]; intros acc prev Hd Hp; cbn [digits fold_left].
  - destruct Hp as [-> | Hp]; [reflexivity | congruence].
  - rewrite all_digits_cons in Hd. apply andb_true_iff in Hd as [Hc Hr]. rewrite Hc.
    apply IH; auto.
Qed.

Lemma is_digit_mod n : is_digit (48 + n mod 10) = true.
Proof.
  unfold is_digit. pose proof (N.mod_upper_bound n 10 ltac:(discriminate)).
  apply andb_true_iff; split; apply N.leb_le; lia.
Qed.

Lemma dec_fuel_digits f : forall n acc, all_digits acc = true -> all_digits (dec_fuel f n acc) = true.
Proof.
  induction f as [|f IH]; intros n acc H; cbn [dec_fuel]; auto.
  assert (H' : all_digits ((48 + n mod 10) :: acc) = true).
  { rewrite all_digits_cons, is_digit_mod. exact H. }
  destruct (n / 10 =? 0); auto.
Qed.

Lemma dec_fuel_nonempty f n acc : dec_fuel (S f) n acc <> [].
Proof.
  cbn [dec_fuel]. destruct (n / 10 =? 0); [congruence|].
  revert n acc. induction f as [|f IH]; intros; cbn [dec_fuel]; [congruence|].
  destruct (_ =? 0); [congruence|apply IH].
Qed.

Lemma dec_fuel_val f : forall n acc, n < 10 ^ N.of_nat f ->
  fold_left step (dec_fuel f n acc) 0 = fold_left step acc n.
Proof.
  induction f as [|f IH]; intros n acc Hn.
  - cbn in Hn. assert (n = 0) by lia. subst. reflexivity.
  - cbn [dec_fuel].
    pose proof (N.div_mod n 10 ltac:(discriminate)) as Hdm.
    pose proof (N.mod_upper_bound n 10 ltac:(discriminate)) as Hm.
    destruct (n / 10 =? 0) eqn:E.
    + apply N.eqb_eq in E. cbn [fold_left]. unfold step at 2. f_equal. lia.
    + rewrite IH.
      * cbn [fold_left]. unfold step at 2. f_equal. lia.
      * rewrite Nnat.Nat2N.inj_succ, N.pow_succ_r' in Hn.
        apply N.div_lt_upper_bound; lia.
Qed.

Lemma size_bound n : n < 10 ^ N.of_nat (S (N.size_nat n)).
Proof.
  rewrite Nnat.Nat2N.inj_succ, N.pow_succ_r'.
  assert (n < 2 ^ N.of_nat (N.size_nat n)).
  { destruct n as [|p]; [cbn; lia|]. cbn [N.size_nat].
    induction p as [p IH|p IH|]; cbn [Pos.size_nat]; rewrite ?Nnat.Nat2N.inj_succ, ?N.pow_succ_r' in *; lia. }
  assert (2 ^ N.of_nat (N.size_nat n) <= 10 ^ N.of_nat (N.size_nat n)).
  { apply N.pow_le_mono_l. lia. }
  lia.
Qed.

Lemma digits_dec_N n prev : digits (dec_N n) 0 prev = Some n.
Proof.
  unfold dec_N. rewrite digits_all_digits.
  - rewrite dec_fuel_val; [reflexivity | apply size_bound].
  - apply dec_fuel_digits. reflexivity.
  - right. apply dec_fuel_nonempty.
Qed.

Lemma digit_not_space c : is_digit c = true -> is_space c = false.
Proof.
  unfold is_digit, is_space. intros H. apply andb_true_iff in H as [H1 H2].
  apply N.leb_le in H1. apply N.leb_le in H2.
  apply orb_false_iff; split.
  - apply andb_false_iff. right. apply N.leb_gt. lia.
  - apply N.eqb_neq. lia.
Qed.

Lemma lstrip_id c r : is_space c = false -> lstrip (c :: r) = c :: r.
Proof. intros H. cbn. rewrite H. reflexivity. Qed.

Lemma last_dec_fuel f : forall n acc d, all_digits acc = true -> is_digit d = true ->
  exists l, dec_fuel f n (acc ++ [d]) = l ++ [d] /\ all_digits l = true.
Proof.
  induction f as [|f IH]; intros n acc d Ha Hd; cbn [dec_fuel].
  - exists acc. auto.
  - destruct (n / 10 =? 0).
    + exists ((48 + n mod 10) :: acc). split; [reflexivity|]. rewrite all_digits_cons, is_digit_mod. exact Ha.
    + change ((48 + n mod 10) :: acc ++ [d]) with (((48 + n mod 10) :: acc) ++ [d]).
      apply IH; auto. rewrite all_digits_cons, is_digit_mod. exact Ha.
Qed.

Lemma strip_no_space l : Forall (fun c => is_space c = false) l -> strip l = l.
Proof.
  assert (Hl : forall l, Forall (fun c => is_space c = false) l -> lstrip l = l).
  { intros [|c r] Hc; [reflexivity|]. inversion Hc; subst. apply lstrip_id. assumption. }
  intros H. unfold strip. rewrite (Hl l H), Hl by (apply Forall_rev, H). apply rev_involutive.
Qed.

Lemma digits_no_space l : all_digits l = true -> Forall (fun c => is_space c = false) l.
Proof.
  intros H. apply Forall_forall. intros c Hc. apply digit_not_space.
  unfold all_digits in H. rewrite forallb_forall in H. apply H, Hc.
Qed.

Lemma dec_N_digits n : all_digits (dec_N n) = true.
Proof. apply dec_fuel_digits. reflexivity. Qed.

Theorem parse_int_dec z : parse_int (dec z) = Some z.
Proof.
  unfold parse_int. destruct z as [|p|p]; cbn [dec].
  - reflexivity.
  - rewrite strip_no_space by apply digits_no_space, dec_N_digits.
    pose proof (dec_N_digits (Npos p)) as Hd.
    destruct (dec_N (Npos p)) as [|c r] eqn:E.
    { exfalso. revert E. apply dec_fuel_nonempty. }
    assert (Hc : is_digit c = true) by (rewrite all_digits_cons in Hd; apply andb_true_iff in Hd; tauto).
    assert (c <> 43 /\ c <> 45) as [H1 H2].
    { unfold is_digit in Hc. apply andb_true_iff in Hc as [Hc _]. apply N.leb_le in Hc. lia. }
    assert (Hdg : digits (c :: r) 0 false = Some (Npos p)) by (rewrite <- E; apply digits_dec_N).
    destruct c as [|q]; [cbn in Hc; discriminate|].
    repeat (destruct q as [q|q|]; try (rewrite Hdg; reflexivity); try congruence).
  - rewrite strip_no_space by (constructor; [reflexivity|apply digits_no_space, dec_N_digits]).
    rewrite digits_dec_N. reflexivity.
Qed.

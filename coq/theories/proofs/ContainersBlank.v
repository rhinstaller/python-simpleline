(* ContainersBlank.v — C13, cell level.  A drawing is a sequence of "stamps" (a source buffer with its top-left
   corner); the generic part characterises any sequence of draws cell for cell ([fold_stamps_cells]), its height and
   its width.  The specific part plugs in the closed form of the list container (ContainersGeom.v): its stamps share no
   cell ([list_stamps_apart]), so (Section RenderedList) every covered cell shows its stamp, every other cell is a blank
   or absent, and buffer, height and width are determined; ContainersCells.v reads the items back from this. *)
From SL Require Import Tac.
From SL Require Import PyInt Widget TextWrap KeyPattern Containers
     proofs.WidgetProofs proofs.ContainersProofs proofs.ContainersLayout proofs.ContainersGeom.
Import ListNotations.

Definition stamp := ((nat * nat) * buffer)%type.          (* ((row, col), source) *)
Definition st_row (s : stamp) : nat := fst (fst s).
Definition st_col (s : stamp) : nat := snd (fst s).
Definition st_src (s : stamp) : buffer := snd s.

(* the cells the stamp writes: row y of the source covers columns col .. col + len(row y) - 1 *)
Definition in_stamp (s : stamp) (i j : nat) : bool := in_rect (st_row s) (st_col s) (st_src s) i j.
(* the cells left of the stamp on its rows: draw pads them with blanks when they do not exist yet *)
Definition pads (s : stamp) (i j : nat) : bool := in_rows (st_row s) (st_src s) i && (j <? st_col s).
Definition st_bottom (s : stamp) : nat := st_row s + length (st_src s).

Definition draw_stamp (T : buffer) (s : stamp) : buffer := fst (draw T (st_row s) (st_col s) false (st_src s)).

(* what the latest stamp covering (i, j) shows there *)
Fixpoint content (stamps : list stamp) (i j : nat) : option char :=
  match stamps with
  | [] => None
  | s :: rest =>
    match content rest i j with
    | Some ch => Some ch
    | None => if in_stamp s i j then cell (st_src s) (i - st_row s) (j - st_col s) else None
    end
  end.

(* the buffer as a function of the stamps: content where a stamp covers, blank where a stamp on that
   row starts further right, no cell otherwise *)
Definition spec_cell (stamps : list stamp) (i j : nat) : option char :=
  match content stamps i j with
  | Some ch => Some ch
  | None => if existsb (fun s => pads s i j) stamps then Some SP else None
  end.
Definition spec_height (stamps : list stamp) : nat := list_max (map st_bottom stamps).

Lemma draw_stamp_cell T s i j :
  cell (draw_stamp T s) i j =
  if in_stamp s i j then cell (st_src s) (i - st_row s) (j - st_col s)
  else match cell T i j with
       | Some ch => Some ch
       | None => if pads s i j then Some SP else None
       end.
Proof. unfold draw_stamp. rewrite draw_cells. reflexivity. Qed.

Lemma in_stamp_defined s i j : in_stamp s i j = true ->
  exists ch, cell (st_src s) (i - st_row s) (j - st_col s) = Some ch.
Proof.
  intros H. apply cell_defined. unfold in_stamp, in_rect, in_rows in H. lia.
Qed.

Lemma fold_stamps_cells i j : forall stamps T,
  cell (fold_left draw_stamp stamps T) i j =
  match content stamps i j with
  | Some ch => Some ch
  | None => match cell T i j with
            | Some ch => Some ch
            | None => if existsb (fun s => pads s i j) stamps then Some SP else None
            end
  end.
Proof.
  induction stamps as [|s l IH]; intros T; cbn [fold_left content existsb].
  - destruct (cell T i j); reflexivity.
  - rewrite IH. destruct (content l i j) as [ch|]; [reflexivity|].
    rewrite draw_stamp_cell. destruct (in_stamp s i j) eqn:E.
    + destruct (in_stamp_defined s i j E) as [ch Hch]. rewrite Hch. reflexivity.
    + destruct (cell T i j) as [ch|]; [reflexivity|].
      destruct (pads s i j); reflexivity.
Qed.

Lemma fold_stamps_spec stamps i j : cell (fold_left draw_stamp stamps []) i j = spec_cell stamps i j.
Proof. rewrite fold_stamps_cells, cell_nil. reflexivity. Qed.

Lemma fold_stamps_height : forall stamps T,
  length (fold_left draw_stamp stamps T) = Nat.max (length T) (spec_height stamps).
Proof.
  unfold spec_height. induction stamps as [|s l IH]; intros T; cbn [fold_left map].
  - cbn. lia.
  - rewrite IH. unfold draw_stamp. rewrite draw_height.
    change (list_max (st_bottom s :: map st_bottom l)) with (Nat.max (st_bottom s) (list_max (map st_bottom l))).
    unfold st_bottom at 2. lia.
Qed.

Lemma content_none stamps i j : (forall s, In s stamps -> in_stamp s i j = false) -> content stamps i j = None.
Proof.
  induction stamps as [|s l IH]; intros H; cbn [content]; [reflexivity|].
  rewrite IH by (intros s' Hs'; apply H; now right). rewrite (H s (or_introl eq_refl)). reflexivity.
Qed.

Lemma content_some stamps i j s : In s stamps -> in_stamp s i j = true -> content stamps i j <> None.
Proof.
  induction stamps as [|s0 l IH]; intros Hin Hs; [contradiction|]. cbn [content].
  destruct (content l i j) as [ch|] eqn:E; [discriminate|].
  destruct Hin as [->|Hin]; [|exfalso; now apply (IH Hin Hs)].
  rewrite Hs. destruct (in_stamp_defined s i j Hs) as [ch Hch]. rewrite Hch. discriminate.
Qed.

Lemma in_stamp_iff s i j :
  in_stamp s i j = true <->
  st_row s <= i < st_row s + length (st_src s) /\
  st_col s <= j < st_col s + row_len (st_src s) (i - st_row s).
Proof. unfold in_stamp, in_rect, in_rows. lia. Qed.

Lemma content_in stamps i j ch : content stamps i j = Some ch ->
  exists s, In s stamps /\ in_stamp s i j = true /\ cell (st_src s) (i - st_row s) (j - st_col s) = Some ch.
Proof.
  induction stamps as [|s0 l IH]; cbn [content]; [discriminate|].
  destruct (content l i j) as [ch'|].
  - intros E. destruct (IH E) as (s & Hin & H). exists s. split; [now right|exact H].
  - destruct (in_stamp s0 i j) eqn:E0; [|discriminate]. intros H. exists s0. split; [now left|now split].
Qed.

(* where one stamp only covers a cell, the cell shows that stamp, whatever the order of drawing *)
Lemma content_unique stamps i j s :
  In s stamps -> in_stamp s i j = true ->
  (forall s', In s' stamps -> in_stamp s' i j = true -> s' = s) ->
  content stamps i j = cell (st_src s) (i - st_row s) (j - st_col s).
Proof.
  intros Hin Hs Hu. destruct (content stamps i j) as [ch|] eqn:E; [|destruct (content_some stamps i j s Hin Hs E)].
  apply content_in in E. destruct E as (s' & Hin' & Hs' & Hch). now rewrite <- (Hu s' Hin' Hs').
Qed.

(* label first, then the item right of it; without numbering the item alone *)
Definition stamps_of (rendered : list (buffer * option (buffer * nat))) (p : nat * (nat * nat)) : list stamp :=
  let '(ib, lab) := nth (fst p) rendered ([], None) in
  match lab with
  | Some (lb, lw) => [((fst (snd p), snd (snd p)), lb); ((fst (snd p), snd (snd p) + lw), ib)]
  | None => [((fst (snd p), snd (snd p)), ib)]
  end.
Definition list_stamps (rendered : list (buffer * option (buffer * nat))) (ps : list (nat * (nat * nat))) : list stamp :=
  flat_map (stamps_of rendered) ps.

Definition item_covers (rendered : list (buffer * option (buffer * nat))) (p : nat * (nat * nat)) (i j : nat) : bool :=
  existsb (fun s => in_stamp s i j) (stamps_of rendered p).

Lemma draw_item_stamps (rendered : list (buffer * option (buffer * nat))) b p :
  draw_item rendered b p = fold_left draw_stamp (stamps_of rendered p) b.
Proof.
  unfold draw_item, stamps_of. destruct (nth (fst p) rendered ([], None)) as [ib [[lb lw]|]]; reflexivity.
Qed.

Lemma fold_items_stamps (rendered : list (buffer * option (buffer * nat))) : forall ps b,
  fold_left (draw_item rendered) ps b = fold_left draw_stamp (list_stamps rendered ps) b.
Proof.
  induction ps as [|p ps IH]; intros b; [reflexivity|].
  cbn [fold_left list_stamps flat_map]. rewrite fold_left_app, <- draw_item_stamps. apply IH.
Qed.

Lemma in_list_stamps (rendered : list (buffer * option (buffer * nat))) ps s :
  In s (list_stamps rendered ps) <-> exists p, In p ps /\ In s (stamps_of rendered p).
Proof. unfold list_stamps. apply in_flat_map. Qed.

Lemma item_covers_false (rendered : list (buffer * option (buffer * nat))) p i j :
  item_covers rendered p i j = false <-> forall s, In s (stamps_of rendered p) -> in_stamp s i j = false.
Proof.
  unfold item_covers. split.
  - intros H s Hs. destruct (in_stamp s i j) eqn:E; [|reflexivity].
    assert (Ht : existsb (fun s => in_stamp s i j) (stamps_of rendered p) = true) by (apply existsb_exists; eauto).
    congruence.
  - intros H. destruct (existsb _ _) eqn:E; [|reflexivity].
    apply existsb_exists in E. destruct E as [s [Hs Ht]]. rewrite (H s Hs) in Ht. discriminate.
Qed.

(* the stamps of an item that fits lie in its rectangle: rows [rp, rp + item_height), columns [cp, cp + cwn) *)
Lemma stamps_of_geometry cwn (rendered : list (buffer * option (buffer * nat))) i rp cp s :
  item_fits cwn (nth i rendered ([], None)) -> In s (stamps_of rendered (i, (rp, cp))) ->
  st_row s = rp /\ length (st_src s) <= item_height (nth i rendered ([], None)) /\
  cp <= st_col s /\ st_col s + buf_width (st_src s) <= cp + cwn.
Proof.
  unfold stamps_of, item_fits, item_height. cbn [fst snd].
  destruct (nth i rendered ([], None)) as [ib [[lb lw]|]]; cbn [fst snd In]; intros Hf Hs.
  - destruct Hs as [<-|[<-|[]]]; unfold st_row, st_col, st_src; cbn [fst snd]; lia.
  - destruct Hs as [<-|[]]; unfold st_row, st_col, st_src; cbn [fst snd]; lia.
Qed.

Lemma stamp_inside_rect cwn (rendered : list (buffer * option (buffer * nat))) i rp cp s y x :
  item_fits cwn (nth i rendered ([], None)) -> In s (stamps_of rendered (i, (rp, cp))) -> in_stamp s y x = true ->
  rp <= y < rp + item_height (nth i rendered ([], None)) /\ cp <= x < cp + cwn.
Proof.
  intros Hf Hs Hc. destruct (stamps_of_geometry cwn rendered i rp cp s Hf Hs) as (Er & Hh & Hl & Hr).
  apply in_stamp_iff in Hc. pose proof (row_len_le_width (st_src s) (y - st_row s)). lia.
Qed.

Lemma covers_inside_rect cwn (rendered : list (buffer * option (buffer * nat))) i rp cp y x :
  item_fits cwn (nth i rendered ([], None)) ->
  item_covers rendered (i, (rp, cp)) y x = true ->
  rp <= y < rp + item_height (nth i rendered ([], None)) /\ cp <= x < cp + cwn.
Proof.
  intros Hf H. apply existsb_exists in H. destruct H as (s & Hs & Hc). exact (stamp_inside_rect cwn rendered i rp cp s y x Hf Hs Hc).
Qed.

Lemma in_list_stamps_grid (rendered : list (buffer * option (buffer * nat))) omap lpr pitch s :
  In s (list_stamps rendered (all_placements omap lpr 0 pitch)) <->
  exists k r i, k < length omap /\ nth_error (nth k omap []) r = Some i /\
                In s (stamps_of rendered (i, (rowstart lpr r, k * pitch))).
Proof.
  rewrite in_list_stamps. split.
  - intros [[i [rp cp]] [Hp Hs]]. apply in_all_placements in Hp. destruct Hp as [k [r [Hk [Hi [-> ->]]]]].
    exists k, r, i. now repeat split.
  - intros [k [r [i [Hk [Hi Hs]]]]]. exists (i, (rowstart lpr r, k * pitch)). split; [|exact Hs].
    apply in_all_placements. exists k, r. now repeat split.
Qed.

Lemma nth_item_height (rendered : list (buffer * option (buffer * nat))) i :
  nth i (map item_height rendered) 0 = item_height (nth i rendered ([], None)).
Proof. change 0 with (item_height ([], None)). apply map_nth. Qed.

(* the label ends where the item begins *)
Lemma stamps_of_apart cwn (rendered : list (buffer * option (buffer * nat))) i rp cp s s' y x :
  item_fits cwn (nth i rendered ([], None)) ->
  In s (stamps_of rendered (i, (rp, cp))) -> In s' (stamps_of rendered (i, (rp, cp))) ->
  in_stamp s y x = true -> in_stamp s' y x = true -> s = s'.
Proof.
  unfold stamps_of, item_fits. cbn [fst snd].
  destruct (nth i rendered ([], None)) as [ib [[lb lw]|]]; cbn [fst snd In]; intros Hf Hs Hs'.
  - pose proof (row_len_le_width lb (y - rp)).
    destruct Hs as [<-|[<-|[]]]; destruct Hs' as [<-|[<-|[]]]; try reflexivity;
      rewrite !in_stamp_iff; unfold st_row, st_col, st_src; cbn [fst snd]; lia.
  - destruct Hs as [<-|[]]; destruct Hs' as [<-|[]]; reflexivity.
Qed.

(* no two stamps of a list container share a cell: those of one item by the lemma above, those of two
   items because the items' rectangles are disjoint (rects_disjoint) *)
Lemma list_stamps_apart cwn pitch (rendered : list (buffer * option (buffer * nat))) omap s s' y x :
  Forall (item_fits cwn) rendered -> cwn <= pitch ->
  let ps := all_placements omap (lines_per_every_row omap (map item_height rendered)) 0 pitch in
  In s (list_stamps rendered ps) -> In s' (list_stamps rendered ps) ->
  in_stamp s y x = true -> in_stamp s' y x = true -> s = s'.
Proof.
  intros Hf Hp ps Hs Hs' Hc Hc'. apply in_list_stamps_grid in Hs, Hs'.
  destruct Hs as (k & r & i & Hk & Hi & Hst), Hs' as (k' & r' & i' & Hk' & Hi' & Hst').
  pose proof (stamp_inside_rect cwn rendered _ _ _ s y x (nth_item_fits _ _ _ Hf) Hst Hc) as R.
  pose proof (stamp_inside_rect cwn rendered _ _ _ s' y x (nth_item_fits _ _ _ Hf) Hst' Hc') as R'.
  destruct (Nat.eq_dec k k') as [<-|Nk]; [destruct (Nat.eq_dec r r') as [<-|Nr]|].
  - assert (i' = i) by congruence. subst i'. eapply (stamps_of_apart cwn rendered); eauto. now apply nth_item_fits.
  - exfalso.
    pose proof (rects_disjoint omap (map item_height rendered) cwn pitch k r i k r' i' Hk Hi Hk' Hi' ltac:(congruence) Hp) as D.
    cbv zeta in D. rewrite !nth_item_height in D. lia.
  - exfalso.
    pose proof (rects_disjoint omap (map item_height rendered) cwn pitch k r i k' r' i' Hk Hi Hk' Hi' ltac:(congruence) Hp) as D.
    cbv zeta in D. rewrite !nth_item_height in D. lia.
Qed.

Lemma pads_iff s i j :
  pads s i j = true <-> st_row s <= i < st_row s + length (st_src s) /\ j < st_col s.
Proof. unfold pads, in_rows. lia. Qed.

Lemma fold_stamps_width m : forall stamps T,
  buf_width T <= m -> Forall (fun s => st_col s + buf_width (st_src s) <= m) stamps ->
  buf_width (fold_left draw_stamp stamps T) <= m.
Proof.
  induction stamps as [|s l IH]; intros T HT H; cbn [fold_left]; [exact HT|].
  inversion H; subst. apply IH; [|assumption]. now apply draw_buf_width.
Qed.

(* a list container that rendered to [b], its items having rendered to [rendered]: [b] is the fold of the stamps of
   the placements, no two of which share a cell; hence every cell, the height and the width of [b] *)
Section RenderedList.
  Variables (kind : lkind) (columns : Z) (items : list wtree) (forced : option Z) (spacing : Z)
            (kp : option key_pattern) (w : Z) (b : buffer) (rendered : list (buffer * option (buffer * nat))).
  Hypothesis Hs : (0 <= spacing)%Z.
  Hypothesis Hitems : items_fit items.
  Hypothesis H : render_tree (WList kind columns items forced spacing kp) w = ROk b.
  Let cw := list_columns_width columns forced spacing w.
  Let omap := ordered_map kind (length items) (Z.to_nat columns).
  Hypothesis Hr : render_all_items render_tree items 0 cw kp = ROk rendered.
  Let lpr := lines_per_every_row omap (map item_height rendered).
  Let pitch := Z.to_nat (cw + spacing).
  Let stamps := list_stamps rendered (all_placements omap lpr 0 pitch).

  Lemma rl_fits : Forall (item_fits (Z.to_nat cw)) rendered.
  Proof. exact (rendered_items_fit items cw kp rendered Hitems Hr). Qed.

  Lemma rl_buffer : b = fold_left draw_stamp stamps [].
  Proof.
    unfold stamps. rewrite <- fold_items_stamps.
    exact (proj2 (render_list_closed_form kind columns items forced spacing kp w b rendered Hs Hitems H Hr)).
  Qed.

  Lemma rl_cells i j : cell b i j = spec_cell stamps i j.
  Proof. rewrite rl_buffer at 1. apply fold_stamps_spec. Qed.

  Lemma rl_height : length b = spec_height stamps.
  Proof. rewrite rl_buffer at 1. rewrite fold_stamps_height. cbn [length]. lia. Qed.

  Lemma rl_apart s s' y x :
    In s stamps -> In s' stamps -> in_stamp s y x = true -> in_stamp s' y x = true -> s = s'.
  Proof. apply (list_stamps_apart (Z.to_nat cw) pitch rendered omap s s' y x rl_fits). unfold pitch. lia. Qed.

  (* a covered cell shows the stamp that covers it, whatever was drawn later *)
  Lemma rl_stamp_cell i j s :
    In s stamps -> in_stamp s i j = true -> cell b i j = cell (st_src s) (i - st_row s) (j - st_col s).
  Proof.
    intros Hin Hcov. rewrite rl_cells. unfold spec_cell. rewrite (content_unique _ i j s Hin Hcov).
    - destruct (in_stamp_defined s i j Hcov) as [ch ->]. reflexivity.
    - intros s' Hin' Hcov'. exact (rl_apart s' s i j Hin' Hin Hcov' Hcov).
  Qed.

  Lemma rl_no_stamp i j :
    (forall s, In s stamps -> in_stamp s i j = false) ->
    cell b i j = if existsb (fun s => pads s i j) stamps then Some SP else None.
  Proof. intros Hout. rewrite rl_cells. unfold spec_cell. now rewrite content_none. Qed.

  Lemma rl_blank_elsewhere y x ch :
    cell b y x = Some ch ->
    (forall k r i, k < length omap -> nth_error (nth k omap []) r = Some i ->
       item_covers rendered (i, (rowstart lpr r, k * pitch)) y x = false) ->
    ch = SP.
  Proof.
    intros Hcell Hno. rewrite rl_no_stamp in Hcell.
    - destruct (existsb _ _); congruence.
    - intros s Hin. apply in_list_stamps_grid in Hin. destruct Hin as (k & r & i0 & Hk & Hi & Hst).
      specialize (Hno k r i0 Hk Hi). rewrite item_covers_false in Hno. now apply Hno.
  Qed.

  (* the same with the rectangles of C13_no_overlap / C13_item_inside_rect: a cell outside every
     rectangle  rows [rowstart r, rowstart r + item_height) x columns [k*(cw+s), k*(cw+s) + cw)  is a
     blank: the spacing between columns, the short last row, the lines below a short item *)
  Lemma rl_blank_outside_rects y x ch :
    cell b y x = Some ch ->
    (forall k r i, k < length omap -> nth_error (nth k omap []) r = Some i ->
       ~ (rowstart lpr r <= y < rowstart lpr r + item_height (nth i rendered ([], None)) /\
          k * pitch <= x < k * pitch + Z.to_nat cw)) ->
    ch = SP.
  Proof.
    intros Hcell Hno. apply (rl_blank_elsewhere y x ch Hcell). intros k r i Hk Hi.
    destruct (item_covers rendered _ y x) eqn:E; [|reflexivity]. exfalso. apply (Hno k r i Hk Hi).
    apply (covers_inside_rect (Z.to_nat cw)) in E; [exact E|]. apply nth_item_fits, rl_fits.
  Qed.

  (* no stamp reaches beyond the last column *)
  Lemma rl_width : buf_width b <= (Z.to_nat columns - 1) * pitch + Z.to_nat cw.
  Proof.
    rewrite rl_buffer. apply fold_stamps_width; [apply Nat.le_0_l|]. apply Forall_forall. intros s Hin.
    apply in_list_stamps_grid in Hin. destruct Hin as (k & r & i & Hk & _ & Hst).
    unfold omap in Hk. rewrite ordered_map_length in Hk.
    apply (stamps_of_geometry (Z.to_nat cw)) in Hst as (_ & _ & _ & Hst); [|apply nth_item_fits, rl_fits].
    assert (k * pitch <= (Z.to_nat columns - 1) * pitch) by (apply Nat.mul_le_mono_r; lia). lia.
  Qed.
End RenderedList.

(* together: the rendered buffer is determined cell for cell, and its height *)
Lemma render_list_determined kind columns items forced spacing kp w b rendered :
  (0 <= spacing)%Z -> items_fit items ->
  render_tree (WList kind columns items forced spacing kp) w = ROk b ->
  let cw := list_columns_width columns forced spacing w in
  let omap := ordered_map kind (length items) (Z.to_nat columns) in
  render_all_items render_tree items 0 cw kp = ROk rendered ->
  Forall (item_fits (Z.to_nat cw)) rendered /\
  let ps := all_placements omap (lines_per_every_row omap (map item_height rendered)) 0 (Z.to_nat (cw + spacing)) in
  let stamps := list_stamps rendered ps in
  length b = spec_height stamps /\
  (forall i j, cell b i j = spec_cell stamps i j) /\
  (forall i j s, In s stamps -> in_stamp s i j = true ->
                 cell b i j = cell (st_src s) (i - st_row s) (j - st_col s)) /\
  (forall i j, (forall s, In s stamps -> in_stamp s i j = false) ->
               cell b i j = if existsb (fun s => pads s i j) stamps then Some SP else None).
Proof.
  intros Hs Hitems H cw omap Hr. split; [exact (rendered_items_fit items cw kp rendered Hitems Hr)|]. cbv zeta.
  split; [exact (rl_height _ _ _ _ _ _ _ _ _ Hs Hitems H Hr)|]. split; [exact (rl_cells _ _ _ _ _ _ _ _ _ Hs Hitems H Hr)|].
  split; [exact (rl_stamp_cell _ _ _ _ _ _ _ _ _ Hs Hitems H Hr) | exact (rl_no_stamp _ _ _ _ _ _ _ _ _ Hs Hitems H Hr)].
Qed.

Lemma list_width_bound kind columns items forced spacing kp w b :
  (0 <= spacing)%Z ->
  items_fit items ->
  render_tree (WList kind columns items forced spacing kp) w = ROk b ->
  b = [] \/
  ((0 < list_columns_width columns forced spacing w)%Z /\
   (Z.of_nat (buf_width b) <=
    columns * list_columns_width columns forced spacing w + (columns - 1) * spacing)%Z).
Proof.
  intros Hs Hitems H.
  assert (Hc : (0 < columns)%Z).
  { rewrite render_tree_eq in H. cbn [render_node] in H. destruct (columns <=? 0)%Z eqn:Ec; [discriminate|lia]. }
  destruct (list_rendered _ _ _ _ _ _ _ _ (fun _ => True) H (fun _ _ => I)) as (rendered & Hr & _).
  destruct (list_ok_room _ _ _ _ _ _ _ _ H) as [->|[Hcw _]].
  - left. rewrite (rl_buffer _ _ _ _ _ _ _ _ _ Hs Hitems H Hr). cbn [length].
    now rewrite all_placements_empty by apply ordered_map_no_items.
  - right. split; [exact Hcw|]. pose proof (rl_width _ _ _ _ _ _ _ _ _ Hs Hitems H Hr) as Hb.
    set (cw := list_columns_width columns forced spacing w) in *.
    apply Nat2Z.inj_le in Hb. rewrite Nat2Z.inj_add, Nat2Z.inj_mul, Nat2Z.inj_sub, !Z2Nat.id in Hb by lia.
    lia.
Qed.

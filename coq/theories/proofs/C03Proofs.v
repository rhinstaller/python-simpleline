(* C03Proofs.v — a nested (modal) loop is isolated: outer work is held, not lost, then resumed. *)
From SL Require Import Tac.
From SL Require Import LoopSem Monitors proofs.ListFacts proofs.MonitorFacts proofs.LoopLink proofs.C01Proofs.
Import ListNotations.

Lemma held_not_lost w e : chk_C03_partial w e = true -> forall q, q <> w_active w ->
  pend (world_step w e) q = pend w q \/
  exists sid, e = EEnq sid q /\ pend (world_step w e) q = stable_insert (sig_prio w sid) sid (pend w q).
Proof.
  intros C q N. rewrite ws_pend. destruct e; auto; destruct (Nat.eqb_spec q q0) as [->|]; eauto.
  exfalso. cbn in C. apply andb_true_iff in C. destruct C as [C _]. apply Nat.eqb_eq in C. congruence.
Qed.

Lemma only_active_dispatched w e q : chk_C03_partial w e = true ->
  pend (world_step w e) q = tl (pend w q) -> pend (world_step w e) q <> pend w q ->
  exists sid d, e = EDispatch sid q d /\ q = w_active w /\ d = length (w_levels w).
Proof.
  intros C. rewrite ws_pend. intros H N.
  destruct e; try congruence; destruct (Nat.eqb_spec q q0) as [->|]; try congruence.
  - exfalso. apply (f_equal (@length _)) in H. rewrite stable_insert_length in H. destruct (pend w _); cbn in H; lia.
  - eexists _, _. cbn in C. apply andb_true_iff in C. destruct C as [C1 C2].
    apply Nat.eqb_eq in C1, C2. auto.
Qed.

Lemma closepop_resumes w q : let w' := world_step w (EClosePop q) in
  w_levels w' = removelast (w_levels w) /\
  (forall a, last_opt (removelast (w_levels w)) = Some a -> w_active w' = a) /\
  (forall q0, pend w' q0 = pend w q0) /\ (forall q0, sources w' q0 = sources w q0).
Proof.
  cbn zeta. rewrite ws_levels, ws_active. repeat split.
  - intros a ->. reflexivity.
  - intros q0. apply ws_pend.
  - intros q0. apply ws_sources.
Qed.

Section Iso.
  Context {U : Type}.
  Variable code : nat -> signal -> nat -> prog U.

  Lemma link_w_route (s : lstate U) src : link s -> forall l, w_route (W s) l src = route s l src.
  Proof.
    intros L l. induction l as [|q r IH]; cbn [w_route route]; [reflexivity|].
    unfold q_contains_source. destruct src as [o|].
    - rewrite (link_sources s q L), IH. reflexivity.
    - rewrite <- IH. destruct r; reflexivity.
  Qed.

  Lemma link_route_target_eq (s : lstate U) sg : link s -> sig_rec (W s) sg ->
    route_target (W s) (sig_src (W s) (sg_id sg)) =
    match route s (rev (levels s)) (sg_src sg) with Some q => q | None => active s end.
  Proof.
    intros L R. unfold route_target. rewrite (sig_rec_src _ _ R), (link_levels s L), (link_w_route s _ L), (link_active s L).
    reflexivity.
  Qed.

  Lemma chk_C03_ok (s : lstate U) e : link s -> ev_ok s e -> chk_C03_partial (W s) e = true.
  Proof.
    intros L E. destruct e; try reflexivity; cbn [ev_ok chk_C03_partial chk_C03_gen negb andb] in *.
    - destruct E as (sg & -> & R & ->). rewrite (link_route_target_eq s sg L R). apply Nat.eqb_refl.
    - destruct E as (_ & -> & ->). rewrite (link_active s L), (link_levels s L), !Nat.eqb_refl. reflexivity.
    - destruct E as (_ & ->). rewrite (link_active s L). apply Nat.eqb_refl.
    - rewrite (link_levels s L). apply orb_true_iff. destruct E as [H|H].
      + left. apply negb_true_iff. destruct (existsb (Nat.eqb q) (levels s)) eqn:E; [|reflexivity].
        apply existsb_eqb_in in E. contradiction.
      + right. apply existsb_eqb_in, H.
    - destruct E as (rest_rev & R). rewrite (link_levels s L). unfold last_opt. rewrite R. apply Nat.eqb_refl.
  Qed.

  Theorem isolation : forall fuel acts (u : U),
    ok_C03_partial (rev (trace (snd (run_session code fuel acts (init_state u))))) = true.
  Proof. apply session_ok. exact chk_C03_ok. Qed.

  Theorem world_is_state : forall fuel acts (u : U),
    let s := snd (run_session code fuel acts (init_state u)) in
    w_levels (W s) = levels s /\ w_active (W s) = active s /\
    (forall q, sources (W s) q = eq_sources (get_q s q)) /\ (forall q, pend (W s) q = abs (get_q s q)).
  Proof.
    intros fuel acts u s. pose proof (link_session code fuel acts u) as L. fold s in L.
    repeat split; [exact (link_levels s L)|exact (link_active s L)|intros q; exact (link_sources s q L)|
                   intros q; exact (link_pend s q L)].
  Qed.

  Theorem newloop_blocks_until_closed : forall fuel sp (s : lstate U) s',
    link s -> exec code fuel (CApi (ANewLoop sp)) s = (ONormal, s') ->
    length (levels s') <= length (levels s) + (if run_loop s then 0 else 1) \/ force_quit s' = true.
  Proof.
    intros fuel sp s s' L H. pose proof (exec_post code _ _ _ _ _ L H (or_introl eq_refl)) as P. cbn in P.
    unfold psi in P. destruct (force_quit s'); [right; reflexivity|left].
    destruct (force_quit s), (run_loop s'), (run_loop s); lia.
  Qed.
End Iso.

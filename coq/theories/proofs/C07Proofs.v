(* C07Proofs.v — "what input() returns decides exactly one follow-up action".
   1. the table InputState / global keys -> UserInputAction; 2. the rejection counter; 3. the example session of props/C07.v. *)
From SL Require Import Tac.
From RecordUpdate Require Import RecordUpdate.
From SL Require Import PyInt LoopSem ScreenSem ScreenMon proofs.InputLink.
Import ListNotations.

Lemma str1_spec c s : str1 c s = true <-> s = [c].
Proof.
  destruct s as [|x [|y r]]; cbn; split; try discriminate.
  - intros H. apply N.eqb_eq in H. subst. reflexivity.
  - intros H. inversion H. apply N.eqb_refl.
Qed.

Lemma action_table :
  action_of RProcessed = ANoop /\ action_of RRedraw = ARedraw /\ action_of RClose = AClose /\
  action_of RDiscarded = AError /\ action_of RNone = AError /\
  action_of (RKey [114%N]) = ARedraw /\ action_of (RKey [99%N]) = AClose /\ action_of (RKey [113%N]) = AQuit /\
  (forall s, s <> [114%N] -> s <> [99%N] -> s <> [113%N] -> action_of (RKey s) = AError).
Proof.
  repeat split; try reflexivity. intros s H1 H2 H3. unfold action_of.
  destruct (str1 114 s) eqn:E1; [apply str1_spec in E1; contradiction|].
  destruct (str1 99 s) eqn:E2; [apply str1_spec in E2; contradiction|].
  destruct (str1 113 s) eqn:E3; [apply str1_spec in E3; contradiction|]. reflexivity.
Qed.

(* the counter: InputManager.process_input updates the screen's counter with [err_step] *)
Definition err_step (act : action) (s : scrst) : scrst :=
  match act with AError => s <| ss_err := S (ss_err s) |> | _ => s <| ss_err := 0 |> end.
Definition is_rejection (act : action) : bool := match act with AError => true | _ => false end.
(* length of the run of rejections at the end of the sequence, counting from [acc] if it reaches the beginning *)
Fixpoint rejection_run (acts : list action) (acc : nat) : nat :=
  match acts with
  | [] => acc
  | a :: r => rejection_run r (if is_rejection a then S acc else 0)
  end.

Lemma counter_is_run acts : forall s, ss_err (fold_left (fun s a => err_step a s) acts s) = rejection_run acts (ss_err s).
Proof.
  induction acts as [|a r IH]; intros s; cbn [fold_left rejection_run]; [reflexivity|].
  rewrite IH. destruct a; reflexivity.
Qed.

(* the update in process_input is err_step, and the redraw decision reads the updated counter *)
Lemma process_input_uses_err_step specs scr line :
  process_input specs scr line =
  (wr (fun u => u <| st_rb := false |>) ;;
   PTry (call_input specs scr line ;; wr (fun u => u <| st_rb := true |>))
        (raise_exception_signal ;; wr (fun u => u <| st_rb := false |>)) ;;
   rd (fun u => if st_rb u then
      let act := action_of (st_rv u) in
      ev T_ACTION [scr; match act with ANoop => 0 | ARedraw => 1 | AClose => 2 | AQuit => 3 | AError => 4 end] ;;
      wr (upd_scr scr (err_step act)) ;;
      rd (fun u => process_input_result specs act (Nat.modulo (ss_err (scr_of u scr)) 5 =? 0)%nat)
    else PRet)).
Proof. reflexivity. Qed.

Lemma rejection_run_app acts l acc : rejection_run (acts ++ l) acc = rejection_run l (rejection_run acts acc).
Proof. revert acc. induction acts as [|a r IH]; intros acc; cbn; [reflexivity|apply IH]. Qed.
Lemma rejection_run_repeat k acc : rejection_run (repeat AError k) acc = k + acc.
Proof. revert acc. induction k as [|k IH]; intros acc; cbn; [reflexivity|]. rewrite IH. lia. Qed.

Lemma streak_after_accept acts a k s :
  is_rejection a = false ->
  ss_err (fold_left (fun s x => err_step x s) (acts ++ a :: repeat AError k) s) = k.
Proof.
  intros NA. rewrite counter_is_run.
  change (acts ++ a :: repeat AError k) with (acts ++ [a] ++ repeat AError k).
  rewrite !rejection_run_app, rejection_run_repeat. cbn [rejection_run]. rewrite NA. lia.
Qed.

(* an example session: screen 0 rejects "x", processes "1", redraws on "r", quits on "q" through the dialog 1 *)
Definition ex07_spec (inp : list (str * (list scmd * ret_val))) (dflt : option ret_val) : screen_spec :=
  {| sc_setup := []; sc_refresh := []; sc_show := []; sc_closed := []; sc_input := inp;
     sc_input_default := ([], dflt); sc_prompt_none := false; sc_input_required := true;
     sc_no_separator := false; sc_skip_check := false; sc_pages := 0; sc_answer0 := AnsNoAttr; sc_custom := []; sc_setup_cmds := [] |}.
Definition ex07_specl : list screen_spec :=
  [ex07_spec [([49%N], ([], RProcessed)); ([50%N], ([], RDiscarded)); ([51%N], ([], RNone))] None;
   ex07_spec [([49%N], ([SSetAnswer AnsTrue], RClose)); ([50%N], ([SSetAnswer AnsOther], RClose))] None].
Definition L (c : N) : option str := Some [c].
(* x x 2 3 x (5th rejection: redraw) r x q 2 (dialog says no: redraw) q 1 (yes: exit) *)
Definition ex07_typed : list (option str) :=
  [L 120; L 120; L 50; L 51; L 120; L 114; L 120; L 113; L 50; L 113; L 49].
Definition ex07_acts : list saction := [SACmds [SSchedule 0 0]; SARun].
Definition ex07_run := app_run_all (fun n => nth n ex07_specl default_spec) ex07_specl ex07_typed (Some 1) false 2000 ex07_acts.
Definition ex07_trace : list event := rev (trace (snd ex07_run)).
Definition count_tag (tag : nat) (t : list event) : nat :=
  length (filter (fun e => match e with EUser tg _ _ => (tg =? tag)%nat | _ => false end) t).
Definition actions_of (t : list event) : list nat :=
  flat_map (fun e => match e with EUser tg [_; a] _ => if (tg =? T_ACTION)%nat then [a] else [] | _ => [] end) t.

(* C20Sim.v — on the fragment of GLibFrag.v the GLibEventLoop model simulates the MainLoop model.
   [Rel]: the relation between an [lstate] and a [gstate] (same level stack, handler table, user state and observable
   events, no force-quit; per level at most one pending signal, carried by the one live source: [lvl_rel]).  [Step]: what a piece of code may do
   to the loops around it (nothing, or close exactly the top level); [Keeps] = [Rel] after, and [Step]; [Opened]: a level
   was opened on top of the others ([Step_nested]: its loop run until it was closed again is a [Step]).  [Outcome] sorts
   a postcondition by outcome; [Post], [SigPost], [LoopPost], [MainPost], [TopPost] are its instances for a program, the
   handlers of a signal, a loop of one level, _mainloop and a top-level call.  [GRuns]: from some fuel on the GLib interpreter gives a fixed answer (the form
   the final theorems have, so that runs compose by the larger of two bounds: [GRes_seq], [GRes_then]); [GRes]: such a run
   with a given outcome and postcondition.  The five statements [SProg], [SApi],
   [SSig], [SProc], [SMain] (handler programs, API calls, _process_signal, the loop of one level, _mainloop) depend on
   one another and are proved together by induction on the fuel of [fexec] ([sim_all]).  Sections Sessions and SessionSim: what
   the four kinds of session share; then [agree_partial_gen], [agree_partial] (loop sessions) and
   [applications_agree_partial], with [example_fragment] (six sessions in the fragment) and [example_application]. *)
From SL Require Import Tac proofs.ListFacts proofs.LoopFacts.
From Coq Require Import ZArith NArith List Bool Lia.
From RecordUpdate Require Import RecordUpdate.
From SL Require Import PyInt LoopSem LoopProg ScreenSem GLibSem GLibFrag GLibApp drv.Drv_loop proofs.C20Proofs proofs.ExecEqs proofs.ScreenFacts.
Import ListNotations.

Section Sim.
  Context {U : Type}.
  Variable code : nat -> signal -> nat -> prog U.

  (* a walk along fexec: a nested call that gave a result is, by induction, the same call of exec; a test is split,
     and only the branch on which fexec goes on is left *)
  Ltac fstep IH :=
    match goal with
    | H : obind (fexec ?cd ?f ?c ?s) _ = Some _ |- _ =>
      let o := fresh "o" in let s1 := fresh "s" in let E := fresh "E" in
      destruct (fexec cd f c s) as [[o s1]|] eqn:E; cbn [obind] in H; [apply IH in E; rewrite E | discriminate H]
    | H : Some _ = Some _ |- _ => injection H as <- <-
    | H : None = Some _ |- _ => discriminate H
    | H : (let '(_, _) := ?x in _) = Some _ |- _ => destruct x eqn:?
    | H : (if ?b then _ else _) = Some _ |- _ => destruct b eqn:?
    | H : match ?x with _ => _ end = Some _ |- _ => destruct x eqn:?
    end.

  Lemma enqueue_ok_true (s : lstate U) sg : enqueue_ok s sg = true ->
    force_quit s = false /\ q_empty (get_q s (target_queue s sg)) = true /\ has_handlers s (sg_cls sg) = true.
  Proof.
    unfold enqueue_ok. intros H. apply andb_true_iff in H. destruct H as [H Hh]. apply andb_true_iff in H.
    destruct H as [Hfq He]. apply negb_true_iff in Hfq. auto.
  Qed.

  Lemma do_get_inr (s : lstate U) x sp r : do_get s = inr x -> ext s = sp :: r ->
    x = (let '(sg, s1) := new_signal (s <| ext := r |>) sp in do_enqueue (emit (EExt (sg_id sg)) s1) sg).
  Proof.
    unfold do_get. destruct (q_pop (get_q s (active s))) as [[[[? ?] ?] ?]|]; [discriminate|].
    intros H E. rewrite E in H. destruct (new_signal (s <| ext := r |>) sp) as [sg s1]. injection H as <-. reflexivity.
  Qed.

  Lemma fexec_is_exec : forall f c s o s', fexec code f c s = Some (o, s') -> exec code f c s = (o, s').
  Proof.
    induction f as [|f IH]; intros c s o s' H; [inversion H; reflexivity|].
    destruct c; cbn [fexec] in H; cbn [exec].
    all: repeat (fstep IH).
    all: try reflexivity.
    all: try (apply IH; assumption).
    all: try match goal with
             | Hg : do_get ?s = inr ?x, He : ext ?s = ?sp :: ?r, Hn : new_signal _ ?sp = (?sg, ?s1) |- _ =>
               rewrite (do_get_inr _ _ _ _ Hg He), Hn; apply IH; assumption
             end.
    all: match goal with H : run_loop _ && enqueue_ok _ _ = true |- _ =>
           apply andb_true_iff in H; destruct H as [_ H]; apply enqueue_ok_true in H; destruct H as [H _];
           cbn in H; rewrite H end; reflexivity.
  Qed.

  Definition is_obs (e : event) : bool :=
    match e with EHandler _ _ _ | EMark _ | EUser _ _ _ | ERunReturn => true | _ => false end.
  Definition obs (t : list event) : list event := filter is_obs t.

  Definition live_srcs (gl : glevel) : list gsource := filter gs_live (gl_sources gl).
  Definition incall_srcs (gl : glevel) : list gsource := filter gs_incall (gl_sources gl).

  Record lvl_rel (n : N) (qe : equeue) (gl : glevel) : Prop := {
    lr_srcs : eq_sources qe = gl_srcs gl;
    lr_nopending : gl_pending gl = [];
    lr_nodup : NoDup (map gs_seq (gl_sources gl));
    lr_bound : Forall (fun y => (gs_seq y < n)%N /\ gs_bound y = true) (gl_sources gl);
    lr_live : map (fun e : entry => snd e) (eq_entries qe) = map gs_sig (live_srcs gl);
    lr_le1 : length (eq_entries qe) <= 1 }.

  Record Rel (s : lstate U) (g : gstate U) : Prop := {
    r_levels : levels s = glevels g;
    r_len : length (qstore s) = length (gstore g);
    r_valid : Forall (fun q => q < length (qstore s)) (levels s);
    r_nonempty : levels s <> [];
    r_active : active s = last (levels s) 0;
    r_handlers : handlers s = ghandlers g;
    r_fq : force_quit s = false;
    r_gfq : gforce_quit g = false;
    r_qcb : quit_cb s = gquit_cb g;
    r_sig : next_sig s = gnext_sig g;
    r_ust : ust s = gust g;
    r_ext : ext s = gext g;
    r_lvl : forall q, q < length (qstore s) -> lvl_rel (gnext_seq g) (get_q s q) (get_l g q);
    r_obs : obs (trace s) = obs (gtrace g) }.

  (* Rel looks at the MainLoop state only through these fields (not: tickets, run_loop) *)
  Record same_core (s1 s2 : lstate U) : Prop := {
    sc_levels : levels s1 = levels s2; sc_qstore : qstore s1 = qstore s2; sc_active : active s1 = active s2;
    sc_handlers : handlers s1 = handlers s2; sc_fq : force_quit s1 = force_quit s2; sc_qcb : quit_cb s1 = quit_cb s2;
    sc_sig : next_sig s1 = next_sig s2; sc_ust : ust s1 = ust s2; sc_ext : ext s1 = ext s2;
    sc_obs : obs (trace s1) = obs (trace s2) }.
  (* ... and at the GLib state not through: tickets, the is_running flags *)
  Record gsame_core (g1 g2 : gstate U) : Prop := {
    gc_levels : glevels g1 = glevels g2; gc_len : length (gstore g1) = length (gstore g2);
    gc_sources : forall q, gl_sources (get_l g1 q) = gl_sources (get_l g2 q);
    gc_pending : forall q, gl_pending (get_l g1 q) = gl_pending (get_l g2 q);
    gc_srcs : forall q, gl_srcs (get_l g1 q) = gl_srcs (get_l g2 q);
    gc_handlers : ghandlers g1 = ghandlers g2; gc_fq : gforce_quit g1 = gforce_quit g2; gc_qcb : gquit_cb g1 = gquit_cb g2;
    gc_sig : gnext_sig g1 = gnext_sig g2; gc_seq : gnext_seq g1 = gnext_seq g2; gc_ust : gust g1 = gust g2;
    gc_ext : gext g1 = gext g2; gc_obs : obs (gtrace g1) = obs (gtrace g2) }.

  Lemma Rel_core s1 s2 g : Rel s1 g -> same_core s1 s2 -> Rel s2 g.
  Proof.
    intros R [H1 H2 H3 H4 H5 H6 H7 H8 H9 H10]. destruct R.
    constructor; unfold get_q in *; try congruence.
    - rewrite <- H1, <- H2; assumption.
    - rewrite <- H2. assumption.
  Qed.
  Lemma Rel_gcore s g1 g2 : Rel s g1 -> gsame_core g1 g2 -> Rel s g2.
  Proof.
    intros R [H1 H2 A B C H4 H5 H6 H7 H8 H9 H10 H11]. destruct R.
    constructor; try congruence.
    intros q Hq. destruct (r_lvl0 q Hq).
    constructor; unfold live_srcs in *; rewrite <- ?A, <- ?B, <- ?C, <- ?H8; assumption.
  Qed.

  Lemma get_q_set_eq (s : lstate U) q v : q < length (qstore s) -> get_q (set_q s q v) q = v.
  Proof. intros H. unfold get_q, set_q. cbn. apply nth_set_nth_eq; assumption. Qed.
  Lemma get_q_set_neq (s : lstate U) q q' v : q <> q' -> get_q (set_q s q v) q' = get_q s q'.
  Proof. intros H. unfold get_q, set_q. cbn. apply nth_set_nth_neq; assumption. Qed.
  Lemma len_set_q (s : lstate U) q v : length (qstore (set_q s q v)) = length (qstore s).
  Proof. unfold set_q. cbn. apply set_nth_length. Qed.
  Lemma get_l_upd_eq (g : gstate U) l f : l < length (gstore g) -> get_l (upd_l g l f) l = f (get_l g l).
  Proof. intros H. unfold upd_l, set_l, get_l. cbn. apply nth_set_nth_eq; assumption. Qed.
  Lemma get_l_upd_neq (g : gstate U) l q f : l <> q -> get_l (upd_l g l f) q = get_l g q.
  Proof. intros H. unfold upd_l, set_l, get_l. cbn. apply nth_set_nth_neq; assumption. Qed.
  Lemma len_upd_l (g : gstate U) l f : length (gstore (upd_l g l f)) = length (gstore g).
  Proof. unfold upd_l, set_l. cbn. apply set_nth_length. Qed.
  Lemma get_l_upd_proj {B} (P : glevel -> B) (g : gstate U) l f q :
    (forall v, P (f v) = P v) -> P (get_l (upd_l g l f) q) = P (get_l g q).
  Proof. intros H. unfold upd_l, set_l, get_l. cbn. apply nth_set_nth_proj. exact H. Qed.

  Lemma running_core (g : gstate U) l b : gsame_core g (upd_l g l (fun v => v <| gl_running := b |>)).
  Proof.
    split; rewrite ?len_upd_l; try reflexivity; intros q; symmetry; apply get_l_upd_proj; reflexivity.
  Qed.
  Lemma Rel_running s g l b : Rel s g -> Rel s (upd_l g l (fun v => v <| gl_running := b |>)).
  Proof. intros R. eapply Rel_gcore; [exact R | apply running_core]. Qed.

  Lemma lvl_rel_mono n n' qe gl : (n <= n')%N -> lvl_rel n qe gl -> lvl_rel n' qe gl.
  Proof.
    intros Hn []. constructor; auto.
    eapply Forall_impl; [|exact lr_bound0]. cbn. intros y [Hy Hb]. split; [lia|exact Hb].
  Qed.

  Lemma Rel_level s g l qe' (f : glevel -> glevel) :
    Rel s g -> l < length (qstore s) -> lvl_rel (gnext_seq g) qe' (f (get_l g l)) ->
    Rel (set_q s l qe') (upd_l g l f).
  Proof.
    intros R Hl Hr. destruct R.
    constructor; try assumption.
    - rewrite len_set_q, len_upd_l. assumption.
    - rewrite len_set_q. assumption.
    - intros q Hq. rewrite len_set_q in Hq. destruct (Nat.eq_dec l q) as [<-|Hne].
      + rewrite get_q_set_eq, get_l_upd_eq by lia. exact Hr.
      + rewrite get_q_set_neq, get_l_upd_neq by assumption. apply r_lvl0; assumption.
  Qed.
  Lemma Rel_glevel s g l (f : glevel -> glevel) :
    Rel s g -> l < length (qstore s) -> lvl_rel (gnext_seq g) (get_q s l) (f (get_l g l)) -> Rel s (upd_l g l f).
  Proof.
    intros R Hl Hr. eapply Rel_core; [exact (Rel_level _ _ _ _ _ R Hl Hr)|].
    split; try reflexivity. apply set_nth_same.
  Qed.

  Lemma min_prio_filter acc l : min_prio acc l = min_prio acc (filter gs_live l).
  Proof.
    revert acc; induction l as [|x l IH]; intros acc; cbn [min_prio filter]; [reflexivity|].
    destruct (gs_live x) eqn:E; cbn [min_prio]; rewrite ?E; apply IH.
  Qed.
  Lemma batch_of_nil l : filter gs_live l = [] -> batch_of l = [].
  Proof. intros H. unfold batch_of. rewrite min_prio_filter, H. reflexivity. Qed.
  Lemma batch_of_single l x : filter gs_live l = [x] -> batch_of l = [gs_seq x].
  Proof.
    intros H. unfold batch_of. rewrite min_prio_filter, H.
    assert (Hx : gs_live x = true).
    { assert (In x (filter gs_live l)) by (rewrite H; left; reflexivity). apply filter_In in H0. tauto. }
    cbn [min_prio]. rewrite Hx. rewrite filter_andb, H. cbn. rewrite Z.eqb_refl. reflexivity.
  Qed.

  Lemma find_source_notin l q : (forall y, In y l -> gs_seq y <> q) -> find_source l q = None.
  Proof.
    intros H. unfold find_source. destruct (find _ l) as [y|] eqn:E; [|reflexivity].
    apply find_some in E. destruct E as [Hy E]. apply N.eqb_eq in E. destruct (H y Hy E).
  Qed.
  Lemma del_source_notin l q : (forall y, In y l -> gs_seq y <> q) -> del_source l q = l.
  Proof. intros H. apply filter_all. intros y Hy. apply negb_true_iff, N.eqb_neq, H, Hy. Qed.

  (* sources are told apart by their sequence numbers: [nodup_map_inj gs_seq] *)
  Lemma find_source_in l x : NoDup (map gs_seq l) -> In x l -> find_source l (gs_seq x) = Some x.
  Proof.
    intros Hn Hin. unfold find_source. destruct (find _ l) as [y|] eqn:E.
    - apply find_some in E. destruct E as [Hy E]. apply N.eqb_eq in E. f_equal. eapply (nodup_map_inj gs_seq); eassumption.
    - apply (find_none _ _ E) in Hin. rewrite N.eqb_refl in Hin. discriminate.
  Qed.
  Lemma del_upd l q f : (forall y, gs_seq (f y) = gs_seq y) -> del_source (upd_source l q f) q = del_source l q.
  Proof.
    intros Hf. unfold del_source, upd_source. induction l as [|y l IH]; cbn; [reflexivity|].
    destruct (gs_seq y =? q)%N eqn:E; rewrite ?Hf, E; cbn; rewrite IH; reflexivity.
  Qed.
  Lemma del_del l q : del_source (del_source l q) q = del_source l q.
  Proof. apply filter_filter_sub. auto. Qed.

  Definition flags_kept (g g' : gstate U) (except : option nat) : Prop :=
    forall q, q < length (gstore g) -> Some q <> except -> gl_running (get_l g' q) = gl_running (get_l g q).
  Definition incall_kept (g g' : gstate U) : Prop :=
    forall q, q < length (gstore g) -> incall_srcs (get_l g' q) = incall_srcs (get_l g q).
  Set Implicit Arguments.
  Record Stays (s : lstate U) (g : gstate U) (s' : lstate U) (g' : gstate U) : Prop := {
    sy_levels : levels s' = levels s;
    sy_run : run_loop s' = run_loop s;
    sy_flags : flags_kept g g' None }.
  (* exactly the top level, l, was closed *)
  Record Closes (l : nat) (s : lstate U) (g : gstate U) (s' : lstate U) (g' : gstate U) : Prop := {
    cl_levels : levels s = levels s' ++ [l];
    cl_valid : l < length (gstore g');
    cl_was : run_loop s = true;
    cl_now : run_loop s' = false;
    cl_flag : gl_running (get_l g' l) = false;
    cl_flags : flags_kept g g' (Some l) }.
  Record Step (s : lstate U) (g : gstate U) (s' : lstate U) (g' : gstate U) : Prop := {
    st_grow : length (gstore g) <= length (gstore g');
    st_incall : incall_kept g g';
    st_case : Stays s g s' g' \/ exists l, Closes l s g s' g' }.
  Unset Implicit Arguments.

  Lemma Step_trans s g s1 g1 s2 g2 : Step s g s1 g1 -> Step s1 g1 s2 g2 -> Step s g s2 g2.
  Proof.
    intros T1 T2. pose proof (st_grow T1) as L1. pose proof (st_grow T2) as L2. constructor; [lia | |].
    - intros q Hq. rewrite (st_incall T2) by lia. apply (st_incall T1); assumption.
    - destruct (st_case T1) as [S1 | (l & C1)]; destruct (st_case T2) as [S2 | (l2 & C2)].
      + left. constructor; [rewrite (sy_levels S2); apply S1 | rewrite (sy_run S2); apply S1 |].
        intros q Hq Hn. rewrite (sy_flags S2) by (lia || assumption). apply (sy_flags S1); assumption.
      + right. exists l2. constructor; try apply C2; [rewrite <- (sy_levels S1); apply C2 | rewrite <- (sy_run S1); apply C2 |].
        intros q Hq Hn. rewrite (cl_flags C2) by (lia || assumption). apply (sy_flags S1); [assumption|discriminate].
      + pose proof (cl_valid C1). right. exists l. constructor; try apply C1; try lia.
        * rewrite (sy_levels S2). apply C1.
        * rewrite (sy_run S2). apply C1.
        * rewrite (sy_flags S2); [apply C1 | apply C1 | discriminate].
        * intros q Hq Hn. rewrite (sy_flags S2) by (lia || discriminate). apply (cl_flags C1); assumption.
      + pose proof (cl_now C1). pose proof (cl_was C2). congruence.
  Qed.

  Lemma Step_same s g s' g' :
    levels s' = levels s -> run_loop s' = run_loop s -> length (gstore g') = length (gstore g) ->
    (forall q, gl_running (get_l g' q) = gl_running (get_l g q)) ->
    (forall q, incall_srcs (get_l g' q) = incall_srcs (get_l g q)) ->
    Step s g s' g'.
  Proof.
    intros A B C D E. constructor; [lia | intros q _; apply E |]. left. constructor; [exact A | exact B | intros q _ _; apply D].
  Qed.

  Lemma Step_ext s g s' g' s1 g1 :
    Step s g s' g' -> levels s1 = levels s' -> run_loop s1 = run_loop s' -> gstore g1 = gstore g' -> Step s g s1 g1.
  Proof.
    intros [L I C] El Er Eg. unfold incall_kept, flags_kept, get_l in *.
    constructor; unfold incall_kept, flags_kept, get_l; rewrite ?Eg; [assumption..|].
    destruct C as [[] | (l & [])]; [left | right; exists l]; constructor; unfold flags_kept, get_l in *; rewrite ?El, ?Er, ?Eg; assumption.
  Qed.

  Definition Keeps (s : lstate U) (g : gstate U) (s' : lstate U) (g' : gstate U) : Prop := Rel s' g' /\ Step s g s' g'.

  Lemma Rel_valid_g s g : Rel s g -> Forall (fun q => q < length (gstore g)) (levels s).
  Proof. intros R. destruct R. rewrite <- r_len0. assumption. Qed.

  Lemma Keeps_refl s g : Rel s g -> Keeps s g s g.
  Proof. intros R. split; [exact R|]. apply Step_same; reflexivity. Qed.
  Lemma Keeps_trans s g s1 g1 s2 g2 : Keeps s g s1 g1 -> Keeps s1 g1 s2 g2 -> Keeps s g s2 g2.
  Proof. intros [_ St1] [R2 St2]. split; [exact R2 | eapply Step_trans; eassumption]. Qed.

  (* what a call that came back leaves behind, by outcome: [N] after a normal return, [T e] after exception e; a run
     that blocks for ever has shown the same observable events; a run out of fuel is never asked about *)
  Definition Outcome (N : Prop) (T : exn -> Prop) (o : outcome) (s' : lstate U) (g' : gstate U) : Prop :=
    match o with
    | ONormal => N
    | OThrow e => T e
    | OBlocked => obs (trace s') = obs (gtrace g')
    | OFuel => False
    end.
  Lemma Outcome_impl (N N' : Prop) (T T' : exn -> Prop) o s' g' :
    (N -> N') -> (forall e, T e -> T' e) -> Outcome N T o s' g' -> Outcome N' T' o s' g'.
  Proof. intros HN HT. destruct o; cbn; auto. Qed.

  Definition Post (o : outcome) (s : lstate U) (g : gstate U) (s' : lstate U) (g' : gstate U) : Prop :=
    Outcome (Keeps s g s' g') (fun _ => Keeps s g s' g') o s' g'.

  Lemma Post_seq o s g s1 g1 s2 g2 : Keeps s g s1 g1 -> Post o s1 g1 s2 g2 -> Post o s g s2 g2.
  Proof. intros K. apply Outcome_impl; intros; eapply Keeps_trans; eassumption. Qed.

  Definition only_exit (P : Prop) (e : exn) : Prop := match e with XExit => P | _ => False end.
  (* the handlers of a signal: in the fragment ExitMainLoop is the only exception that leaves them *)
  Definition SigPost (o : outcome) (s : lstate U) (g : gstate U) (s' : lstate U) (g' : gstate U) : Prop :=
    Outcome (Keeps s g s' g') (only_exit (Keeps s g s' g')) o s' g'.
  Lemma SigPost_seq o s g s1 g1 s2 g2 : Keeps s g s1 g1 -> SigPost o s1 g1 s2 g2 -> SigPost o s g s2 g2.
  Proof. intros K. apply Outcome_impl; [|intros []; [|intros []..]]; intros K2; eapply Keeps_trans; eassumption. Qed.

  Definition GRuns (gc : gcall U) (g : gstate U) (f0 : nat) (r : outcome * gstate U) : Prop :=
    forall f, f0 <= f -> gexec false code f gc g = r.
  Definition GRes (gc : gcall U) (g : gstate U) (o : outcome) (P : gstate U -> Prop) : Prop :=
    exists f0 g', GRuns gc g f0 (o, g') /\ P g'.

  (* call c ends at once *)
  Lemma GRuns_now c g r : (forall n, gexec false code (S n) c g = r) -> GRuns c g 1 r.
  Proof. intros Hc [|n] Hle; [lia|]. apply Hc. Qed.
  Lemma GRes_now c g o g' (P : gstate U -> Prop) :
    (forall n, gexec false code (S n) c g = (o, g')) -> P g' -> GRes c g o P.
  Proof. intros Hc HP. exists 1, g'. split; [apply GRuns_now, Hc | exact HP]. Qed.
  (* call c first runs c1 from g0 and, c1 having ended with r1, ends with (o, g') *)
  Lemma GRes_then c g c1 g0 f1 r1 o g' (P : gstate U -> Prop) :
    GRuns c1 g0 f1 r1 ->
    (forall n, gexec false code n c1 g0 = r1 -> gexec false code (S n) c g = (o, g')) -> P g' -> GRes c g o P.
  Proof. intros G1 Hc HP. exists (S f1), g'. split; [|exact HP]. intros [|n] Hle; [lia|]. apply Hc, G1. lia. Qed.
  (* ... or goes on as c2 from g2 *)
  Lemma GRes_seq c g c1 g0 f1 o1 g1 c2 g2 o (Q P : gstate U -> Prop) :
    GRuns c1 g0 f1 (o1, g1) ->
    (forall n, gexec false code n c1 g0 = (o1, g1) -> gexec false code (S n) c g = gexec false code n c2 g2) ->
    GRes c2 g2 o Q -> (forall g', Q g' -> P g') -> GRes c g o P.
  Proof.
    intros G1 Hc (f2 & g' & G2 & HQ) HP. exists (S (Nat.max f1 f2)), g'. split; [|apply HP; exact HQ].
    intros [|n] Hle; [lia|]. rewrite Hc by (apply G1; lia). apply G2. lia.
  Qed.
  (* call c runs c1 from g0 and passes its result on *)
  Lemma GRes_wrap c g c1 g0 o (P : gstate U -> Prop) :
    (forall n g1, gexec false code n c1 g0 = (o, g1) -> gexec false code (S n) c g = (o, g1)) ->
    GRes c1 g0 o P -> GRes c g o P.
  Proof. intros Hc (f1 & g1 & G1 & HP). exact (GRes_then _ _ _ _ _ _ _ _ _ G1 (fun n => Hc n g1) HP). Qed.

  Lemma Keeps_emit2 s g e : Rel s g -> Keeps s g (emit e s) (gemit e g).
  Proof.
    intros R. split; [|apply Step_same; reflexivity]. destruct R. constructor; try assumption.
    unfold emit, gemit. cbn. unfold obs in *. cbn. destruct (is_obs e); [f_equal|]; assumption.
  Qed.
  Lemma Keeps_then_emit2 s g s1 g1 e : Keeps s g s1 g1 -> Keeps s g (emit e s1) (gemit e g1).
  Proof. intros K. eapply Keeps_trans; [exact K | apply Keeps_emit2; apply K]. Qed.
  Lemma Keeps_emit_l s g e : is_obs e = false -> Rel s g -> Keeps s g (emit e s) g.
  Proof.
    intros He R. split; [|apply Step_same; reflexivity].
    eapply Rel_core; [exact R|]. split; try reflexivity. unfold emit, obs. cbn. rewrite He. reflexivity.
  Qed.
  Lemma Rel_emit_r s g e : is_obs e = false -> Rel s g -> Rel s (gemit e g).
  Proof.
    intros He R. eapply Rel_gcore; [exact R|]. split; try reflexivity. unfold gemit, obs. cbn. rewrite He. reflexivity.
  Qed.
  Lemma Keeps_ust s g u : Rel s g -> Keeps s g (s <| ust := u |>) (g <| gust := u |>).
  Proof. intros R. split; [|apply Step_same; reflexivity]. destruct R. constructor; try assumption. reflexivity. Qed.
  Lemma Keeps_tickets s g t : Rel s g -> Keeps s g (s <| tickets := t |>) g.
  Proof.
    intros R. split; [|apply Step_same; reflexivity].
    eapply Rel_core; [exact R|]. split; reflexivity.
  Qed.
  Lemma Keeps_ext_set s g x : Rel s g -> Keeps s g (s <| ext := x |>) (g <| gext := x |>).
  Proof. intros R. split; [|apply Step_same; reflexivity]. destruct R. constructor; try assumption. reflexivity. Qed.
  Lemma Keeps_ext_add s g sp : Rel s g -> Keeps s g (s <| ext := ext s ++ [sp] |>) (g <| gext := gext g ++ [sp] |>).
  Proof. intros R. split; [|apply Step_same; reflexivity]. destruct R. constructor; try assumption. cbn. congruence. Qed.
  Lemma Keeps_handlers s g c h d :
    Rel s g -> Keeps s g (s <| handlers := add_handler (handlers s) c h d |>) (g <| ghandlers := add_handler (ghandlers g) c h d |>).
  Proof. intros R. split; [|apply Step_same; reflexivity]. destruct R. constructor; cbn; try assumption. congruence. Qed.
  Lemma Keeps_quitcb s g a : Rel s g -> Keeps s g (s <| quit_cb := Some a |>) (g <| gquit_cb := Some a |>).
  Proof. intros R. split; [|apply Step_same; reflexivity]. destruct R. constructor; cbn; try assumption. reflexivity. Qed.
  (* these two change what Step speaks of, or are only used inside a larger update *)
  Lemma Rel_run_loop s g b : Rel s g -> Rel (s <| run_loop := b |>) g.
  Proof. intros R. eapply Rel_core; [exact R|]. split; reflexivity. Qed.
  Lemma Rel_gtickets s g t : Rel s g -> Rel s (g <| gtickets := t |>).
  Proof. intros R. eapply Rel_gcore; [exact R|]. split; reflexivity. Qed.

  Lemma upd_l_gemit (g : gstate U) e l f : upd_l (gemit e g) l f = gemit e (upd_l g l f).
  Proof. reflexivity. Qed.

  Lemma handlers_of_eq s g cls : Rel s g -> handlers_of s cls = ghandlers_of g cls.
  Proof. intros R. unfold handlers_of, ghandlers_of. rewrite (r_handlers _ _ R). reflexivity. Qed.

  Lemma Keeps_new_signal s g sp sg s1 : Rel s g -> new_signal s sp = (sg, s1) ->
    exists g1, gnew_signal g sp = (sg, g1) /\ Keeps s g s1 g1.
  Proof.
    intros R E. injection E as <- <-. unfold gnew_signal. rewrite <- (r_sig _ _ R). eexists. split; [reflexivity|].
    split; [|apply Step_same; reflexivity]. apply Keeps_emit2. destruct R. constructor; try assumption. cbn. congruence.
  Qed.

  Lemma route_eq s g ls src : Rel s g -> Forall (fun q => q < length (qstore s)) ls -> route s ls src = groute g ls src.
  Proof.
    intros R Hv. induction Hv as [|q ls Hq Hv IH]; cbn [route groute]; [reflexivity|].
    unfold q_contains_source. rewrite (lr_srcs _ _ _ (r_lvl _ _ R q Hq)), IH. reflexivity.
  Qed.
  Lemma active_valid s g : Rel s g -> active s < length (qstore s).
  Proof.
    intros R. rewrite (r_active _ _ R). pose proof (r_valid _ _ R) as Hv.
    rewrite Forall_forall in Hv. apply Hv. apply last_in. apply (r_nonempty _ _ R).
  Qed.
  Lemma target_valid s g sg : Rel s g -> target_queue s sg < length (qstore s).
  Proof.
    intros R. unfold target_queue. destruct (route s (rev (levels s)) (sg_src sg)) eqn:E.
    - eapply route_lt; [|exact E]. apply Forall_rev. apply (r_valid _ _ R).
    - eapply active_valid; exact R.
  Qed.

  Lemma Rel_next_seq s g : Rel s g -> Rel s (g <| gnext_seq := N.succ (gnext_seq g) |>).
  Proof.
    intros R. destruct R. constructor; try assumption.
    intros q Hq. eapply lvl_rel_mono; [|apply r_lvl0; exact Hq]. cbn. lia.
  Qed.

  Definition new_source (n : N) (sg : signal) : gsource :=
    {| gs_seq := n; gs_prio := sg_prio sg; gs_sig := sg; gs_bound := true; gs_incall := false |}.

  Lemma lvl_rel_attach n qe gl sg :
    lvl_rel n qe gl -> eq_entries qe = [] ->
    lvl_rel (N.succ n) (q_put qe sg) (gl <| gl_sources := gl_sources gl ++ [new_source n sg] |>).
  Proof.
    intros [] He. pose proof lr_live0 as E. rewrite He in E. symmetry in E. apply map_eq_nil in E.
    constructor; unfold live_srcs, q_put in *; cbn; rewrite ?He; try assumption.
    - rewrite map_app. cbn. apply NoDup_snoc; [exact lr_nodup0|].
      intros Hin. apply in_map_iff in Hin. destruct Hin as (y & Hy & Hin).
      rewrite Forall_forall in lr_bound0. destruct (lr_bound0 y Hin) as [Hlt _]. rewrite Hy in Hlt. lia.
    - apply Forall_app. split.
      + eapply Forall_impl; [|exact lr_bound0]. cbn. intros y [? ?]. split; [lia|assumption].
      + constructor; [|constructor]. cbn. split; [lia|reflexivity].
    - rewrite filter_app, E. reflexivity.
    - cbn. lia.
  Qed.

  Definition attach (g : gstate U) (t : nat) (sg : signal) : gstate U :=
    upd_l (gemit (EEnq (sg_id sg) t) (g <| gnext_seq := N.succ (gnext_seq g) |>)) t
          (fun v => v <| gl_sources := gl_sources v ++ [new_source (gnext_seq g) sg] |>).

  Lemma g_enqueue_eq s g sg : Rel s g -> enqueue_ok s sg = true -> g_enqueue g sg = Some (attach g (target_queue s sg) sg).
  Proof.
    intros R Hok. apply enqueue_ok_true in Hok. destruct Hok as (_ & _ & Hh).
    unfold g_enqueue. rewrite (r_gfq _ _ R).
    rewrite <- (r_levels _ _ R). rewrite <- (route_eq s g) by (try exact R; apply Forall_rev; apply (r_valid _ _ R)).
    unfold has_handlers in Hh. rewrite (handlers_of_eq _ _ _ R) in Hh.
    assert (Ht : match route s (rev (levels s)) (sg_src sg) with
                 | Some l => Some l
                 | None => match rev (levels s) with top :: _ => Some top | [] => None end
                 end = Some (target_queue s sg)).
    { unfold target_queue. destruct (route s (rev (levels s)) (sg_src sg)); [reflexivity|].
      destruct (last_rev (levels s) 0 (r_nonempty _ _ R)) as (r & ->). rewrite (r_active _ _ R). reflexivity. }
    rewrite Ht. destruct (ghandlers_of g (sg_cls sg)); [reflexivity|discriminate].
  Qed.

  Lemma do_enqueue_eq (s : lstate U) sg : force_quit s = false ->
    do_enqueue s sg = emit (EEnq (sg_id sg) (target_queue s sg)) (set_q s (target_queue s sg) (q_put (get_q s (target_queue s sg)) sg)).
  Proof. intros H. unfold do_enqueue, target_queue. rewrite H. reflexivity. Qed.

  Lemma q_empty_entries q : q_empty q = true -> eq_entries q = [].
  Proof. unfold q_empty. destruct (eq_entries q); [reflexivity|discriminate]. Qed.

  Lemma Keeps_enqueue s g sg : Rel s g -> enqueue_ok s sg = true ->
    exists g', g_enqueue g sg = Some g' /\ Keeps s g (do_enqueue s sg) g'.
  Proof.
    intros R Hok. exists (attach g (target_queue s sg) sg). split; [apply g_enqueue_eq; assumption|].
    apply enqueue_ok_true in Hok. destruct Hok as (Hfq & He & _).
    rewrite do_enqueue_eq by assumption. unfold attach. split.
    - rewrite upd_l_gemit. apply Keeps_emit2.
      pose proof (target_valid _ _ sg R) as Ht.
      apply Rel_level; [apply Rel_next_seq; exact R | exact Ht |].
      apply (lvl_rel_attach (gnext_seq g) (get_q s (target_queue s sg)) (get_l g (target_queue s sg)) sg).
      + apply (r_lvl _ _ R). exact Ht.
      + apply q_empty_entries. exact He.
    - apply Step_same; try reflexivity.
      + rewrite len_upd_l. reflexivity.
      + intros q. rewrite (get_l_upd_proj gl_running) by reflexivity. reflexivity.
      + intros q. rewrite (get_l_upd_proj incall_srcs); [reflexivity|].
        intros v. unfold incall_srcs. cbn. rewrite filter_app. apply app_nil_r.
  Qed.

  Definition outcome_is_normal (o : outcome) : bool := match o with ONormal => true | _ => false end.

  Definition SProg (f : nat) : Prop := forall p s g o s',
    Rel s g -> fexec code f (CProg p) s = Some (o, s') -> o <> OFuel -> GRes (GProg p) g o (Post o s g s').
  Definition SApi (f : nat) : Prop := forall a s g o s',
    Rel s g -> fexec code f (CApi a) s = Some (o, s') -> o <> OFuel -> GRes (GApi a) g o (Post o s g s').

  Lemma sim_prog f : SProg f -> SApi f -> SProg (S f).
  Proof.
    intros IHp IHa p s g o s' R H Ho.
    (* p runs p1 and, when that ends with o1 (a return or an exception), goes on as p2 *)
    assert (Then : forall p1 p2 o1 s1, fexec code f (CProg p1) s = Some (o1, s1) -> o1 <> OFuel ->
              (forall g1, Post o1 s g s1 g1 -> Keeps s g s1 g1) -> fexec code f (CProg p2) s1 = Some (o, s') ->
              (forall n g1, gexec false code n (GProg p1) g = (o1, g1) ->
                            gexec false code (S n) (GProg p) g = gexec false code n (GProg p2) g1) ->
              GRes (GProg p) g o (Post o s g s')).
    { intros p1 p2 o1 s1 E1 Ho1 HK E2 Hc. destruct (IHp _ _ _ _ _ R E1 Ho1) as (f1 & g1 & G1 & P1). apply HK in P1.
      eapply GRes_seq; [exact G1 | intros n; apply Hc | exact (IHp _ _ _ _ _ (proj1 P1) E2 Ho) |].
      intros g'. apply Post_seq; assumption. }
    (* ... and otherwise ends as p1 did *)
    assert (Stop : forall p1, fexec code f (CProg p1) s = Some (o, s') ->
              (forall n g1, gexec false code n (GProg p1) g = (o, g1) -> gexec false code (S n) (GProg p) g = (o, g1)) ->
              GRes (GProg p) g o (Post o s g s')).
    { intros p1 E1 Hc. eapply GRes_wrap; [exact Hc | exact (IHp _ _ _ _ _ R E1 Ho)]. }
    destruct p; cbn [fexec] in H.
    - (* PRet *) inversion H; subst. apply (GRes_now _ _ _ g); [reflexivity|]. apply Keeps_refl; exact R.
    - (* PThrow *) inversion H; subst. apply (GRes_now _ _ _ g); [reflexivity|]. apply Keeps_refl; exact R.
    - (* PSeq *)
      destruct (fexec code f (CProg p1) s) as [[o1 s1]|] eqn:E1; cbn [obind] in H; [|discriminate].
      assert (Hg : forall n g1, gexec false code n (GProg p1) g = (o1, g1) -> gexec false code (S n) (GProg (PSeq p1 p2)) g =
                match o1 with ONormal => gexec false code n (GProg p2) g1 | _ => (o1, g1) end)
        by (intros n g1 E; cbn [gexec]; rewrite E; reflexivity).
      destruct o1 as [|e1| |]; try (inversion H; subst o s'; exact (Stop _ E1 Hg)).
      exact (Then _ _ _ _ E1 ltac:(discriminate) (fun _ K => K) H Hg).
    - (* PTry *)
      destruct (fexec code f (CProg p1) s) as [[o1 s1]|] eqn:E1; cbn [obind] in H; [|discriminate].
      assert (Hg : forall n g1, gexec false code n (GProg p1) g = (o1, g1) -> gexec false code (S n) (GProg (PTry p1 p2)) g =
                match o1 with OThrow XError => gexec false code n (GProg p2) g1 | _ => (o1, g1) end)
        by (intros n g1 E; cbn [gexec]; rewrite E; reflexivity).
      destruct o1 as [|[]| |]; try (inversion H; subst o s'; exact (Stop _ E1 Hg)).
      exact (Then _ _ _ _ E1 ltac:(discriminate) (fun _ K => K) H Hg).
    - (* PApi *)
      eapply GRes_wrap; [|exact (IHa _ _ _ _ _ R H Ho)]. intros n g1 E. exact E.
    - (* PSt *)
      destruct (f0 (ust s)) as [u' p'] eqn:Eg.
      pose proof (Keeps_ust _ _ u' R) as K.
      destruct (IHp _ _ _ _ _ (proj1 K) H Ho) as (f1 & g1 & G1 & P1).
      apply (GRes_then _ _ _ _ _ _ _ g1 _ G1); [|eapply Post_seq; eassumption].
      intros n E. cbn [gexec]. rewrite <- (r_ust _ _ R), Eg. exact E.
    - (* PWhile *)
      destruct (c (ust s)) eqn:Ec.
      + destruct (fexec code f (CProg p) s) as [[o1 s1]|] eqn:E1; cbn [obind] in H; [|discriminate].
        assert (Hg : forall n g1, gexec false code n (GProg p) g = (o1, g1) -> gexec false code (S n) (GProg (PWhile c p)) g =
                  match o1 with ONormal => gexec false code n (GProg (PWhile c p)) g1 | _ => (o1, g1) end)
          by (intros n g1 E; cbn [gexec]; rewrite <- (r_ust _ _ R), Ec, E; reflexivity).
        destruct o1 as [|e1| |]; try (inversion H; subst o s'; exact (Stop _ E1 Hg)).
        exact (Then _ _ _ _ E1 ltac:(discriminate) (fun _ K => K) H Hg).
      + inversion H; subst. apply (GRes_now _ _ _ g); [|apply Keeps_refl; exact R].
        intros n. cbn [gexec]. rewrite <- (r_ust _ _ R), Ec. reflexivity.
    - (* PEmit *)
      inversion H; subst. apply (GRes_now _ _ _ (gemit (guser_event e) g)); [reflexivity|]. apply Keeps_emit2; exact R.
  Qed.

  Definition SSig (f : nat) : Prop := forall sg idx src s g o s',
    Rel s g -> gs_sig src = sg -> gs_bound src = true ->
    fexec code f (CProcessSignal sg idx) s = Some (o, s') -> o <> OFuel ->
    GRes (GHandlerLoop src idx) g o (SigPost o s g s').

  Lemma sim_sig f : SProg f -> SSig f -> SSig (S f).
  Proof.
    intros IHp IHs sg idx src s g o s' R Hsg Hb H Ho. cbn [fexec] in H.
    set (s0 := if (idx =? 0)%nat then s <| tickets := mark_line_to_go (tickets s) (sg_cls sg) |> else s) in *.
    assert (K0 : Keeps s g s0 g) by (subst s0; destruct (idx =? 0)%nat; [apply Keeps_tickets|apply Keeps_refl]; exact R).
    clearbody s0. pose proof (proj1 K0) as R0.
    destruct (handlers_of s0 (sg_cls sg)) as [hs|] eqn:Eh; [|discriminate].
    rewrite (r_fq _ _ R0) in H.
    assert (Eg : (if gs_bound src then ghandlers_of g (sg_cls (gs_sig src)) else None) = Some hs)
      by (rewrite Hb, Hsg, <- (handlers_of_eq _ _ _ R0); exact Eh).
    destruct (nth_error hs idx) as [[hid data]|] eqn:En.
    - destruct (fexec code f (CProg (code hid sg data)) (emit (EHandler hid (sg_id sg) data) s0)) as [[o1 s2]|] eqn:E1;
        cbn [obind] in H; [|discriminate].
      pose proof (Keeps_then_emit2 _ _ _ _ (EHandler hid (sg_id sg) data) K0) as K1. pose proof (proj1 K1) as R1.
      destruct o1 as [|[]| |]; try discriminate.
      + (* the handler returned: next handler *)
        destruct (IHp _ _ _ _ _ R1 E1 ltac:(discriminate)) as (f1 & g2 & G1 & K2).
        pose proof (Keeps_then_emit2 _ _ _ _ (EHandlerEnd hid (sg_id sg) None) K2) as K3.
        eapply GRes_seq; [exact G1 | | exact (IHs _ _ src _ _ _ _ (proj1 K3) Hsg Hb H Ho) |].
        * intros n E. cbn [gexec]. rewrite Eg, En, Hsg, E. reflexivity.
        * intros g'. apply SigPost_seq. eapply Keeps_trans; eassumption.
      + (* ExitMainLoop *)
        destruct (length (levels s2) =? 1)%nat; [|discriminate]. inversion H; subst o s'.
        destruct (IHp _ _ _ _ _ R1 E1 ltac:(discriminate)) as (f1 & g2 & G1 & K2).
        apply (GRes_then _ _ _ _ _ _ _ (gemit (EHandlerEnd hid (sg_id sg) (Some XExit)) g2) _ G1).
        * intros n E. cbn [gexec]. rewrite Eg, En, Hsg, E. reflexivity.
        * eapply Keeps_trans; [exact K1 | apply Keeps_then_emit2; exact K2].
      + (* blocked for ever inside the handler *)
        inversion H; subst o s'. destruct (IHp _ _ _ _ _ R1 E1 ltac:(discriminate)) as (f1 & g2 & G1 & P2).
        apply (GRes_then _ _ _ _ _ _ _ g2 _ G1); [|exact P2]. intros n E. cbn [gexec]. rewrite Eg, En, Hsg, E. reflexivity.
      + inversion H; subst. congruence.
    - inversion H; subst o s'. apply (GRes_now _ _ _ g); [intros n; cbn [gexec]; rewrite Eg, En; reflexivity|].
      eapply Keeps_trans; [exact K0 | apply Keeps_emit_l; [reflexivity | exact R0]].
  Qed.

  (* What the top level holds, on both sides: nothing (and then no submission is waiting, or one is), or one signal, carried
     by the one live source x of the level, which is then the whole batch of the next iteration of the context. *)
  Lemma pending_cases s g : Rel s g -> let l := active s in
    (do_get s = inl None /\ ext s = [] /\ live_srcs (get_l g l) = []) \/
    (exists sp r x, do_get s = inr x /\ ext s = sp :: r /\ live_srcs (get_l g l) = []) \/
    (exists sg x, do_get s = inl (Some (sg, set_q s l (get_q s l <| eq_entries := [] |>))) /\
       live_srcs (get_l g l) = [x] /\ gs_sig x = sg /\ In x (gl_sources (get_l g l)) /\ gs_incall x = false /\ gs_bound x = true /\
       find_source (gl_sources (get_l g l)) (gs_seq x) = Some x /\ batch_of (gl_sources (get_l g l)) = [gs_seq x]).
  Proof.
    intros R l. pose proof (active_valid _ _ R) as Ha. destruct (r_lvl _ _ R _ Ha) as [_ _ C Bd E Hlen]. fold l in C, Bd, E, Hlen.
    unfold do_get, q_pop. fold l. destruct (eq_entries (get_q s l)) as [|[[p c] sg] [|e r]]; cbn in Hlen, E; try lia.
    - symmetry in E. apply map_eq_nil in E. destruct (ext s) as [|sp r] eqn:Ex; [left; auto|].
      right. left. destruct (new_signal (s <| ext := r |>) sp) as [sg s1]. eauto 7.
    - right. right. destruct (live_srcs (get_l g l)) as [|x [|x2 r]] eqn:El; try discriminate. inversion E as [Hsg].
      assert (Hs : In x (gl_sources (get_l g l)) /\ gs_live x = true) by (apply filter_In; fold (live_srcs (get_l g l)); rewrite El; left; reflexivity).
      destruct Hs as [Hs Hlx]. subst sg. exists (gs_sig x), x. cbn. rewrite Nat.eqb_refl.
      split; [reflexivity|]. split; [reflexivity|]. split; [reflexivity|]. split; [exact Hs|].
      split; [unfold gs_live in Hlx; apply negb_true_iff in Hlx; exact Hlx|].
      split; [apply (proj1 (Forall_forall _ _) Bd x Hs)|]. split; [exact (find_source_in _ _ C Hs) | exact (batch_of_single _ _ El)].
  Qed.

  Lemma upd_l_upd_l (g : gstate U) l f1 f2 : l < length (gstore g) ->
    upd_l (upd_l g l f1) l f2 = upd_l g l (fun v => f2 (f1 v)).
  Proof.
    intros H. unfold upd_l at 1. rewrite get_l_upd_eq by exact H. unfold upd_l, set_l.
    destruct g; cbn. rewrite set_nth_set_nth. reflexivity.
  Qed.
  Lemma upd_l_id (g : gstate U) l f : f (get_l g l) = get_l g l -> upd_l g l f = g.
  Proof.
    intros E. unfold upd_l, set_l. rewrite E. unfold get_l. destruct g; cbn in *. rewrite set_nth_same. reflexivity.
  Qed.

  Lemma map_seq_upd l q f : (forall y, gs_seq (f y) = gs_seq y) -> map gs_seq (upd_source l q f) = map gs_seq l.
  Proof.
    intros Hf. unfold upd_source. induction l as [|y l IH]; cbn; [reflexivity|].
    destruct (gs_seq y =? q)%N; rewrite ?Hf; f_equal; exact IH.
  Qed.

  Definition set_incall (y : gsource) : gsource := y <| gs_incall := true |>.

  Lemma live_upd l q : filter gs_live (upd_source l q set_incall) = filter gs_live (del_source l q).
  Proof.
    unfold upd_source, del_source. induction l as [|y l IH]; cbn; [reflexivity|].
    destruct (gs_seq y =? q)%N; cbn; rewrite IH; reflexivity.
  Qed.

  (* the source of the one pending signal of level l is taken for dispatch *)
  Lemma lvl_rel_begin n qe gl x :
    lvl_rel n qe gl -> live_srcs gl = [x] ->
    lvl_rel n (qe <| eq_entries := [] |>) (gl <| gl_sources := upd_source (gl_sources gl) (gs_seq x) set_incall |>).
  Proof.
    intros [] Hl. constructor; unfold live_srcs in *; cbn; try assumption.
    - rewrite map_seq_upd by reflexivity. exact lr_nodup0.
    - apply Forall_map. eapply Forall_impl; [|exact lr_bound0]. intros y Hy. destruct (gs_seq y =? gs_seq x)%N; exact Hy.
    - rewrite live_upd. unfold del_source. rewrite filter_comm, Hl. cbn. rewrite N.eqb_refl. reflexivity.
    - lia.
  Qed.

  (* the dispatched source (in-call) is destroyed: the pending part of the level is untouched *)
  Lemma lvl_rel_end n qe gl x' :
    lvl_rel n qe gl -> In x' (gl_sources gl) -> gs_incall x' = true ->
    lvl_rel n qe (gl <| gl_sources := del_source (gl_sources gl) (gs_seq x') |>).
  Proof.
    intros [] Hin Hc. constructor; unfold live_srcs in *; cbn; try assumption.
    - apply NoDup_map_filter, lr_nodup0.
    - eapply incl_Forall; [apply incl_filter | exact lr_bound0].
    - unfold del_source. rewrite filter_comm. fold (del_source (filter gs_live (gl_sources gl)) (gs_seq x')).
      rewrite del_source_notin; [exact lr_live0|]. intros y Hy Hq. apply filter_In in Hy. destruct Hy as [Hy Hlv].
      rewrite (nodup_map_inj gs_seq _ _ _ lr_nodup0 Hy Hin Hq) in Hlv. unfold gs_live in Hlv. rewrite Hc in Hlv. discriminate.
  Qed.

  (* ... and what is in call beside it is what was in call before *)
  Lemma incall_after l0 x l4 :
    NoDup (map gs_seq l0) -> In x l0 -> gs_incall x = false ->
    filter gs_incall l4 = filter gs_incall (upd_source l0 (gs_seq x) set_incall) ->
    In (set_incall x) l4 /\ filter gs_incall (del_source l4 (gs_seq x)) = filter gs_incall l0.
  Proof.
    intros Hn Hin Hx Hf. split.
    - assert (H : In (set_incall x) (filter gs_incall l4)).
      { rewrite Hf. apply filter_In. split; [|reflexivity]. apply in_map_iff. exists x. rewrite N.eqb_refl. auto. }
      apply filter_In in H. tauto.
    - unfold del_source at 1. rewrite filter_comm, Hf, <- filter_comm.
      fold (del_source (upd_source l0 (gs_seq x) set_incall) (gs_seq x)). rewrite del_upd by reflexivity.
      unfold del_source. rewrite filter_comm. apply del_source_notin.
      intros y Hy Hq. apply filter_In in Hy. destruct Hy as [Hy Hc]. rewrite (nodup_map_inj gs_seq _ _ _ Hn Hy Hin Hq) in Hc. congruence.
  Qed.

  (* _quit_all_loops only clears is_running flags *)
  Definition quit_levels (ls : list nat) (g : gstate U) : gstate U :=
    fold_left (fun st l => upd_l st l (fun v => v <| gl_running := false |>)) ls g.
  Lemma gsame_core_trans (g1 g2 g3 : gstate U) : gsame_core g1 g2 -> gsame_core g2 g3 -> gsame_core g1 g3.
  Proof.
    intros [] []. split; try congruence; intros q; etransitivity; eauto.
  Qed.
  Lemma quit_levels_core ls (g : gstate U) : gsame_core g (quit_levels ls g).
  Proof.
    revert g. induction ls as [|l ls IH]; intros g.
    - split; reflexivity.
    - change (quit_levels (l :: ls) g) with (quit_levels ls (upd_l g l (fun v => v <| gl_running := false |>))).
      eapply gsame_core_trans; [apply running_core | apply IH].
  Qed.
  Lemma quit_all_core (g : gstate U) : gsame_core g (quit_all g).
  Proof. apply quit_levels_core. Qed.
  Lemma quit_levels_off ls (g : gstate U) q : Forall (fun q => q < length (gstore g)) ls ->
    In q ls \/ gl_running (get_l g q) = false -> gl_running (get_l (quit_levels ls g) q) = false.
  Proof.
    revert g. induction ls as [|l ls IH]; intros g Hv Hq; [destruct Hq as [[]|Hq]; exact Hq|].
    change (quit_levels (l :: ls) g) with (quit_levels ls (upd_l g l (fun v => v <| gl_running := false |>))).
    inversion Hv; subst. apply IH; [rewrite len_upd_l; assumption|].
    destruct (Nat.eq_dec l q) as [<-|Hne]; [right; rewrite get_l_upd_eq by assumption; reflexivity|].
    rewrite get_l_upd_neq by exact Hne. destruct Hq as [[Hq|Hq]|Hq]; [contradiction | left; exact Hq | right; exact Hq].
  Qed.

  Definition gdispatched (g : gstate U) (l : nat) (x : gsource) : gstate U :=
    gemit (EDispatch (sg_id (gs_sig x)) l (length (glevels g)))
          (upd_l g l (fun v => v <| gl_sources := upd_source (gl_sources v) (gs_seq x) set_incall |>)).
  Definition destroyed (g : gstate U) (l : nat) (x : gsource) : gstate U :=
    upd_l g l (fun v => v <| gl_sources := del_source (gl_sources v) (gs_seq x) |>).

  Lemma gloop_step m (g : gstate U) l : gl_running (get_l g l) = true ->
    gexec false code (S m) (GLoopRun l) g =
      let '(o, s1) := gexec false code m (GIter l true) g in
      match o with ONormal => gexec false code m (GLoopRun l) s1 | _ => (o, s1) end.
  Proof. intros H. cbn [gexec]. rewrite H. reflexivity. Qed.
  Lemma gloop_stop m (g : gstate U) l : gl_running (get_l g l) = false -> gexec false code (S m) (GLoopRun l) g = (ONormal, g).
  Proof. intros H. cbn [gexec]. rewrite H. reflexivity. Qed.
  Lemma gdispatch_nil m (g : gstate U) l : gl_pending (get_l g l) = [] -> gexec false code (S m) (GDispatch l) g = (ONormal, g).
  Proof. intros H. cbn [gexec]. rewrite H. reflexivity. Qed.

  Lemma get_l_finish (g : gstate U) l x q : get_l (finish_source false g l x) q = get_l (destroyed g l x) q.
  Proof. reflexivity. Qed.
  Lemma len_finish (g : gstate U) l x : length (gstore (finish_source false g l x)) = length (gstore g).
  Proof. exact (len_upd_l g l _). Qed.
  Lemma glevel_sources_id (v : glevel) : v <| gl_sources := gl_sources v |> = v.
  Proof. destruct v; reflexivity. Qed.
  Lemma destroyed_finish (g : gstate U) l x : l < length (gstore g) ->
    destroyed (finish_source false g l x) l x = finish_source false g l x.
  Proof.
    intros Hl. unfold destroyed at 1. apply upd_l_id.
    rewrite get_l_finish. unfold destroyed. rewrite get_l_upd_eq by exact Hl.
    destruct (get_l g l); cbn -[del_source]. rewrite del_del. reflexivity.
  Qed.
  Lemma gdispatch_finish m (g : gstate U) l x : l < length (gstore g) -> gl_pending (get_l g l) = [] ->
    gexec false code (S m) (GDispatch l) (destroyed (finish_source false g l x) l x) = (ONormal, finish_source false g l x).
  Proof.
    intros Hl Hp. rewrite destroyed_finish by exact Hl. apply gdispatch_nil.
    rewrite get_l_finish. unfold destroyed. rewrite (get_l_upd_proj gl_pending) by reflexivity. exact Hp.
  Qed.

  (* one iteration of the context of level l whose batch is the single source x: x is dispatched ... *)
  Lemma giter_dispatch_step n (g : gstate U) l x oh g4 :
    l < length (gstore g) -> gl_pending (get_l g l) = [] -> gforce_quit g = false ->
    batch_of (gl_sources (get_l g l)) = [gs_seq x] ->
    find_source (gl_sources (get_l g l)) (gs_seq x) = Some x ->
    gexec false code n (GHandlerLoop x 0) (gdispatched g l x) = (oh, g4) ->
    oh <> OThrow XError ->
    gexec false code (S (S (S n))) (GIter l true) g =
      match oh with
      | ONormal => gexec false code (S n) (GDispatch l) (destroyed (finish_source false g4 l x) l x)
      | OThrow XExit => gexec false code (S n) (GDispatch l) (destroyed (finish_source false (quit_all g4) l x) l x)
      | _ => (oh, g4)
      end.
  Proof.
    intros Hl Hp Hfq Hb Hf Hh Hne.
    cbn [gexec]. rewrite Hb.
    rewrite get_l_upd_eq by exact Hl. cbn [gl_pending set].
    assert (Hid : upd_l (upd_l g l (fun v => v <| gl_pending := [gs_seq x] |>)) l (fun v => v <| gl_pending := [] |>) = g).
    { rewrite upd_l_upd_l by exact Hl. apply upd_l_id. destruct (get_l g l); cbn in *. rewrite Hp. reflexivity. }
    rewrite Hid. rewrite Hf.
    change (gemit (EDispatch (sg_id (gs_sig x)) l (length (glevels (upd_l g l _)))) (upd_l g l _)) with (gdispatched g l x).
    assert (Hfq' : gforce_quit (gdispatched g l x) = false) by exact Hfq.
    rewrite Hfq'. rewrite Hh.
    destruct oh as [|[]| |]; try reflexivity. congruence.
  Qed.
  (* ... and, unless its handlers block for ever, destroyed; nothing else is pending then *)
  Lemma giter_dispatch n (g : gstate U) l x oh g4 :
    l < length (gstore g) -> gl_pending (get_l g l) = [] -> gforce_quit g = false ->
    batch_of (gl_sources (get_l g l)) = [gs_seq x] ->
    find_source (gl_sources (get_l g l)) (gs_seq x) = Some x ->
    GRuns (GHandlerLoop x 0) (gdispatched g l x) n (oh, g4) ->
    oh <> OThrow XError ->
    (oh <> OBlocked -> l < length (gstore g4) /\ gl_pending (get_l g4 l) = []) ->
    GRuns (GIter l true) g (S (S (S n)))
      match oh with
      | ONormal => (ONormal, finish_source false g4 l x)
      | OThrow XExit => (ONormal, finish_source false (quit_all g4) l x)
      | _ => (oh, g4)
      end.
  Proof.
    intros Hl Hp Hfq Hb Hf Hh Hne H4 [|[|[|m]]] Hle; try lia.
    rewrite (giter_dispatch_step m g l x oh g4) by (assumption || (apply Hh; lia)).
    destruct oh as [|[]| |]; try reflexivity; try congruence.
    - apply gdispatch_finish; apply H4; discriminate.
    - destruct (H4 ltac:(discriminate)) as [Hl4 Hp4].
      apply gdispatch_finish; [rewrite <- (gc_len _ _ (quit_all_core g4)); exact Hl4 | rewrite <- (gc_pending _ _ (quit_all_core g4)); exact Hp4].
  Qed.

  Lemma Rel_finish s g l x : Rel s g -> l < length (gstore g) -> In (set_incall x) (gl_sources (get_l g l)) ->
    Rel s (finish_source false g l x).
  Proof.
    intros R Hl Hin. rewrite <- (r_len _ _ R) in Hl. unfold finish_source. apply Rel_emit_r; [reflexivity|]. apply Rel_gtickets.
    apply Rel_glevel; [exact R | exact Hl |]. exact (lvl_rel_end _ _ _ _ (r_lvl _ _ R l Hl) Hin eq_refl).
  Qed.

  Lemma get_l_dispatched (g : gstate U) l x q :
    get_l (gdispatched g l x) q =
    get_l (upd_l g l (fun v => v <| gl_sources := upd_source (gl_sources v) (gs_seq x) set_incall |>)) q.
  Proof. reflexivity. Qed.
  Lemma len_dispatched (g : gstate U) l x : length (gstore (gdispatched g l x)) = length (gstore g).
  Proof. unfold gdispatched. cbn. apply set_nth_length. Qed.
  Lemma flag_dispatched (g : gstate U) l x q :
    gl_running (get_l (gdispatched g l x) q) = gl_running (get_l g q).
  Proof.
    rewrite get_l_dispatched. apply get_l_upd_proj. reflexivity.
  Qed.
  Lemma flag_finish (g : gstate U) l x q :
    gl_running (get_l (finish_source false g l x) q) = gl_running (get_l g q).
  Proof.
    rewrite get_l_finish. apply get_l_upd_proj. reflexivity.
  Qed.

  (* a whole dispatch (source taken in call ... source destroyed) seen from the loop that made it *)
  Lemma Keeps_dispatch s g l x s2 s3 g4 :
    l < length (gstore g) -> NoDup (map gs_seq (gl_sources (get_l g l))) -> In x (gl_sources (get_l g l)) -> gs_incall x = false ->
    levels s2 = levels s -> run_loop s2 = run_loop s ->
    Keeps s2 (gdispatched g l x) s3 g4 ->
    l < length (gstore g4) /\ gl_pending (get_l g4 l) = [] /\ In (set_incall x) (gl_sources (get_l g4 l)) /\
    Keeps s g s3 (finish_source false g4 l x).
  Proof.
    intros Hl Hnd Hs Hx HL HR [R3 T]. pose proof (st_grow T) as L. pose proof (st_incall T) as I. rewrite len_dispatched in L.
    assert (Hl4 : l < length (gstore g4)) by lia. split; [exact Hl4|].
    split; [apply (lr_nopending _ _ _ (r_lvl _ _ R3 l ltac:(rewrite (r_len _ _ R3); exact Hl4)))|].
    assert (Hinc : incall_srcs (get_l g4 l) = filter gs_incall (upd_source (gl_sources (get_l g l)) (gs_seq x) set_incall)).
    { rewrite I by (rewrite len_dispatched; exact Hl). rewrite get_l_dispatched, get_l_upd_eq by exact Hl. reflexivity. }
    destruct (incall_after _ _ _ Hnd Hs Hx Hinc) as [Hin Hfil]. split; [exact Hin|].
    split; [exact (Rel_finish _ _ _ _ R3 Hl4 Hin)|]. constructor; [rewrite len_finish; lia | |].
    - intros q Hq. rewrite get_l_finish. unfold destroyed. destruct (Nat.eq_dec l q) as [<-|Hne].
      + rewrite get_l_upd_eq by exact Hl4. unfold incall_srcs. cbn [gl_sources set]. exact Hfil.
      + rewrite get_l_upd_neq by exact Hne. rewrite I by (rewrite len_dispatched; exact Hq).
        rewrite get_l_dispatched, get_l_upd_neq by exact Hne. reflexivity.
    - destruct (st_case T) as [S1 | (l' & C1)].
      + left. constructor; [rewrite (sy_levels S1); exact HL | rewrite (sy_run S1); exact HR |]. intros q Hq Hn.
        rewrite flag_finish. rewrite (sy_flags S1) by (rewrite ?len_dispatched; assumption).
        apply flag_dispatched.
      + right. exists l'.
        constructor; [rewrite <- HL; apply C1 | rewrite len_finish; apply C1 | rewrite <- HR; apply C1 | apply C1
                      | rewrite flag_finish; apply C1 |].
        intros q Hq Hn. rewrite flag_finish. rewrite (cl_flags C1) by (rewrite ?len_dispatched; assumption).
        apply flag_dispatched.
  Qed.

  Lemma giter_ext m (g : gstate U) l sp r :
    l < length (gstore g) -> gl_pending (get_l g l) = [] -> live_srcs (get_l g l) = [] -> gext g = sp :: r ->
    gexec false code (S m) (GIter l true) g =
      (let '(sg, s1) := gnew_signal (g <| gext := r |>) sp in
       let s2 := gemit (EExt (sg_id sg)) s1 in
       (ONormal, match g_enqueue s2 sg with Some s3 => s3 | None => s2 end)).
  Proof.
    intros Hl Hp Hlive Hx. cbn [gexec]. rewrite (batch_of_nil _ Hlive).
    assert (Hid : upd_l g l (fun v => v <| gl_pending := [] |>) = g).
    { apply upd_l_id. destruct (get_l g l); cbn in *. rewrite Hp. reflexivity. }
    rewrite Hid, Hx. reflexivity.
  Qed.

  Record LoopPre (s : lstate U) (g : gstate U) (l : nat) : Prop := {
    lp_valid : l < length (gstore g);
    lp_on : run_loop s = true -> last (levels s) 0 = l /\ gl_running (get_l g l) = true;
    lp_off : run_loop s = false -> gl_running (get_l g l) = false }.
  Definition loop_out (o : outcome) : outcome := match o with OThrow XExit => ONormal | _ => o end.
  Definition LoopPost (o : outcome) (s : lstate U) (g : gstate U) (s' : lstate U) (g' : gstate U) : Prop :=
    Outcome (Keeps s g s' g' /\ run_loop s' = false) (only_exit (Rel s' g')) o s' g'.
  Definition SProc (f : nat) : Prop := forall l s g o s',
    Rel s g -> LoopPre s g l -> fexec code f CProcLoop s = Some (o, s') -> o <> OFuel ->
    GRes (GLoopRun l) g (loop_out o) (LoopPost o s g s').

  Lemma LoopPost_seq o s g s1 g1 s2 g2 : Keeps s g s1 g1 -> LoopPost o s1 g1 s2 g2 -> LoopPost o s g s2 g2.
  Proof.
    intros K. apply Outcome_impl; [|auto]. intros [K2 Hr]. split; [eapply Keeps_trans; eassumption | exact Hr].
  Qed.

  (* the running loop of level l is still the top one after a step, or has been closed by it *)
  Lemma LoopPre_step s g s' g' l : run_loop s = true -> LoopPre s g l -> Step s g s' g' -> LoopPre s' g' l.
  Proof.
    intros Hr P T. destruct (lp_on _ _ _ P Hr) as [Htop Hrun]. pose proof (lp_valid _ _ _ P) as Hl. pose proof (st_grow T).
    constructor; [lia | |]; intros Hr'; destruct (st_case T) as [S1 | (l' & C1)].
    - split; [rewrite (sy_levels S1); exact Htop|]. rewrite (sy_flags S1) by (assumption || discriminate). exact Hrun.
    - pose proof (cl_now C1). congruence.
    - pose proof (sy_run S1). congruence.
    - rewrite (cl_levels C1), last_last in Htop. subst l'. apply C1.
  Qed.
  Lemma LoopPre_flag s g s' g' l : LoopPre s g l -> levels s' = levels s -> run_loop s' = run_loop s ->
    length (gstore g') = length (gstore g) -> gl_running (get_l g' l) = gl_running (get_l g l) -> LoopPre s' g' l.
  Proof. intros [] El Er Eg Ef. constructor; rewrite ?El, ?Er, ?Eg, ?Ef; assumption. Qed.

  (* ExitMainLoop quits every loop, this one included *)
  Lemma quit_all_flag s g l : Rel s g -> LoopPre s g l -> gl_running (get_l (quit_all g) l) = false.
  Proof.
    intros R P.
    apply (quit_levels_off (glevels g) g); [rewrite <- (r_levels _ _ R); apply (Rel_valid_g _ _ R)|].
    destruct (run_loop s) eqn:Er; [left | right; apply (lp_off _ _ _ P Er)].
    destruct (lp_on _ _ _ P Er) as [<- _]. rewrite <- (r_levels _ _ R). apply last_in. apply (r_nonempty _ _ R).
  Qed.

  Lemma sim_proc f : SSig f -> SProc f -> SProc (S f).
  Proof.
    intros IHs IHl l s g o s' R Pre H Ho. cbn [fexec] in H. pose proof (lp_valid _ _ _ Pre) as Hl.
    destruct (run_loop s) eqn:Er.
    2: { inversion H; subst o s'. apply (GRes_now _ _ _ g); [intros n; apply gloop_stop, (lp_off _ _ _ Pre Er)|].
         split; [apply Keeps_refl; exact R | exact Er]. }
    destruct (lp_on _ _ _ Pre Er) as [Htop Hrun].
    assert (Loop : forall n r, gexec false code n (GIter l true) g = r -> gexec false code (S n) (GLoopRun l) g =
              let '(o, g1) := r in match o with ONormal => gexec false code n (GLoopRun l) g1 | _ => (o, g1) end)
      by (intros n r <-; apply gloop_step, Hrun).
    (* an iteration of the context that returned, then the loop again *)
    assert (Again : forall f1 s1 g1, GRuns (GIter l true) g f1 (ONormal, g1) -> Keeps s g s1 g1 ->
              fexec code f CProcLoop s1 = Some (o, s') -> GRes (GLoopRun l) g (loop_out o) (LoopPost o s g s')).
    { intros f1 s1 g1 G1 K1 H1.
      eapply GRes_seq; [exact G1 | intros n E; exact (Loop n _ E) | |].
      - eapply (IHl l); [apply K1 | | exact H1 | exact Ho]. eapply LoopPre_step; [exact Er | exact Pre | apply K1].
      - intros g'. apply LoopPost_seq; assumption. }
    assert (Ha : active s = l) by (rewrite (r_active _ _ R); exact Htop).
    pose proof (active_valid _ _ R) as Hav. rewrite Ha in Hav.
    pose proof (r_lvl _ _ R l Hav) as Lv.
    pose proof (lr_nopending _ _ _ Lv) as B. pose proof (lr_nodup _ _ _ Lv) as C.
    destruct (pending_cases _ _ R) as [(Hg & Hx0 & E) | [(sp & r & x0 & Hg & Hx0 & E) | (sg & x & Hg & El & Hsg & Hs & Hxin & Hbound & Hfind & Hbatch)]];
      rewrite Hg in H; rewrite Ha in *.
    - (* nothing pending, nothing to come: blocked for ever *)
      inversion H; subst o s'.
      set (gb := upd_l g l (fun v => v <| gl_pending := [] |>)).
      apply (GRes_then _ _ (GIter l true) g 1 (OBlocked, gb) _ gb);
        [apply GRuns_now; intros n | intros n G; exact (Loop n _ G) | cbn; apply (r_obs _ _ R)].
      cbn [gexec]. rewrite (batch_of_nil _ E). fold gb.
      assert (Hx : gext gb = []) by (rewrite <- Hx0; symmetry; exact (r_ext _ _ R)).
      rewrite Hx. reflexivity.
    - (* idle: the next submission of another thread arrives *)
      rewrite Hx0 in H.
      pose proof (Keeps_ext_set _ _ r R) as K0.
      destruct (new_signal (s <| ext := r |>) sp) as [sg s1] eqn:En.
      destruct (Keeps_new_signal _ _ _ _ _ (proj1 K0) En) as (g1 & Eg & K1).
      pose proof (Keeps_emit2 _ _ (EExt (sg_id sg)) (proj1 K1)) as K2.
      destruct (enqueue_ok (emit (EExt (sg_id sg)) s1) sg) eqn:Eok; [|discriminate].
      destruct (Keeps_enqueue _ _ _ (proj1 K2) Eok) as (g3 & Eq & K3).
      eapply (Again 1); [| |exact H].
      + apply GRuns_now. intros n. rewrite (giter_ext n g l sp r Hl B E) by (rewrite <- Hx0; symmetry; exact (r_ext _ _ R)).
        rewrite Eg. cbv zeta. rewrite Eq. reflexivity.
      + eapply Keeps_trans; [exact K0|]. eapply Keeps_trans; [exact K1|]. eapply Keeps_trans; [exact K2 | exact K3].
    - (* one signal is pending: its source is dispatched *)
      set (s2 := emit (EDispatch (sg_id sg) l (length (levels s))) (set_q s l (get_q s l <| eq_entries := [] |>))) in *.
      set (gD := gdispatched g l x).
      assert (R2 : Rel s2 gD).
      { subst s2 gD. unfold gdispatched. apply Keeps_emit_l; [reflexivity|]. apply Rel_emit_r; [reflexivity|].
        apply Rel_level; [exact R | exact Hav |]. apply lvl_rel_begin; [apply (r_lvl _ _ R); exact Hav | exact El]. }
      assert (Pre2 : LoopPre s2 gD l) by (apply (LoopPre_flag s g); [exact Pre | reflexivity | reflexivity | apply len_dispatched | apply flag_dispatched]).
      destruct (fexec code f (CProcessSignal sg 0) s2) as [[o1 s3]|] eqn:E1; cbn [obind] in H; [|discriminate].
      assert (Ho1 : o1 <> OFuel) by (intros ->; inversion H; congruence).
      destruct (IHs _ _ x _ _ _ _ R2 Hsg Hbound E1 Ho1) as (f1 & g4 & G1 & P1).
      pose proof (giter_dispatch f1 g l x o1 g4 Hl B (r_gfq _ _ R) Hbatch Hfind G1) as Giter.
      destruct o1 as [|[]| |]; try contradiction. (* P1 leaves no exception but ExitMainLoop *)
      + (* the dispatch ended normally: the loop goes on *)
        destruct (Keeps_dispatch s g l x s2 s3 g4 Hl C Hs Hxin eq_refl eq_refl P1) as (Hl4 & Hp4 & Hin & K).
        apply (Again _ s3 _ (Giter ltac:(discriminate) (fun _ => conj Hl4 Hp4))); [exact K | exact H].
      + (* ExitMainLoop: every loop is quit, the batch (this one source) ends, run returns *)
        inversion H; subst o s'.
        destruct (Keeps_dispatch s g l x s2 s3 g4 Hl C Hs Hxin eq_refl eq_refl P1) as (Hl4 & Hp4 & Hin & _).
        destruct P1 as [R3 St3]. specialize (Giter ltac:(discriminate) (fun _ => conj Hl4 Hp4)). cbv iota in Giter.
        pose proof (quit_all_core g4) as Kc.
        assert (Rq : Rel s3 (quit_all g4)) by (eapply Rel_gcore; [exact R3|exact Kc]).
        eapply GRes_seq; [exact Giter | intros n G; exact (Loop n _ G) | | intros g' Q; exact Q].
        apply (GRes_now _ _ _ (finish_source false (quit_all g4) l x)).
        * intros n. apply gloop_stop. rewrite flag_finish. exact (quit_all_flag _ _ _ R3 (LoopPre_step s2 gD s3 g4 l Er Pre2 St3)).
        * apply (Rel_finish _ _ _ _ Rq); [rewrite <- (gc_len _ _ Kc); exact Hl4 | rewrite <- (gc_sources _ _ Kc); exact Hin].
      + (* blocked for ever inside the handler *)
        inversion H; subst o s'. specialize (Giter ltac:(discriminate) ltac:(congruence)).
        exact (GRes_then _ _ _ _ _ _ _ g4 _ Giter (fun n G => Loop n _ G) P1).
  Qed.

  (* the loop of one level: _mainloop / g_main_loop_run *)
  Definition MainPost (o : outcome) (s : lstate U) (g : gstate U) (s' : lstate U) (g' : gstate U) : Prop :=
    Outcome (exists s1, s' = s1 <| run_loop := true |> /\ Keeps s g s1 g' /\ run_loop s1 = false)
            (only_exit (Rel s' g')) o s' g'.
  Definition SMain (f : nat) : Prop := forall l s g o s',
    Rel s g -> run_loop s = true -> last (levels s) 0 = l -> gl_running (get_l g l) = true -> l < length (gstore g) ->
    fexec code f CMainloop s = Some (o, s') -> o <> OFuel ->
    GRes (GLoopRun l) g (loop_out o) (MainPost o s g s').

  Lemma sim_main n : SProc n -> SMain (S n).
  Proof.
    intros IHl l s g o s' R Hr Htop Hrun Hl H Ho. cbn [fexec] in H. rewrite Hr in H.
    destruct (fexec code n CProcLoop s) as [[o1 s1]|] eqn:E1; cbn [obind] in H; [|discriminate].
    assert (Pre : LoopPre s g l) by (constructor; [exact Hl | intros _; split; assumption | congruence]).
    destruct o1 as [|e| |].
    - destruct (IHl _ _ _ _ _ R Pre E1 ltac:(discriminate)) as (f1 & g1 & G1 & (K1 & Hr1)).
      destruct n as [|n']; [inversion H; congruence|]. cbn [fexec] in H. rewrite Hr1, (r_fq _ _ (proj1 K1)) in H.
      inversion H; subst o s'. exists f1, g1. split; [exact G1|]. exists s1. auto.
    - inversion H; subst o s'. exact (IHl _ _ _ _ _ R Pre E1 Ho).
    - inversion H; subst o s'. exact (IHl _ _ _ _ _ R Pre E1 Ho).
    - inversion H; congruence.
  Qed.

  Lemma lvl_rel_empty n : lvl_rel n empty_queue empty_level.
  Proof. constructor; cbn; try constructor; lia. Qed.

  Lemma Rel_newlevel s g :
    Rel s g ->
    Rel (s <| qstore := qstore s ++ [empty_queue] |> <| active := length (qstore s) |>
           <| levels := levels s ++ [length (qstore s)] |>)
        (g <| gstore := gstore g ++ [empty_level] |> <| glevels := glevels g ++ [length (qstore s)] |>).
  Proof.
    intros R. destruct R. constructor; cbn; try assumption.
    - congruence.
    - rewrite !app_length. cbn. lia.
    - rewrite app_length. cbn. apply Forall_app. split.
      + eapply Forall_impl; [|exact r_valid0]. cbn. intros; lia.
      + constructor; [lia|constructor].
    - intros Hn. apply app_eq_nil in Hn. destruct Hn; discriminate.
    - rewrite last_last. reflexivity.
    - intros q Hq. rewrite app_length in Hq. cbn in Hq. unfold get_q, get_l. cbn.
      destruct (Nat.eq_dec q (length (qstore s))) as [->|Hne].
      + rewrite nth_middle, r_len0, nth_middle. apply lvl_rel_empty.
      + rewrite !app_nth1 by lia. apply r_lvl0. lia.
  Qed.

  (* level q was opened on top of the levels of s and g, which are as they were *)
  Set Implicit Arguments.
  Record Opened (s : lstate U) (g : gstate U) (q : nat) (s' : lstate U) (g' : gstate U) : Prop := {
    op_new : q = length (gstore g);
    op_valid : q < length (gstore g');
    op_incall : incall_kept g g';
    op_flags : flags_kept g g' None;
    op_levels : levels s' = levels s ++ [q];
    op_run : run_loop s' = run_loop s }.
  Unset Implicit Arguments.

  Lemma Opened_newlevel s g e :
    Rel s g ->
    Opened s g (length (qstore s))
           (emit e (s <| qstore := qstore s ++ [empty_queue] |> <| active := length (qstore s) |>
                      <| levels := levels s ++ [length (qstore s)] |>))
           (gemit e (g <| gstore := gstore g ++ [empty_level] |> <| glevels := glevels g ++ [length (qstore s)] |>)).
  Proof.
    intros R. constructor; unfold incall_kept, flags_kept, get_l; cbn; rewrite ?app_length, ?(r_len _ _ R); cbn;
      try lia; try reflexivity; intros q' Hq'; rewrite app_nth1 by exact Hq'; reflexivity.
  Qed.
  Lemma Opened_step s g q s1 g1 s2 g2 :
    Opened s g q s1 g1 -> Step s1 g1 s2 g2 -> levels s2 = levels s1 -> Opened s g q s2 g2.
  Proof.
    intros O T A. pose proof (op_new O). pose proof (op_valid O). pose proof (st_grow T).
    destruct (st_case T) as [S2 | (l' & C2)].
    - constructor; [assumption | lia | | | rewrite A; apply O | rewrite (sy_run S2); apply O].
      + intros q' Hq'. rewrite (st_incall T) by lia. apply (op_incall O); exact Hq'.
      + intros q' Hq' Hn. rewrite (sy_flags S2) by (lia || exact Hn). apply (op_flags O); assumption.
    - pose proof (cl_levels C2) as A1. rewrite A in A1. apply (f_equal (@length nat)) in A1. rewrite app_length in A1. cbn in A1. lia.
  Qed.
  Lemma Opened_running s g q s1 g1 b :
    Opened s g q s1 g1 -> Opened s g q s1 (upd_l g1 q (fun v => v <| gl_running := b |>)).
  Proof.
    intros O. pose proof (op_new O). constructor; rewrite ?len_upd_l; try apply O.
    - intros q' Hq'. rewrite (get_l_upd_proj incall_srcs) by reflexivity. apply (op_incall O); exact Hq'.
    - intros q' Hq' Hn. rewrite get_l_upd_neq by lia. apply (op_flags O); assumption.
  Qed.
  (* the loop of the level opened last ran until that level was closed: seen from below, nothing has happened *)
  Lemma Step_nested s g q s1 g1 s2 g2 :
    Opened s g q s1 g1 -> run_loop s = true -> Step s1 g1 s2 g2 -> run_loop s2 = false ->
    Step s g (s2 <| run_loop := true |>) g2.
  Proof.
    intros O Hr T Hr2. pose proof (op_new O). pose proof (op_valid O). pose proof (st_grow T).
    destruct (st_case T) as [S2 | (l' & C2)]; [pose proof (sy_run S2); pose proof (op_run O); congruence|].
    pose proof (cl_levels C2) as A1. rewrite (op_levels O) in A1. apply app_inj_tail in A1. destruct A1 as [A1 <-].
    constructor; [lia | |].
    - intros q' Hq'. rewrite (st_incall T) by lia. apply (op_incall O); exact Hq'.
    - left. constructor; [cbn; congruence | cbn; congruence |]. intros q' Hq' _.
      rewrite (cl_flags C2); [apply (op_flags O); [exact Hq'|discriminate] | lia | intros [= ->]; lia].
  Qed.

  Lemma Keeps_close s g pre top :
    Rel s g -> levels s = pre ++ [top] -> pre <> [] -> run_loop s = true ->
    Keeps s g (s <| levels := pre |> <| active := last pre 0 |> <| run_loop := false |>)
          (upd_l (g <| glevels := pre |>) top (fun v => v <| gl_running := false |>)).
  Proof.
    intros R HL Hp Hr. pose proof (r_valid _ _ R) as Hv. rewrite HL in Hv. apply Forall_app in Hv. destruct Hv as [Hv1 Hv2].
    inversion Hv2 as [|? ? Htop _]; subst. rewrite (r_len _ _ R) in Htop. split.
    - apply Rel_running. destruct R. constructor; cbn; try assumption; reflexivity.
    - constructor; [rewrite len_upd_l; cbn; lia | |].
      + intros q' Hq'. rewrite (get_l_upd_proj incall_srcs) by reflexivity. reflexivity.
      + right. exists top. constructor; [exact HL | rewrite len_upd_l; exact Htop | exact Hr | reflexivity | |].
        * rewrite get_l_upd_eq by exact Htop. reflexivity.
        * intros q' Hq' Hn. rewrite get_l_upd_neq by congruence. reflexivity.
  Qed.

  Definition reg_src (o : nat) (v : glevel) : glevel :=
    if existsb (Nat.eqb o) (gl_srcs v) then v else v <| gl_srcs := gl_srcs v ++ [o] |>.
  Lemma lvl_rel_regsource n qe gl o : lvl_rel n qe gl -> lvl_rel n (q_add_source qe o) (reg_src o gl).
  Proof.
    intros []. unfold q_add_source, reg_src. rewrite lr_srcs0.
    destruct (existsb (Nat.eqb o) (gl_srcs gl)); constructor; unfold live_srcs in *; cbn; try assumption; reflexivity.
  Qed.
  Lemma Keeps_regsource s g o : Rel s g ->
    Keeps s g (set_q s (active s) (q_add_source (get_q s (active s)) o)) (upd_l g (active s) (reg_src o)).
  Proof.
    intros R. pose proof (active_valid _ _ R) as Ha. split.
    - apply Rel_level; [exact R | exact Ha |]. apply lvl_rel_regsource. apply (r_lvl _ _ R). exact Ha.
    - apply Step_same; try reflexivity.
      + apply len_upd_l.
      + intros q. apply (get_l_upd_proj gl_running). intros v. unfold reg_src. destruct (existsb _ _); reflexivity.
      + intros q. apply (get_l_upd_proj incall_srcs). intros v. unfold reg_src. destruct (existsb _ _); reflexivity.
  Qed.

  Lemma sim_api f : SMain f -> SApi (S f).
  Proof.
    intros IHm a s g o s' R H Ho. destruct a; cbn [fexec] in H; try discriminate.
    - (* AEnqueue *)
      destruct (new_signal s sp) as [sg s1] eqn:En. destruct (Keeps_new_signal _ _ _ _ _ R En) as (g1 & Eg & K1).
      destruct (enqueue_ok s1 sg) eqn:Eok; [|discriminate]. inversion H; subst o s'.
      destruct (Keeps_enqueue _ _ _ (proj1 K1) Eok) as (g2 & Eq & K2).
      apply (GRes_now _ _ _ g2); [intros n; cbn [gexec]; rewrite Eg, Eq; reflexivity|].
      eapply Keeps_trans; [exact K1 | exact K2].
    - (* ANewLoop: the signal is made, level q opened and the signal put there, the loop of q run until q is closed *)
      destruct (new_signal s sp) as [sg s1] eqn:En. destruct (Keeps_new_signal _ _ _ _ _ R En) as (g1 & Eg & K1). pose proof (proj1 K1) as R1.
      set (q := length (qstore s1)) in *.
      set (s2 := emit (ENewLoopEnter q)
                   (s1 <| qstore := qstore s1 ++ [empty_queue] |> <| active := q |> <| levels := levels s1 ++ [q] |>)) in *.
      destruct (run_loop s1 && enqueue_ok s2 sg) eqn:Ec; [|discriminate].
      apply andb_true_iff in Ec. destruct Ec as [Hrl Eok].
      set (g2 := gemit (ENewLoopEnter q) (g1 <| gstore := gstore g1 ++ [empty_level] |> <| glevels := glevels g1 ++ [q] |>)).
      assert (R2 : Rel s2 g2) by (apply Keeps_emit2; apply Rel_newlevel; exact R1).
      destruct (Keeps_enqueue _ _ _ R2 Eok) as (g2' & Eq & [R3 St3]).
      set (g3 := upd_l g2' q (fun v => v <| gl_running := true |>)).
      assert (O3 : Opened s1 g1 q (do_enqueue s2 sg) g3).
      { apply Opened_running. apply (Opened_step _ _ _ s2 g2); [exact (Opened_newlevel _ _ _ R1) | exact St3 |].
        rewrite do_enqueue_eq by apply (r_fq _ _ R2). reflexivity. }
      pose proof (op_new O3) as Hq1. pose proof (op_valid O3) as Hq3. pose proof (op_levels O3) as Hl3. pose proof (op_run O3) as Hr3.
      assert (Hf3 : gl_running (get_l g3 q) = true)
        by (unfold g3 in *; rewrite len_upd_l in Hq3; rewrite get_l_upd_eq by exact Hq3; reflexivity).
      assert (Hg : forall n o' g4, gexec false code n (GLoopRun q) g3 = (o', g4) ->
                gexec false code (S n) (GApi (ANewLoop sp)) g =
                match o' with ONormal => (ONormal, gemit (ENewLoopReturn q) g4) | _ => (o', g4) end).
      { intros n o' g4 E. cbn [gexec]. rewrite Eg, (r_gfq _ _ R1), <- Hq1.
        change (gemit (ENewLoopEnter q) g1 <| gstore := gstore g1 ++ [empty_level] |> <| glevels := glevels g1 ++ [q] |>) with g2.
        rewrite Eq. fold g3. rewrite E. reflexivity. }
      destruct (fexec code f CMainloop (do_enqueue s2 sg)) as [[o1 s4]|] eqn:E1; cbn [obind] in H; [|discriminate].
      assert (Ho1 : o1 <> OFuel) by (intros ->; inversion H; congruence).
      pose proof (IHm q _ _ _ _ (Rel_running _ _ q true R3) (eq_trans Hr3 Hrl) ltac:(rewrite Hl3; apply last_last)
                      Hf3 Hq3 E1 Ho1) as G.
      destruct o1 as [|e1| |]; try discriminate.
      + (* the nested loop was closed: execute_new_loop returns *)
        inversion H; subst o s'. destruct G as (f1 & g4 & G1 & smid & -> & [Rm Stm] & Hrm).
        apply (GRes_then _ _ _ _ _ _ _ (gemit (ENewLoopReturn q) g4) _ G1); [intros n E; exact (Hg n _ _ E)|].
        eapply Keeps_trans; [exact K1|]. apply Keeps_then_emit2.
        split; [apply Rel_run_loop; exact Rm | exact (Step_nested _ _ _ _ _ _ _ O3 Hrl Stm Hrm)].
      + (* blocked for ever inside the nested loop *)
        inversion H; subst o s'. eapply GRes_wrap; [|exact G]. intros n g4. exact (Hg n OBlocked g4).
      + inversion H; congruence.
    - (* ACloseLoop *)
      destruct ((2 <=? length (levels s))%nat && q_empty (get_q s (active s)) && run_loop s && negb (force_quit s)) eqn:Ec;
        [|discriminate].
      apply andb_true_iff in Ec. destruct Ec as [Ec _]. apply andb_true_iff in Ec. destruct Ec as [Ec Hrl].
      apply andb_true_iff in Ec. destruct Ec as [Hlen Hqe]. apply Nat.leb_le in Hlen.
      destruct f as [|f']; [inversion H; congruence|]. cbn [fexec obind] in H.
      change (get_q (emit (EProcEnter None 0) s) (active (emit (EProcEnter None 0) s))) with (get_q s (active s)) in H.
      rewrite Hqe in H. cbn [negb andb obind] in H.
      change (levels (emit (EProcReturn None 0) (emit (EProcEnter None 0) s))) with (levels s) in H.
      destruct (rev (levels s)) as [|top [|q rest_rev]] eqn:Erev; try discriminate. inversion H; subst o s'. clear H.
      assert (HL : levels s = rev (q :: rest_rev) ++ [top]).
      { rewrite <- (rev_involutive (levels s)), Erev. reflexivity. }
      assert (Hpre : rev (q :: rest_rev) <> []) by (cbn; intros Hn; apply app_eq_nil in Hn; destruct Hn; discriminate).
      assert (Hlast : last (rev (q :: rest_rev)) 0 = q) by (cbn [rev]; apply last_last).
      destruct (Keeps_close s g _ _ R HL Hpre Hrl) as [Rc Sc].
      apply (GRes_now _ _ _ (gemit (EClosePop top) (upd_l (g <| glevels := rev (q :: rest_rev) |>) top (fun v => v <| gl_running := false |>))));
        [intros n; cbn [gexec]; rewrite <- (r_levels _ _ R), Erev; reflexivity|]. split.
      + apply Rel_emit_r; [reflexivity|]. eapply Rel_core; [exact Rc|].
        split; try reflexivity. exact Hlast.
      + apply (Step_ext _ _ _ _ _ _ Sc); reflexivity.
    - (* ARegSource *)
      inversion H; subst o s'.
      destruct (last_rev (levels s) 0 (r_nonempty _ _ R)) as (r & Hrev). rewrite <- (r_active _ _ R) in Hrev.
      apply (GRes_now _ _ _ (gemit (ERegSource o0 (active s)) (upd_l g (active s) (reg_src o0)))).
      + intros n. cbn [gexec]. rewrite <- (r_levels _ _ R), Hrev. reflexivity.
      + apply Keeps_then_emit2. apply Keeps_regsource. exact R.
    - (* ARegHandler *)
      inversion H; subst o s'.
      apply (GRes_now _ _ _ (gemit (ERegHandler cls hid data) (g <| ghandlers := add_handler (ghandlers g) cls hid data |>)));
        [reflexivity|]. apply Keeps_then_emit2. apply Keeps_handlers. exact R.
    - (* ASetQuitCb *)
      inversion H; subst o s'. apply (GRes_now _ _ _ (gemit (ESetQuitCb arg) (g <| gquit_cb := Some arg |>))); [reflexivity|]. apply Keeps_then_emit2. apply Keeps_quitcb. exact R.
    - (* AExtAdd *)
      inversion H; subst o s'. apply (GRes_now _ _ _ (g <| gext := gext g ++ [sp] |>)); [reflexivity|]. apply Keeps_ext_add; exact R.
  Qed.

  Definition SimAll (f : nat) : Prop := SProg f /\ SApi f /\ SSig f /\ SProc f /\ SMain f.
  Lemma sim_all : forall f, SimAll f.
  Proof.
    induction f as [|f (IP & IA & IS & IL & IM)].
    - repeat split; intro; intros; cbn [fexec] in *;
        match goal with H : Some _ = Some _ |- _ => inversion H; subst; congruence end.
    - repeat split.
      + apply sim_prog; assumption.
      + apply sim_api; assumption.
      + apply sim_sig; assumption.
      + apply sim_proc; assumption.
      + apply sim_main; assumption.
  Qed.
  Lemma sim_prog_all f : SProg f.
  Proof. apply sim_all. Qed.
  Lemma sim_main_all f : SMain f.
  Proof. apply sim_all. Qed.

  Definition TopPost (o : outcome) (s' : lstate U) (g' : gstate U) : Prop :=
    Outcome (Rel s' g') (fun _ => Rel s' g') o s' g'.

  Lemma sim_top_prog f p s g o s' :
    Rel s g -> fexec code f (CProg p) s = Some (o, s') -> o <> OFuel -> GRes (GProg p) g o (TopPost o s').
  Proof.
    intros R H Ho. destruct (sim_prog_all f _ _ _ _ _ R H Ho) as (f1 & g1 & G1 & P1). exists f1, g1. split; [exact G1|].
    revert P1. apply Outcome_impl; intros; apply H0.
  Qed.

  Lemma sim_run f s g o s' :
    Rel s g -> fexec code f CRun s = Some (o, s') -> o <> OFuel -> GRes GRun g o (TopPost o s').
  Proof.
    intros R H Ho. destruct f as [|f]; [inversion H; congruence|]. cbn [fexec] in H.
    destruct (length (levels s) =? 1)%nat eqn:El; [|discriminate]. apply Nat.eqb_eq in El.
    destruct (levels s) as [|l0 [|]] eqn:EL; try discriminate. clear El.
    set (s0 := emit ERunEnter (s <| force_quit := false |> <| run_loop := true |>)) in *.
    set (g0 := gemit ERunEnter (g <| gforce_quit := false |>)).
    assert (Hl0 : l0 < length (gstore g)).
    { pose proof (Rel_valid_g _ _ R) as Hv. rewrite EL in Hv. inversion Hv. assumption. }
    assert (R0 : Rel s0 (upd_l g0 l0 (fun v => v <| gl_running := true |>))).
    { apply Rel_running. apply Keeps_emit2. eapply Rel_gcore; [eapply Rel_core; [exact R|]|].
      - split; try reflexivity. cbn. exact (r_fq _ _ R).
      - split; try reflexivity. cbn. exact (r_gfq _ _ R). }
    destruct (fexec code f CMainloop s0) as [[o1 s1]|] eqn:E1; cbn [obind] in H; [|discriminate].
    assert (Ho1 : o1 <> OFuel) by (intros ->; inversion H; congruence).
    destruct (sim_main_all f l0 _ _ _ _ R0 eq_refl
                ltac:(subst s0; cbn; rewrite EL; reflexivity)
                ltac:(rewrite get_l_upd_eq by exact Hl0; reflexivity)
                ltac:(rewrite len_upd_l; exact Hl0) E1 Ho1) as (f1 & g1 & G1 & P1).
    assert (Hcomp : GRuns GRun g (S f1)
              match loop_out o1 with
              | ONormal => (ONormal, gemit ERunReturn (match gquit_cb g1 with Some a => gemit (EQuitCb a) g1 | None => g1 end))
              | o' => (o', g1)
              end).
    { intros [|n] Hle; [lia|].
      cbn [gexec]. fold g0. change (glevels g0) with (glevels g). rewrite <- (r_levels _ _ R), EL. rewrite G1 by lia.
      destruct (loop_out o1) as [|[]| |]; reflexivity. }
    assert (Hfin : forall s1' , Rel s1' g1 ->
              Rel (emit ERunReturn (match quit_cb s1' with Some a => emit (EQuitCb a) s1' | None => s1' end))
                  (gemit ERunReturn (match gquit_cb g1 with Some a => gemit (EQuitCb a) g1 | None => g1 end))).
    { intros s1' R1. apply Keeps_emit2. rewrite <- (r_qcb _ _ R1). destruct (quit_cb s1'); [apply Keeps_emit2|]; exact R1. }
    destruct o1 as [|[]| |]; cbn in P1; try contradiction.
    - inversion H; subst o s'. destruct P1 as (smid & -> & [Rm _] & _).
      eexists (S f1), _. split; [exact Hcomp|]. cbn. apply (Hfin _ (Rel_run_loop _ _ true Rm)).
    - inversion H; subst o s'. eexists (S f1), _. split; [exact Hcomp|]. cbn. apply (Hfin _ P1).
    - inversion H; subst o s'. exists (S f1), g1. split; [exact Hcomp|exact P1].
  Qed.

  Lemma Rel_init u : Rel (init_state u) (ginit_state u).
  Proof.
    constructor; cbn; try reflexivity; try discriminate.
    - constructor; [lia|constructor].
    - intros q Hq. assert (q = 0) by lia. subst q. apply lvl_rel_empty.
  Qed.

End Sim.

(* A session runs one top-level call after the other and ends with the first that blocks for ever, runs out of
   fuel or kills the application ([continue] of proofs/ExecEqs.v); in the fragment no top-level call may raise at all ([fcontinue]).
   The four kinds of session (loop API or application, on either loop) differ in the calls only. *)
Definition fcontinue {S} (rest : S -> option (list outcome * S)) (r : outcome * S) : option (list outcome * S) :=
  let '(o, s1) := r in
  match o with
  | OBlocked | OFuel => Some ([o], s1)
  | ONormal => obind (rest s1) (fun '(os, s2) => Some (o :: os, s2))
  | OThrow _ => None
  end.

Section Sessions.
  Context {A S : Type}.
  Variable call : nat -> A -> S -> outcome * S.
  Variable sess : nat -> list A -> S -> list outcome * S.
  Hypothesis sess_nil : forall f s, sess f [] s = ([], s).
  Hypothesis sess_cons : forall f a r s, sess f (a :: r) s = continue (sess f r) (call f a s).

  Variable fcall : nat -> A -> S -> option (outcome * S).
  Variable fsess : nat -> list A -> S -> option (list outcome * S).
  Hypothesis fsess_nil : forall f s, fsess f [] s = Some ([], s).
  Hypothesis fsess_cons : forall f a r s, fsess f (a :: r) s = obind (fcall f a s) (fcontinue (fsess f r)).
  Hypothesis fcall_is : forall f a s x, fcall f a s = Some x -> call f a s = x.
  Lemma sessions_is : forall acts f s os s', fsess f acts s = Some (os, s') -> sess f acts s = (os, s').
  Proof.
    induction acts as [|a r IH]; intros f s os s' H.
    - rewrite fsess_nil in H. rewrite sess_nil. inversion H; reflexivity.
    - rewrite fsess_cons in H. rewrite sess_cons.
      destruct (fcall f a s) as [[o s1]|] eqn:E; cbn [obind] in H; [|discriminate].
      rewrite (fcall_is _ _ _ _ E). cbn [continue fcontinue] in *.
      destruct o as [|e| |]; try discriminate; try (inversion H; reflexivity).
      destruct (fsess f r s1) as [[os0 s2]|] eqn:Er; cbn [obind] in H; [|discriminate].
      inversion H; subst. rewrite (IH _ _ _ _ Er). reflexivity.
  Qed.
End Sessions.

(* the simulation carried through a session, whatever the calls, if each of them is simulated *)
Section SessionSim.
  Context {U A : Type}.
  Variable fcall : nat -> A -> lstate U -> option (outcome * lstate U).
  Variable fsess : nat -> list A -> lstate U -> option (list outcome * lstate U).
  Variable gcall : nat -> A -> gstate U -> outcome * gstate U.
  Variable gsess : nat -> list A -> gstate U -> list outcome * gstate U.
  Hypothesis fsess_nil : forall f s, fsess f [] s = Some ([], s).
  Hypothesis fsess_cons : forall f a r s, fsess f (a :: r) s = obind (fcall f a s) (fcontinue (fsess f r)).
  Hypothesis gsess_nil : forall f s, gsess f [] s = ([], s).
  Hypothesis gsess_cons : forall f a r s, gsess f (a :: r) s = continue (gsess f r) (gcall f a s).
  Hypothesis sim_call : forall f a s g o s1, Rel s g -> fcall f a s = Some (o, s1) -> o <> OFuel ->
    exists f1 g1, (forall f', f1 <= f' -> gcall f' a g = (o, g1)) /\ TopPost o s1 g1.

  Lemma sessions_sim : forall acts f s g os s', Rel s g -> fsess f acts s = Some (os, s') -> no_fuel os = true ->
    exists f0 g', (forall f', f0 <= f' -> gsess f' acts g = (os, g')) /\ obs (trace s') = obs (gtrace g').
  Proof.
    induction acts as [|a r IH]; intros f s g os s' R H Hn.
    - rewrite fsess_nil in H. inversion H; subst. exists 0, g. split; [intros; apply gsess_nil | apply (r_obs _ _ R)].
    - rewrite fsess_cons in H. destruct (fcall f a s) as [[o s1]|] eqn:E; cbn [obind] in H; [|discriminate].
      assert (Ho : o <> OFuel) by (intros ->; inversion H; subst; discriminate).
      destruct (sim_call _ _ _ _ _ _ R E Ho) as (f1 & g1 & G1 & P1).
      destruct o as [|e| |]; cbn [fcontinue] in H; try discriminate.
      + destruct (fsess f r s1) as [[os0 s2]|] eqn:Er; cbn [obind] in H; [|discriminate].
        inversion H; subst os s'. cbn in Hn.
        destruct (IH _ _ _ _ _ P1 Er Hn) as (f2 & g2 & G2 & Hobs).
        exists (Nat.max f1 f2), g2. split; [|exact Hobs]. intros f' Hle.
        rewrite gsess_cons, G1 by lia. cbn [continue]. rewrite G2 by lia. reflexivity.
      + inversion H; subst os s'. exists f1, g1. split; [|exact P1]. intros f' Hle. rewrite gsess_cons, G1 by lia. reflexivity.
      + congruence.
  Qed.
End SessionSim.

Section LoopSessions.
Context {U : Type}.
Variable code : nat -> signal -> nat -> prog U.
Definition gtop (a : top U) : gcall U := match a with TRun => GRun | TProg p => GProg p end.
Definition ctop (a : top U) : call U := match a with TRun => CRun | TProg p => CProg p end.
Lemma frun_is_run : forall acts f s os s', frun_session code f acts s = Some (os, s') -> run_session code f acts s = (os, s').
Proof.
  apply (sessions_is (fun f a s => exec code f (ctop a) (emit ETop s)) (run_session code)
                     (fun _ _ => eq_refl) (fun _ _ _ _ => eq_refl)
                     (fun f a s => fexec code f (ctop a) (emit ETop s)) (frun_session code)
                     (fun _ _ => eq_refl) (fun _ _ _ _ => eq_refl)).
  intros f a s [o s1]. apply fexec_is_exec.
Qed.

Lemma sim_session : forall acts f s g os s', Rel s g -> frun_session code f acts s = Some (os, s') -> no_fuel os = true ->
  exists f0 g', (forall f', f0 <= f' -> grun_session false code f' acts g = (os, g')) /\ obs (trace s') = obs (gtrace g').
Proof.
  apply (sessions_sim (fun f a s => fexec code f (ctop a) (emit ETop s)) _
                      (fun f a g => gexec false code f (gtop a) (gemit ETop g))); try reflexivity.
  intros f a s g o s1 R E Ho. pose proof (Keeps_emit2 _ _ ETop R) as [Rt _].
  destruct a as [|p]; [exact (sim_run code _ _ _ _ _ Rt E Ho) | exact (sim_top_prog code _ _ _ _ _ _ Rt E Ho)].
Qed.
End LoopSessions.

(* a sequence cut at the quit and filtered by p sees the trace only through its observable events *)
Lemma upto_obs (p : event -> bool) l : (forall e, is_obs e = false -> p e = false) ->
  filter p (upto_quit l) = filter p (upto_quit (filter is_obs l)).
Proof.
  intros Hp. induction l as [|e l IH]; [reflexivity|].
  destruct (is_obs e) eqn:Eo.
  - cbn [filter]. rewrite Eo. destruct e; try discriminate Eo; cbn [upto_quit filter]; rewrite ?IH; reflexivity.
  - cbn [filter]. rewrite Eo. destruct e; try discriminate Eo; cbn [upto_quit filter]; rewrite (Hp _ Eo); exact IH.
Qed.
Lemma seq_obs (p : event -> bool) t : (forall e, is_obs e = false -> p e = false) ->
  filter p (upto_quit (rev t)) = filter p (upto_quit (rev (obs t))).
Proof. intros Hp. unfold obs. rewrite <- filter_rev'. apply upto_obs. exact Hp. Qed.
Lemma hseq_obs t : hseq t = filter is_hm (upto_quit (rev (obs t))).
Proof. apply seq_obs. intros [] H; (discriminate H || reflexivity). Qed.
Lemma vseq_obs t : vseq t = filter is_vis (upto_quit (rev (obs t))).
Proof. apply seq_obs. intros [] H; (discriminate H || reflexivity). Qed.
Lemma hseq_vseq t : hseq t = filter is_hm (vseq t).
Proof. unfold hseq, vseq. symmetry. apply filter_filter_sub. intros [] H; try discriminate; reflexivity. Qed.
Lemma useq_vseq t : useq t = filter is_user (vseq t).
Proof. unfold useq, vseq. symmetry. apply filter_filter_sub. intros [] H; try discriminate; reflexivity. Qed.

Theorem agree_partial_gen {U} (code : nat -> signal -> nat -> prog U) fuel acts u :
  in_fragment code fuel acts u = true ->
  exists fuel', forall fuel'', fuel' <= fuel'' ->
    fst (grun_session false code fuel'' acts (ginit_state u)) = fst (run_session code fuel acts (init_state u)) /\
    vseq (gtrace (snd (grun_session false code fuel'' acts (ginit_state u)))) =
    vseq (trace (snd (run_session code fuel acts (init_state u)))).
Proof.
  intros H. unfold in_fragment in H.
  destruct (frun_session code fuel acts (init_state u)) as [[os s']|] eqn:E; [|discriminate].
  change (no_fuel os = true) in H.
  rewrite (frun_is_run code _ _ _ _ _ E).
  destruct (sim_session code _ _ _ _ _ _ (Rel_init code u) E H) as (f' & g' & G & Hobs).
  exists f'. intros f'' Hle. rewrite (G f'' Hle). cbn [fst snd].
  split; [reflexivity|]. rewrite !vseq_obs. rewrite Hobs. reflexivity.
Qed.

(* [agree_partial_gen] in the vocabulary of C20Proofs: sessions given by handler bodies and top-level actions *)
Theorem agree_partial bodies acts fuel :
  in_fragment (handler_prog bodies) fuel (map top_of acts) [] = true ->
  exists fuel', forall fuel'', fuel' <= fuel'' -> glib_obs bodies acts fuel'' = main_obs bodies acts fuel.
Proof.
  intros H. destruct (agree_partial_gen _ _ _ _ H) as (f' & Hf). exists f'. intros f'' Hle.
  destruct (Hf f'' Hle) as [A B]. apply (f_equal (filter is_hm)) in B.
  rewrite <- !hseq_vseq in B. unfold glib_obs, glib_obs_gen, main_obs.
  assert (K : forall (p : list outcome * gstate counters) (q : list outcome * lstate counters),
             fst p = fst q -> hseq (gtrace (snd p)) = hseq (trace (snd q)) ->
             (let '(os, st) := p in (os, hseq (gtrace st))) = (let '(os, st) := q in (os, hseq (trace st))))
    by (intros [] []; cbn; congruence).
  apply K; assumption.
Qed.

(* the fragment is not empty: the six scheduler scenarios are in it (and the witnesses (a)-(d) are outside) *)
Lemma example_fragment :
  in_fragment (handler_prog s_replace_screen_bodies) 200 (map top_of s_acts) [] = true /\
  in_fragment (handler_prog s_switch_screen_bodies) 200 (map top_of s_acts) [] = true /\
  in_fragment (handler_prog s_modal_in_render_bodies) 200 (map top_of s_acts) [] = true /\
  in_fragment (handler_prog s_modal_in_refresh_bodies) 200 (map top_of s_acts) [] = true /\
  in_fragment (handler_prog s_modal_refresh_and_render_bodies) 200 (map top_of s_acts) [] = true /\
  in_fragment (handler_prog s_modal_render_recursive_bodies) 200 (map top_of s_acts) [] = true /\
  in_fragment (handler_prog w_a_bodies) 200 (map top_of w_a_acts) [] = false /\
  in_fragment (handler_prog w_b_bodies) 200 (map top_of w_b_acts) [] = false /\
  in_fragment (handler_prog w_c_bodies) 200 (map top_of w_c_acts) [] = false /\
  in_fragment (handler_prog w_d_bodies) 200 (map top_of w_d_acts) [] = false.
Proof. vm_compute. repeat split. Qed.

(* the call an application action makes, on the GLib loop and in the fragment (on MainLoop: [app_call] of proofs/ScreenFacts.v) *)
Definition gapp_call (specs : nat -> screen_spec) (f : nat) (a : saction) (g : gstate sstate) : outcome * gstate sstate :=
  match a with
  | SACmds l => gexec false (screen_code specs) f (GProg (run_cmds specs 0 0 l)) (gemit ETop g)
  | SARun =>
    match st_stack (gust g), st_run_empty (gust g) with
    | [], false => (OThrow XError, gemit ETop g)
    | _, _ => gexec false (screen_code specs) f GRun (gemit ETop g)
    end
  end.
Definition fapp_call (specs : nat -> screen_spec) (f : nat) (a : saction) (s : lstate sstate)
  : option (outcome * lstate sstate) :=
  match a with
  | SACmds l => fexec (screen_code specs) f (CProg (run_cmds specs 0 0 l)) (emit ETop s)
  | SARun =>
    match st_stack (ust s), st_run_empty (ust s) with
    | [], false => None
    | _, _ => fexec (screen_code specs) f CRun (emit ETop s)
    end
  end.

Lemma fapp_is_app specs : forall acts f s os s', fapp_session specs f acts s = Some (os, s') -> app_session specs f acts s = (os, s').
Proof.
  apply (sessions_is (app_call specs) (app_session specs) (fun _ _ => eq_refl) (fun _ _ _ _ => eq_refl)
                     (fapp_call specs) (fapp_session specs) (fun _ _ => eq_refl) (fun _ _ _ _ => eq_refl)).
  intros f a s [o s1]. unfold fapp_call, app_call.
  destruct a as [l|]; [|destruct (st_stack (ust s)) as [|d st]; [destruct (st_run_empty (ust s))|]]; try discriminate.
  all: apply fexec_is_exec.
Qed.

Lemma sim_app_session specs : forall acts f s g os s', Rel s g -> fapp_session specs f acts s = Some (os, s') -> no_fuel os = true ->
  exists f0 g', (forall f', f0 <= f' -> gapp_session specs f' acts g = (os, g')) /\ obs (trace s') = obs (gtrace g').
Proof.
  apply (sessions_sim (fapp_call specs) (fapp_session specs) (gapp_call specs) (gapp_session specs)
                      (fun _ _ => eq_refl) (fun _ _ _ _ => eq_refl) (fun _ _ => eq_refl) (fun _ _ _ _ => eq_refl)).
  intros f a s g o s1 R E Ho. pose proof (Keeps_emit2 _ _ ETop R) as [Rt _]. unfold fapp_call, gapp_call in *.
  rewrite <- (r_ust _ _ R).
  destruct a as [l|]; [exact (sim_top_prog _ _ _ _ _ _ _ Rt E Ho)|].
  destruct (st_stack (ust s)) as [|d st]; [destruct (st_run_empty (ust s))|]; try discriminate;
    exact (sim_run _ _ _ _ _ _ Rt E Ho).
Qed.

(* App.initialize takes four levels of calls *)
Lemma ginit_run (code : nat -> signal -> nat -> prog sstate) u f :
  4 <= f -> gexec false code f (GProg app_initialize) (ginit_state u) = gexec false code 4 (GProg app_initialize) (ginit_state u).
Proof. intros Hf. do 4 (destruct f as [|f]; [lia|]). reflexivity. Qed.

Theorem applications_agree_partial specs specl typed quit run_empty fuel acts :
  in_app_fragment specs specl typed quit run_empty fuel acts = true ->
  exists fuel', forall fuel'', fuel' <= fuel'' ->
    fst (gapp_run_all specs specl typed quit run_empty fuel'' acts) = fst (app_run_all specs specl typed quit run_empty fuel acts) /\
    vseq (gtrace (snd (gapp_run_all specs specl typed quit run_empty fuel'' acts))) =
    vseq (trace (snd (app_run_all specs specl typed quit run_empty fuel acts))).
Proof.
  intros H. unfold in_app_fragment in H. set (u := sstate0 specl typed quit run_empty) in *.
  destruct (fexec (screen_code specs) 20 (CProg app_initialize) (init_state u)) as [[[|e| |] s1]|] eqn:E0; try discriminate.
  destruct (fapp_session specs fuel acts s1) as [[os s']|] eqn:E; [|discriminate].
  change (no_fuel os = true) in H.
  destruct (sim_top_prog _ _ _ _ _ _ _ (Rel_init (screen_code specs) u) E0 ltac:(discriminate)) as (f0 & g1 & G0 & R1).
  assert (Gi : gexec false (screen_code specs) 20 (GProg app_initialize) (ginit_state u) = (ONormal, g1)).
  { rewrite <- (G0 (Nat.max f0 4)) by lia. rewrite (ginit_run _ u 20), (ginit_run _ u (Nat.max f0 4)) by lia. reflexivity. }
  destruct (sim_app_session specs _ _ _ _ _ _ R1 E H) as (f' & g' & G & Hobs).
  exists f'. intros f'' Hle. unfold gapp_run_all, app_run_all. fold u.
  rewrite (fexec_is_exec _ _ _ _ _ _ E0), Gi.
  rewrite (fapp_is_app _ _ _ _ _ _ E), (G f'' Hle). cbn [fst snd].
  split; [reflexivity|]. rewrite !vseq_obs, Hobs. reflexivity.
Qed.

(* non-vacuity at application level.
   A real application session inside the fragment: screen 0 pushes screen 1 MODALLY from its first refresh();
   the user types "1" (delivered to the modal screen 1, whose input() answers CLOSE: the modal loop is closed and
   push_screen_modal returns), screen 0 is then drawn and asks; the user types "3" (delivered to screen 0, which
   closes: the stack is empty, the application quits).  Two screens shown, a modal push, two typed lines. *)
Definition ex_specl : list screen_spec :=
  [ {| sc_setup := []; sc_refresh := [SIfCount 1 [SPushModal 1 0] []]; sc_show := []; sc_closed := [];
       sc_input := [([49%N], ([SPush 1 0], RProcessed)); ([51%N], ([], RClose))]; sc_input_default := ([], None);
       sc_prompt_none := false; sc_input_required := true; sc_no_separator := false; sc_skip_check := false;
       sc_pages := 0; sc_answer0 := AnsNoAttr; sc_custom := []; sc_setup_cmds := [] |};
    {| sc_setup := []; sc_refresh := []; sc_show := []; sc_closed := [];
       sc_input := [([50%N], ([], RProcessed))]; sc_input_default := ([], Some RClose);
       sc_prompt_none := false; sc_input_required := true; sc_no_separator := false; sc_skip_check := false;
       sc_pages := 0; sc_answer0 := AnsNoAttr; sc_custom := []; sc_setup_cmds := [] |} ].
Definition ex_specs (n : nat) : screen_spec := nth n ex_specl default_spec.
Definition ex_typed : list (option str) := [Some [49%N]; Some [51%N]].
Definition ex_acts : list saction := [SACmds [SSchedule 0 0]; SARun].
Definition key_events (t : list event) : list event :=
  filter (fun e => match e with
                   | EUser tag _ _ => existsb (Nat.eqb tag) [T_SHOW; T_INPUT; T_MODAL_RETURN; T_CLOSED]
                   | _ => false end) (useq t).
Definition ex_expected : list event :=
  [EUser T_SHOW [1; 1] []; EUser T_INPUT [1; 0] [49%N]; EUser T_CLOSED [1; 1] []; EUser T_MODAL_RETURN [1; 1] [];
   EUser T_SHOW [0; 0] []; EUser T_INPUT [0; 0] [51%N]; EUser T_CLOSED [0; 0] []].

Lemma example_application :
  in_app_fragment ex_specs ex_specl ex_typed None false 300 ex_acts = true /\
  (let '(os, st) := app_run_all ex_specs ex_specl ex_typed None false 300 ex_acts in (os, key_events (trace st)))
    = ([ONormal; ONormal], ex_expected) /\
  (let '(os, st) := gapp_run_all ex_specs ex_specl ex_typed None false 600 ex_acts in (os, key_events (gtrace st)))
    = ([ONormal; ONormal], ex_expected).
Proof. vm_compute. repeat split. Qed.

(* C09Proofs.v — "the application stops exactly when told to, completely, and says so once":
   the session theorem (every trace of every session is accepted by the C09 monitor) and the one-step facts. *)
From SL Require Import Tac.
From RecordUpdate Require Import RecordUpdate.
From SL Require Import LoopSem LoopProg Monitors.
From SL Require Import proofs.ExecEqs proofs.C09Exec proofs.C09Base proofs.C09Passes proofs.C09Acc.
Import ListNotations.

Section S.
  Context {U : Type}.
  Variable code : nat -> signal -> nat -> prog U.

  Lemma run_never_exits s o s' : Exec code CRun s o s' -> o <> OThrow XExit.
  Proof.
    intros H. remember CRun as c eqn:E. destruct H; try discriminate E; try discriminate; auto.
  Qed.

  (* holds between two top-level calls *)
  Definition sess_inv (s : lstate U) : Prop :=
    link s /\ inv s /\ accT (trace s) = true /\ v_in_run (V (trace s)) = false.

  Lemma chk_top v : v_in_run v = false -> chk_view v ETop = true.
  Proof. intros R. unfold chk_view. rewrite R, andb_false_r. destruct (v_fq v); reflexivity. Qed.

  Lemma good_top k :
    okx k -> v_in_run (V (c_trace k)) = false ->
    good (push ETop k) /\ v_in_run (V (c_trace (push ETop k))) = false.
  Proof.
    intros ((L1 & L2 & L3) & N & A) Rn. unfold good, okx, klink. cbn [push c_trace c_levels c_fq c_quit].
    rewrite V_cons. cbn. repeat split; auto. rewrite accT_cons_view, A. apply chk_top. exact Rn.
  Qed.

  (* one top-level call from a state between calls: every event is accepted, and if the session goes on
     the state is between calls again *)
  Lemma top_call a s o s1 :
    Exec code (match a with TRun => CRun | TProg p => CProg p end) (emit ETop s) o s1 -> sess_inv s ->
    accT (trace s1) = true /\ (o = ONormal \/ o = OThrow XExit \/ o = OThrow XError -> sess_inv s1).
  Proof.
    intros E (L & I & A & Rn). apply -> (link_core s) in L. apply -> (inv_core s) in I.
    destruct (good_top (core_of s) (conj L (conj I A)) Rn) as [G0 R0].
    destruct a as [|p].
    - destruct (run_Exec code _ _ _ E G0) as ((L1 & I1 & A1) & R1). split; [exact A1|].
      apply <- (link_core s1) in L1. apply <- (inv_core s1) in I1. intros [-> | [-> | ->]].
      + exact (conj L1 (conj I1 (conj A1 (R1 eq_refl)))).
      + destruct (run_never_exits _ _ _ E eq_refl).
      + destruct (no_error_Exec code _ _ _ _ E eq_refl eq_refl).
    - destruct (good_Exec code _ _ _ _ E ltac:(discriminate) G0) as ((L1 & I1 & A1) & (R1 & _) & _).
      apply <- (link_core s1) in L1. apply <- (inv_core s1) in I1.
      split; [exact A1|]. intros _. exact (conj L1 (conj I1 (conj A1 (eq_trans R1 R0)))).
  Qed.

  Lemma session_acc fuel : forall acts s,
    sess_inv s -> accT (trace (snd (run_session code fuel acts s))) = true.
  Proof.
    intros acts s SI.
    refine (proj1 (run_sessions_inv code fuel (fun s => accT (trace s) = true) sess_inv (fun _ => True)
             (fun o => o = ONormal \/ o = OThrow XExit \/ o = OThrow XError)
             (fun s0 S0 => proj1 (proj2 (proj2 S0))) _ _ acts s (proj2 (Forall_forall _ _) (fun _ _ => I)) SI)).
    - intros [|[]| |] (B & F & K); auto; congruence.
    - intros a s0 _ S0. unfold run_call. destruct (exec code fuel _ (emit ETop s0)) as [o s1] eqn:E.
      exact (top_call _ _ _ _ (exec_Exec code _ _ _ _ _ E) S0).
  Qed.

  Lemma sess_inv_init u : sess_inv (init_state u).
  Proof.
    repeat split; try reflexivity. intros H. discriminate H.
  Qed.

  Theorem stops fuel acts u :
    ok_C09 (rev (trace (snd (run_session code fuel acts (init_state u))))) = true.
  Proof. exact (session_acc fuel acts (init_state u) (sess_inv_init u)). Qed.

  (* the counting argument, on [exec] *)
  Lemma mainloop_return f s s' :
    exec code f CMainloop s = (ONormal, s') ->
    force_quit s' = true \/
    length (levels s') + (if run_loop s' then 0 else 1) + 1 <= length (levels s) + (if run_loop s then 0 else 1).
  Proof.
    intros H. apply exec_Exec in H. destruct (force_quit s') eqn:F; [auto|right].
    exact (proj1 (proj2 (spends_elim 1 _ _ (count_Exec code _ _ _ _ H ltac:(discriminate) quiet_normal) F))).
  Qed.

  Lemma call_potential f c s o s' :
    c <> CRun -> exec code f c s = (o, s') -> o = ONormal \/ o = OThrow XError -> force_quit s' = false ->
    force_quit s = false /\
    length (levels s') + (if run_loop s' then 0 else 1) <= length (levels s) + (if run_loop s then 0 else 1) /\
    (levels s <> [] -> levels s' <> []).
  Proof.
    intros NR H Q F. apply exec_Exec in H.
    destruct (spends_elim _ _ _ (count_Exec code _ _ _ _ H NR Q) F) as (A & B & C).
    split; [exact A|]. split; [exact (Nat.le_trans _ _ _ (Nat.le_add_r _ _) B)|exact C].
  Qed.

  Lemma failing_handler f s o s' :
    (forall sg idx, exec code f (CProcessSignal sg idx) s = (o, s') -> o <> OThrow XError) /\
    (exec code f CProcLoop s = (o, s') -> o <> OThrow XError) /\
    (exec code f CMainloop s = (o, s') -> o <> OThrow XError) /\
    (exec code f CRun s = (o, s') -> o <> OThrow XError).
  Proof.
    repeat split; intros; eapply no_error_Exec; try (eapply exec_Exec; eassumption); reflexivity.
  Qed.

  Lemma failing_handler_continues f sg idx s hs hid data s2 :
    handlers_of (ps_mark sg idx s) (sg_cls sg) = Some hs -> force_quit s = false ->
    nth_error hs idx = Some (hid, data) ->
    exec code f (CProg (code hid sg data)) (emit (EHandler hid (sg_id sg) data) (ps_mark sg idx s)) = (OThrow XError, s2) ->
    let s3 := emit (EHandlerEnd hid (sg_id sg) (Some XError)) s2 in
    exec code (S f) (CProcessSignal sg idx) s =
    exec code f (CProcessSignal sg (S idx)) (do_enqueue (snd (new_signal s3 exception_spec)) (fst (new_signal s3 exception_spec))).
  Proof.
    intros Hh FQ N E s3. rewrite <- (force_quit_ps_mark sg idx s) in FQ.
    rewrite (exec_handler code f sg idx s (ps_mark sg idx s) hs hid data eq_refl Hh FQ N), E. reflexivity.
  Qed.

  Lemma fq_enqueue f sp s :
    force_quit s = true ->
    exists s', exec code (S f) (CApi (AEnqueue sp)) s = (ONormal, s') /\
               qstore s' = qstore s /\ levels s' = levels s /\
               trace s' = EDropped (next_sig s) :: ESigNew (next_sig s) (sp_cls sp) (sp_prio sp) (sp_src sp) :: trace s.
  Proof.
    intros FQ. eexists. split.
    - cbn [exec]. unfold new_signal. reflexivity.
    - unfold do_enqueue. rewrite force_quit_emit. rewrite (force_quit_set_next_sig _ s), FQ. repeat split.
  Qed.

  Lemma fq_new_loop f sp s :
    force_quit s = true ->
    exec code (S f) (CApi (ANewLoop sp)) s =
    (ONormal, emit (ESigNew (next_sig s) (sp_cls sp) (sp_prio sp) (sp_src sp)) (s <| next_sig := S (next_sig s) |>)).
  Proof.
    intros FQ. cbn [exec]. unfold new_signal. rewrite force_quit_emit, (force_quit_set_next_sig _ s), FQ. reflexivity.
  Qed.

  Lemma fq_no_handler f sg idx s o s' :
    force_quit s = true -> exec code (S f) (CProcessSignal sg idx) s = (o, s') ->
    trace s' = EDispatchEnd (sg_id sg) :: trace s \/ trace s' = EKill :: trace s.
  Proof.
    intros FQ H. cbn [exec] in H. fold (ps_mark sg idx s) in H.
    destruct (handlers_of (ps_mark sg idx s) (sg_cls sg)).
    - rewrite force_quit_ps_mark, FQ in H. injection H as <- <-. left. rewrite trace_emit, trace_ps_mark. reflexivity.
    - destruct (sg_cls sg =? CLS_EXCEPTION)%nat; injection H as <- <-; [right|left];
        rewrite trace_emit, trace_ps_mark; reflexivity.
  Qed.

  Lemma q_pop_empty q : q_empty q = true -> q_pop q = None.
  Proof. unfold q_empty, q_pop. destruct (eq_entries q); [reflexivity|discriminate]. Qed.

  Lemma do_get_blocked (s : lstate U) :
    q_empty (get_q s (active s)) = true -> ext s = [] -> do_get s = inl None.
  Proof. intros Q E. unfold do_get. rewrite (q_pop_empty _ Q), E. reflexivity. Qed.

  Lemma empty_queue_blocks f s :
    q_empty (get_q s (active s)) = true -> ext s = [] -> run_loop s = true ->
    exec code (S f) CProcLoop s = (OBlocked, s) /\
    exec code (S (S f)) CMainloop s = (OBlocked, s).
  Proof.
    intros Q E R.
    assert (P : forall g, exec code (S g) CProcLoop s = (OBlocked, s)).
    { intros g. cbn [exec]. rewrite R, (do_get_blocked _ Q E). reflexivity. }
    split; [apply P|]. change (exec code (S (S f)) CMainloop s) with
      (if run_loop s then let '(o, s1) := exec code (S f) CProcLoop s in
                          match o with ONormal => exec code (S f) CMainloop s1 | _ => (o, s1) end
       else (ONormal, if force_quit s then s else s <| run_loop := true |>)).
    rewrite R, P. reflexivity.
  Qed.
End S.

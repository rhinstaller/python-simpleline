(* C04Proofs.v -- the screen shown is always the top of an honest stack.
   The heavy lifting is proofs/ScreenLink.v ([app_accepted]); here: the statement for [chk_C04], the pure
   facts about the ideal stack, what acceptance means for a drawn screen, the link between ideal and concrete
   stack at the end of a session ([stack_link]) and through every loop-level call ([exec_link]), the examples,
   the non-vacuity of the monitor, and the session ([fs_failing_run]) that refutes the statement without
   [failing_setup_plain]; for it, that more fuel only adds to the trace of a session ([app_run_all_fuel_mono]). *)
From SL Require Import Tac.
From RecordUpdate Require Import RecordUpdate.
From SL Require Import PyInt LoopSem ScreenSem ScreenMon proofs.ExecEqs proofs.C09Exec proofs.ScreenFacts proofs.ScreenLink.
Import ListNotations.

Theorem C04_honest_stack_proof specs specl typed quit run_empty fuel acts :
  failing_setup_plain specs ->
  (forall n, specs n = nth n specl default_spec) ->
  sok chk_C04 typed (rev (trace (snd (app_run_all specs specl typed quit run_empty fuel acts)))) = true.
Proof.
  intros Hpl _. apply acc_sok. eapply acc_weaken; [|apply (app_accepted false); [exact Hpl | discriminate]].
  intros w e H. unfold chkb in H. apply andb_true_iff in H. exact (proj1 H).
Qed.

Definition mk_entry (i scr args m : nat) : entry :=
  {| en_id := i; en_scr := scr; en_args := args; en_modal := (m =? 1)%nat |}.

Lemma ideal_append w i scr args m t :
  sw_stack (sworld_step w (EUser T_STACK [K_APPEND; i; scr; args; m] t)) = mk_entry i scr args m :: sw_stack w.
Proof. rewrite stack_step. reflexivity. Qed.

Lemma ideal_add_first w i scr args m t :
  sw_stack (sworld_step w (EUser T_STACK [K_ADD_FIRST; i; scr; args; m] t)) = sw_stack w ++ [mk_entry i scr args m].
Proof. rewrite stack_step. reflexivity. Qed.

Lemma ideal_pop w i scr args m t :
  sw_stack (sworld_step w (EUser T_STACK [K_POP; i; scr; args; m] t)) = tl (sw_stack w).
Proof. rewrite stack_step. reflexivity. Qed.

Lemma ideal_other w e :
  match e with EUser tag _ _ => tag <> T_STACK | _ => True end -> sw_stack (sworld_step w e) = sw_stack w.
Proof.
  intros H. rewrite stack_step. destruct e; try reflexivity. apply Nat.eqb_neq in H. cbn [stack_after]. rewrite H. reflexivity.
Qed.

Lemma beneath_add_first w i scr args m t : sw_stack w <> [] ->
  tl (sw_stack (sworld_step w (EUser T_STACK [K_ADD_FIRST; i; scr; args; m] t))) = tl (sw_stack w) ++ [mk_entry i scr args m].
Proof. intros H. rewrite ideal_add_first. destruct (sw_stack w); [congruence | reflexivity]. Qed.

Lemma top_add_first w i scr args m t : sw_stack w <> [] ->
  top_entry (sworld_step w (EUser T_STACK [K_ADD_FIRST; i; scr; args; m] t)) = top_entry w.
Proof. intros H. unfold top_entry. rewrite ideal_add_first. destruct (sw_stack w); [congruence | reflexivity]. Qed.

Lemma chk04_show w a tx : chk_C04 w (EUser T_SHOW a tx) = true ->
  exists e rest, sw_stack w = e :: rest /\ en_id e = nth0 a 0 /\ en_scr e = nth0 a 1.
Proof.
  unfold chk_C04, top_entry. intros H.
  cbn [Nat.eqb T_SHOW T_STACK T_OP T_SETUP T_REFRESH T_SETUP_BEGIN orb negb andb] in H. rewrite orb_false_r in H.
  destruct (sw_stack w) as [|e rest]; [discriminate|].
  apply andb_true_iff in H as [H1 H2]. apply Nat.eqb_eq in H1, H2. eauto.
Qed.

Lemma chk04_pop w i scr args m tx : chk_C04 w (EUser T_STACK [K_POP; i; scr; args; m] tx) = true ->
  exists e rest, sw_stack w = e :: rest /\ en_id e = i.
Proof.
  unfold chk_C04, top_entry. intros H. cbn [Nat.eqb T_STACK nth0 nth K_POP K_APPEND K_ADD_FIRST] in H.
  destruct (sw_stack w) as [|e rest]; [discriminate|].
  apply andb_true_iff in H as [H1 _]. apply Nat.eqb_eq in H1. eauto.
Qed.

Lemma stack_link specs specl typed quit run_empty fuel acts :
  failing_setup_plain specs ->
  Forall finished (fst (app_run_all specs specl typed quit run_empty fuel acts)) ->
  slink typed (snd (app_run_all specs specl typed quit run_empty fuel acts)).
Proof. intros. apply (app_slink false); [assumption | discriminate | assumption]. Qed.

Lemma exec_link typed specs Ps pf f c s o s' :
  failing_setup_plain specs ->
  is_prog c = false -> Inv typed false 0 Ps pf s ->
  exec (screen_code specs) f c s = (o, s') ->
  match o with
  | OFuel | OBlocked => acc_tr (chkb false) typed (trace s')
  | _ => Inv typed false 0 Ps pf s'
  end.
Proof.
  intros Hpl Hc HI E.
  pose proof (exec_inv typed false specs Hpl 0 ltac:(discriminate) Ps pf f c s o s' Hc HI E) as P.
  destruct o as [|x| |]; exact P.
Qed.

Local Open Scope N_scope.
Definition key (c : N) : str := [c].
(* a hub: 'p' pushes a modal dialog, 's' pushes the shy screen, 'q' closes *)
Definition ex_hub : screen_spec :=
  {| sc_setup := []; sc_refresh := []; sc_show := []; sc_closed := [SMark 1];
     sc_input := [(key 112, ([SPushModal 1 7], RRedraw)); (key 115, ([SPush 3 0], RProcessed)); (key 113, ([], RClose))];
     sc_input_default := ([], None); sc_prompt_none := false; sc_input_required := true;
     sc_no_separator := false; sc_skip_check := false; sc_pages := 0; sc_answer0 := AnsNoAttr; sc_custom := []; sc_setup_cmds := [] |}.
(* a dialog that replaces itself by a second one on 'r' *)
Definition ex_dialog : screen_spec :=
  {| sc_setup := []; sc_refresh := []; sc_show := []; sc_closed := [SMark 2];
     sc_input := [(key 114, ([SReplace 2 5], RProcessed))];
     sc_input_default := ([], None); sc_prompt_none := false; sc_input_required := true;
     sc_no_separator := false; sc_skip_check := false; sc_pages := 0; sc_answer0 := AnsNoAttr; sc_custom := []; sc_setup_cmds := [] |}.
(* the second dialog: 'c' (the global key) closes it *)
Definition ex_dialog2 : screen_spec :=
  {| sc_setup := []; sc_refresh := []; sc_show := []; sc_closed := [SMark 3];
     sc_input := []; sc_input_default := ([], None); sc_prompt_none := false; sc_input_required := true;
     sc_no_separator := true; sc_skip_check := false; sc_pages := 0; sc_answer0 := AnsNoAttr; sc_custom := []; sc_setup_cmds := [] |}.
(* a screen whose setup fails the first time *)
Definition ex_shy : screen_spec :=
  {| sc_setup := [false; true]; sc_refresh := []; sc_show := []; sc_closed := [];
     sc_input := []; sc_input_default := ([], None); sc_prompt_none := false; sc_input_required := true;
     sc_no_separator := false; sc_skip_check := false; sc_pages := 0; sc_answer0 := AnsNoAttr; sc_custom := []; sc_setup_cmds := [] |}.
Definition ex_specl : list screen_spec := [ex_hub; ex_dialog; ex_dialog2; ex_shy].
Definition ex_specs (n : nat) : screen_spec := nth n ex_specl default_spec.

(* the (entry id, screen) of every draw *)
Definition shows (t : list event) : list (nat * nat) :=
  flat_map (fun e => match e with
                     | EUser tag [i; s] _ => if (tag =? T_SHOW)%nat then [(i, s)] else []
                     | _ => [] end) t.

(* hub, 'p': modal dialog, 'r': replaced by the second dialog, 'c': closed, back to the hub, 'q': the end *)
Definition ex_typed1 : list (option str) := [Some (key 112); Some (key 114); Some (key 99); Some (key 113)].
Definition ex_acts1 : list saction := [SACmds [SSchedule 0 0]; SARun].
Definition ex_trace1 : list event :=
  rev (trace (snd (app_run_all ex_specs ex_specl ex_typed1 None false 400 ex_acts1))).

(* the shy screen is scheduled first (on top), its setup fails: discarded, the hub is drawn; 's' pushes it
   again, this time it is set up and drawn; 'c' closes it; 'q' *)
Definition ex_typed2 : list (option str) := [Some (key 115); Some (key 99); Some (key 113)].
Definition ex_acts2 : list saction := [SACmds [SSchedule 3 4; SSchedule 0 0]; SARun].
Definition ex_trace2 : list event :=
  rev (trace (snd (app_run_all ex_specs ex_specl ex_typed2 None false 400 ex_acts2))).

Local Close Scope N_scope.
(* two entries, the second pushed on top of the first; then the one beneath is drawn *)
Definition bad_show_beneath : list event :=
  [ETop; EUser T_OP [O_SCHEDULE; 0; 0] []; EUser T_STACK [K_ADD_FIRST; 0; 0; 0; 0] [];
   EUser T_OP [O_PUSH; 1; 0] []; EUser T_STACK [K_APPEND; 1; 1; 0; 0] [];
   EHandler H_RENDER 0 0; EUser T_SHOW [0; 0] []].
(* the same with the draw of the top entry is fine *)
Definition good_show_top : list event :=
  [ETop; EUser T_OP [O_SCHEDULE; 0; 0] []; EUser T_STACK [K_ADD_FIRST; 0; 0; 0; 0] [];
   EUser T_OP [O_PUSH; 1; 0] []; EUser T_STACK [K_APPEND; 1; 1; 0; 0] [];
   EHandler H_RENDER 0 0; EUser T_SHOW [1; 1] []].
(* a stack primitive nobody announced *)
Definition bad_unannounced_pop : list event :=
  [ETop; EUser T_OP [O_SCHEDULE; 0; 0] []; EUser T_STACK [K_ADD_FIRST; 0; 0; 0; 0] [];
   EUser T_STACK [K_POP; 0; 0; 0; 0] []].
(* a replace that does not inherit the modality of the entry it popped *)
Definition bad_replace_modality : list event :=
  [ETop; EUser T_OP [O_PUSH_MODAL; 0; 0] []; EUser T_STACK [K_APPEND; 0; 0; 0; 1] [];
   EUser T_OP [O_REPLACE; 1; 0] []; EUser T_STACK [K_POP; 0; 0; 0; 1] []; EUser T_STACK [K_APPEND; 1; 1; 0; 0] []].

(* more fuel extends an application session: what was emitted with less fuel was emitted first *)
Lemma app_call_trace_grows specs f a s : trace_grows s (snd (app_call specs f a s)).
Proof.
  assert (E : forall c, trace_grows s (snd (exec (screen_code specs) f c (emit ETop s)))).
  { intros c. eapply tg_trans; [apply tg_emit, tg_refl|]. eapply exec_trace_grows, surjective_pairing. }
  destruct a; cbn [app_call]; [apply E|].
  destruct (st_stack (ust s)), (st_run_empty (ust s)); first [apply E|apply tg_emit, tg_refl].
Qed.

Lemma app_session_trace_grows specs f acts s : trace_grows s (snd (app_session specs f acts s)).
Proof.
  apply (app_sessions_keep specs f (trace_grows s) (fun _ => True)); [|apply Forall_forall; auto|apply tg_refl].
  intros a s1 _ G. exact (tg_trans _ _ _ G (app_call_trace_grows specs f a s1)).
Qed.

Lemma app_call_fuel_mono specs f f' a s : f <= f' -> extends (app_call specs f a s) (app_call specs f' a s).
Proof.
  intros L. destruct a; cbn [app_call]; [apply exec_fuel_mono, L|].
  destruct (st_stack (ust s)), (st_run_empty (ust s)); first [apply exec_fuel_mono, L|apply extends_refl].
Qed.

Lemma app_session_fuel_mono specs f f' : f <= f' -> forall acts s,
  trace_grows (snd (app_session specs f acts s)) (snd (app_session specs f' acts s)).
Proof.
  intros L. induction acts as [|a r IH]; intros s; [apply tg_refl|]. rewrite !app_session_cons.
  destruct (app_call_fuel_mono specs f f' a s L) as [E G].
  destruct (app_call specs f a s) as [o s1], (app_call specs f' a s) as [o' s1']. cbn [fst snd] in E, G.
  rewrite !snd_continue. destruct o as [|[]| |]; try (injection (E ltac:(discriminate)) as -> ->; first [apply tg_refl|apply IH]).
  (* the call ran out of fuel: with more fuel it and the rest of the session only add to the trace *)
  apply (tg_trans _ _ _ G). destruct o' as [|[]| |]; first [apply tg_refl|apply app_session_trace_grows].
Qed.

Lemma app_run_all_fuel_mono specs specl typed quit run_empty f f' acts : f <= f' ->
  trace_grows (snd (app_run_all specs specl typed quit run_empty f acts))
              (snd (app_run_all specs specl typed quit run_empty f' acts)).
Proof. intros L. unfold app_run_all. destruct (exec _ 20 _ _) as [o s1]. apply app_session_fuel_mono, L. Qed.

(* a setup() that pushes a screen and then reports failure.
   Screen 0: `def setup(self, args): ScreenHandler.push_screen(screen1); return <result>`; screen 1 is plain.
   Screen 0 is scheduled and the application runs; the user types 'c' twice. *)
Definition fs_screen (setup : list bool) : screen_spec :=
  {| sc_setup := setup; sc_refresh := []; sc_show := []; sc_closed := [];
     sc_input := []; sc_input_default := ([], None); sc_prompt_none := false; sc_input_required := true;
     sc_no_separator := false; sc_skip_check := false; sc_pages := 0; sc_answer0 := AnsNoAttr; sc_custom := [];
     sc_setup_cmds := [SPush 1 0] |}.
Definition fs_specl (setup : list bool) : list screen_spec := [fs_screen setup; default_spec].
Definition fs_specs (setup : list bool) (n : nat) : screen_spec := nth n (fs_specl setup) default_spec.
Definition fs_typed : list (option str) := [Some [99%N]; Some [99%N]].
Definition fs_acts : list saction := [SACmds [SSchedule 0 0]; SARun].
Definition fs_fuel : nat := 300.

(* the setup reports failure: _process_screen pops "the entry whose setup failed" — but the top of the stack is now the
   screen that setup() pushed; that one is discarded, the failed entry stays (and is set up again on the next redraw,
   for ever).  The honest-stack acceptor rejects the pop *)
(* The failing session runs until the fuel is gone, so its trace is long; but everything this file and
   proofs/C08Proofs.v say about it shows in its first 28 events, which are those of the same session with fuel 19:
   more fuel only adds to a trace ([app_run_all_fuel_mono]), and a trace whose beginning is rejected is rejected. *)
Lemma fs_failing_run :
  let t := rev (trace (snd (app_run_all (fs_specs [false]) (fs_specl [false]) fs_typed None false fs_fuel fs_acts))) in
  sok chk_C04 fs_typed t = false /\ sok chk_C08 fs_typed t = false /\
  filter (fun e => match e with EUser g _ _ => (g =? T_SETUP)%nat || (g =? T_SETUP_BEGIN)%nat || (g =? T_STACK)%nat | _ => false end)
         (firstn 22 t) =
  [EUser T_STACK [K_ADD_FIRST; 0; 0; 0; 0] []; EUser T_SETUP_BEGIN [0; 0; 0] []; EUser T_STACK [K_APPEND; 1; 1; 0; 0] [];
   EUser T_SETUP [0; 0; 0; 0] []; EUser T_STACK [K_POP; 1; 1; 0; 0] []].
Proof.
  pose (run := fun f => rev (trace (snd (app_run_all (fs_specs [false]) (fs_specl [false]) fs_typed None false f fs_acts)))).
  assert (S : let t := run 19 in
    sok chk_C04 fs_typed t = false /\ sok chk_C08 fs_typed t = false /\ (22 <=? length t) = true /\
    filter (fun e => match e with EUser g _ _ => (g =? T_SETUP)%nat || (g =? T_SETUP_BEGIN)%nat || (g =? T_STACK)%nat | _ => false end)
           (firstn 22 t) =
    [EUser T_STACK [K_ADD_FIRST; 0; 0; 0; 0] []; EUser T_SETUP_BEGIN [0; 0; 0] []; EUser T_STACK [K_APPEND; 1; 1; 0; 0] [];
     EUser T_SETUP [0; 0; 0; 0] []; EUser T_STACK [K_POP; 1; 1; 0; 0] []]) by (vm_compute; repeat split).
  destruct S as (S4 & S8 & SL & SF). apply Nat.leb_le in SL.
  destruct (app_run_all_fuel_mono (fs_specs [false]) (fs_specl [false]) fs_typed None false 19 fs_fuel fs_acts) as [tr E];
    [unfold fs_fuel; lia|].
  cbv zeta. rewrite E, rev_app_distr. fold (run 19).
  split; [exact (sok_prefix_false _ _ _ _ S4)|split; [exact (sok_prefix_false _ _ _ _ S8)|]].
  rewrite firstn_app. replace (22 - length (run 19)) with 0 by lia. rewrite firstn_O, app_nil_r. exact SF.
Qed.

Example C04_failed_setup_after_push_refuted :
  sok chk_C04 fs_typed (rev (trace (snd (app_run_all (fs_specs [false]) (fs_specl [false]) fs_typed None false fs_fuel fs_acts)))) = false.
Proof. exact (proj1 fs_failing_run). Qed.

(* the same session with a setup() that succeeds is accepted, runs to its end, and draws the pushed screen, then —
   after it is closed — the screen whose setup() pushed it *)
Example C04_setup_push_accepted :
  sok chk_C04 fs_typed (rev (trace (snd (app_run_all (fs_specs []) (fs_specl []) fs_typed None false fs_fuel fs_acts)))) = true /\
  fst (app_run_all (fs_specs []) (fs_specl []) fs_typed None false fs_fuel fs_acts) = [ONormal; ONormal] /\
  shows (rev (trace (snd (app_run_all (fs_specs []) (fs_specl []) fs_typed None false fs_fuel fs_acts)))) = [(1, 1); (0, 0)].
Proof. vm_compute. repeat split. Qed.

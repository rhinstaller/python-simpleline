(* ContainersProofs.v — C13: the ordering maps of the list containers, the row heights and the
   refusal conditions of [render] on a [WList]; C16: fuel only bounds the nesting depth, so that
   [render_tree] unfolds one level at a time ([render_tree_eq]); C12: a window is its title block
   followed by its items' renders.  (Geometry: ContainersGeom.v; cells and the width bound of a list:
   ContainersBlank.v; width of whole trees: ContainersFinal.v.) *)
From SL Require Import Tac proofs.ListFacts.
From Coq Require Import Permutation Sorted.
From SL Require Import PyInt Widget TextWrap KeyPattern Containers proofs.WidgetProofs.
Import ListNotations.

Lemma nth_error_seq_inv a n r x : nth_error (seq a n) r = Some x -> r < n /\ x = a + r.
Proof.
  intros H. assert (Hr : r < n).
  { rewrite <- (seq_length n a). apply nth_error_Some. congruence. }
  split; [exact Hr|]. rewrite nth_error_seq in H by exact Hr. congruence.
Qed.

Lemma filter_seq_sorted p a n : StronglySorted lt (filter p (seq a n)).
Proof.
  revert a. induction n as [|n IH]; intros a; cbn [seq filter].
  - constructor.
  - destruct (p a).
    + constructor; [apply IH|]. apply Forall_forall. intros x Hx.
      apply filter_In in Hx. destruct Hx as [Hx _]. apply in_seq in Hx. lia.
    + apply IH.
Qed.

Lemma classify_step (f : nat -> nat) c l :
  Permutation (filter (fun i => f i <? c) l ++ filter (fun i => f i =? c) l) (filter (fun i => f i <? S c) l).
Proof.
  induction l as [|x l IH]; cbn [filter app]; [constructor|].
  destruct (f x <? c) eqn:E1; destruct (f x =? c) eqn:E2; destruct (f x <? S c) eqn:E3;
    try (exfalso; lia).
  - cbn [app]. now constructor.
  - symmetry. apply Permutation_cons_app. symmetry. exact IH.
  - exact IH.
Qed.

Lemma classify_perm (f : nat -> nat) l c :
  Permutation (concat (map (fun k => filter (fun i => f i =? k) l) (seq 0 c))) (filter (fun i => f i <? c) l).
Proof.
  induction c as [|c IH].
  - cbn. rewrite filter_none; [constructor|]. intros x _. lia.
  - rewrite seq_S, map_app, concat_app. cbn [map concat Nat.add]. rewrite app_nil_r.
    eapply Permutation_trans; [apply Permutation_app_tail; exact IH|]. apply classify_step.
Qed.

Lemma div_add_small n c d : d <= c -> 0 < c ->
  (n + d) / c = n / c + (if c <=? n mod c + d then 1 else 0).
Proof.
  intros Hd Hc.
  pose proof (Nat.div_mod n c ltac:(lia)) as Hdm.
  pose proof (Nat.mod_upper_bound n c ltac:(lia)) as Hub.
  revert Hdm Hub. generalize (n / c) (n mod c). intros q m Hdm Hub.
  symmetry. destruct (Nat.leb_spec c (m + d)).
  - apply (Nat.div_unique _ _ _ (m + d - c)); lia.
  - apply (Nat.div_unique _ _ _ (m + d)); lia.
Qed.

(* row container: column k holds k, k+c, k+2c, ...  The number of items in column k among the
   first n is (n + (c-1-k)) / c; one more item changes it exactly when n mod c = k. *)
Lemma row_column_explicit c k n : k < c ->
  filter (fun i => i mod c =? k) (seq 0 n) = map (fun r => r * c + k) (seq 0 ((n + c - 1 - k) / c)).
Proof.
  intros Hk. induction n as [|n IH].
  - cbn [seq filter]. rewrite Nat.div_small by lia. reflexivity.
  - rewrite seq_S, filter_app, IH, Nat.add_0_l. cbn [filter].
    replace (S n + c - 1 - k) with (n + (c - k)) by lia.
    replace (n + c - 1 - k) with (n + (c - 1 - k)) by lia.
    rewrite !div_add_small by lia.
    pose proof (Nat.div_mod n c ltac:(lia)) as Hdm.
    revert Hdm. generalize (n / c) (n mod c). intros q m Hdm.
    destruct (Nat.eqb_spec m k) as [E|E];
      destruct (Nat.leb_spec c (m + (c - k))); destruct (Nat.leb_spec c (m + (c - 1 - k))); try lia.
    + rewrite Nat.add_0_r, Nat.add_1_r, seq_S, map_app. cbn [map Nat.add]. do 2 f_equal. lia.
    + now rewrite app_nil_r.
    + now rewrite app_nil_r.
Qed.

(* column container: column k holds the consecutive items k*p .. (k+1)*p-1 (those below n) *)
Lemma col_column_explicit p k n : 0 < p ->
  filter (fun i => i / p =? k) (seq 0 n) = seq (k * p) (Nat.min n (k * p + p) - k * p).
Proof.
  intros Hp. induction n as [|n IH].
  - reflexivity.
  - rewrite seq_S, filter_app, IH, Nat.add_0_l. cbn [filter].
    pose proof (Nat.div_mod n p ltac:(lia)) as Hdm.
    pose proof (Nat.mod_upper_bound n p ltac:(lia)) as Hub.
    set (q := n / p) in *. set (m := n mod p) in *.
    destruct (q =? k) eqn:E.
    + apply Nat.eqb_eq in E. subst k.
      replace (Nat.min (S n) (q * p + p) - q * p) with (S (n - q * p)) by lia.
      replace (Nat.min n (q * p + p) - q * p) with (n - q * p) by lia.
      rewrite seq_S. f_equal. f_equal. lia.
    + apply Nat.eqb_neq in E. rewrite app_nil_r. f_equal.
      destruct (Nat.lt_ge_cases q k) as [Hlt|Hge].
      * assert (p * S q <= p * k) by (apply Nat.mul_le_mono_l; lia). lia.
      * assert (p * S k <= p * q) by (apply Nat.mul_le_mono_l; lia). lia.
Qed.

Lemma ceil_div_covers n c : 0 < c -> n <= ceil_div n c * c.
Proof.
  intros Hc. unfold ceil_div.
  pose proof (Nat.div_mod (n + c - 1) c ltac:(lia)) as Hdm.
  pose proof (Nat.mod_upper_bound (n + c - 1) c ltac:(lia)) as Hub.
  lia.
Qed.

Lemma ceil_div_pos n c : 0 < c -> 0 < n -> 0 < ceil_div n c.
Proof.
  intros Hc Hn. unfold ceil_div. apply Nat.div_str_pos. lia.
Qed.

Lemma omap_row_length n c : length (ordered_map_row n c) = c.
Proof. unfold ordered_map_row. now rewrite map_length, seq_length. Qed.

Lemma omap_col_length n c : length (ordered_map_col n c) = c.
Proof. unfold ordered_map_col. now rewrite map_length, seq_length. Qed.

Lemma nth_map_seq {A} (g : nat -> A) c k d : k < c -> nth k (map g (seq 0 c)) d = g k.
Proof.
  intros H. apply nth_error_nth. rewrite nth_error_map, nth_error_seq by exact H. reflexivity.
Qed.

Lemma nth_filter_seq_sorted (p : nat -> nat -> bool) n c k :
  StronglySorted lt (nth k (map (fun k => filter (p k) (seq 0 n)) (seq 0 c)) []).
Proof.
  destruct (Nat.lt_ge_cases k c) as [H|H].
  - rewrite nth_map_seq by exact H. apply filter_seq_sorted.
  - rewrite nth_overflow by (rewrite map_length, seq_length; exact H). constructor.
Qed.

Lemma omap_row_nth n c k : k < c ->
  nth k (ordered_map_row n c) [] = filter (fun i => i mod c =? k) (seq 0 n).
Proof. intros H. unfold ordered_map_row. now rewrite nth_map_seq. Qed.

Lemma omap_col_nth n c k : k < c ->
  nth k (ordered_map_col n c) [] = filter (fun i => i / ceil_div n c =? k) (seq 0 n).
Proof. intros H. unfold ordered_map_col. now rewrite nth_map_seq. Qed.

Lemma order_row_position n c i : 0 < c -> i < n ->
  nth_error (nth (i mod c) (ordered_map_row n c) []) (i / c) = Some i.
Proof.
  intros Hc Hi.
  pose proof (Nat.div_mod i c ltac:(lia)) as Hdm.
  pose proof (Nat.mod_upper_bound i c ltac:(lia)) as Hub.
  rewrite omap_row_nth by exact Hub. rewrite row_column_explicit by exact Hub.
  rewrite nth_error_map. set (q := i / c) in *. set (m := i mod c) in *.
  assert (Hq : q < (n + c - 1 - m) / c).
  { apply Nat.div_le_lower_bound; lia. }
  rewrite nth_error_seq by exact Hq. cbn [option_map Nat.add]. f_equal. lia.
Qed.

Lemma order_row_position_inv n c k r i : k < c ->
  nth_error (nth k (ordered_map_row n c) []) r = Some i -> i < n /\ i mod c = k /\ i / c = r.
Proof.
  intros Hk H. rewrite omap_row_nth in H by exact Hk.
  assert (Hin : i < n).
  { apply nth_error_In, filter_In in H. destruct H as [H _]. apply in_seq in H. lia. }
  rewrite row_column_explicit, nth_error_map in H by exact Hk.
  destruct (nth_error (seq 0 ((n + c - 1 - k) / c)) r) as [r'|] eqn:E; [|discriminate].
  apply nth_error_seq_inv in E. destruct E as [_ ->]. cbn in H. injection H as <-.
  split; [exact Hin|]. split.
  - symmetry. apply (Nat.mod_unique _ _ r); lia.
  - symmetry. apply (Nat.div_unique _ _ _ k); lia.
Qed.

Lemma order_row_partition n c : 0 < c -> Permutation (concat (ordered_map_row n c)) (seq 0 n).
Proof.
  intros Hc. unfold ordered_map_row.
  eapply Permutation_trans; [apply (classify_perm (fun i => i mod c))|].
  rewrite filter_all; [apply Permutation_refl|].
  intros x _. apply Nat.ltb_lt. apply Nat.mod_upper_bound. lia.
Qed.

Lemma order_col_position n c i : 0 < c -> i < n ->
  let p := ceil_div n c in
  nth_error (nth (i / p) (ordered_map_col n c) []) (i mod p) = Some i.
Proof.
  intros Hc Hi p.
  assert (Hp : 0 < p) by (apply ceil_div_pos; lia).
  pose proof (ceil_div_covers n c Hc) as Hcov. fold p in Hcov.
  pose proof (Nat.div_mod i p ltac:(lia)) as Hdm.
  pose proof (Nat.mod_upper_bound i p ltac:(lia)) as Hub.
  assert (Hk : i / p < c) by (apply Nat.div_lt_upper_bound; lia).
  rewrite omap_col_nth by exact Hk. fold p. rewrite col_column_explicit by exact Hp.
  set (q := i / p) in *. set (m := i mod p) in *.
  rewrite nth_error_seq by lia. f_equal. lia.
Qed.

Lemma order_col_position_inv n c k r i : k < c ->
  let p := ceil_div n c in
  nth_error (nth k (ordered_map_col n c) []) r = Some i -> i < n /\ i / p = k /\ i mod p = r.
Proof.
  intros Hk p H. rewrite omap_col_nth in H by exact Hk. fold p in H.
  assert (Hin : i < n).
  { apply nth_error_In, filter_In in H. destruct H as [H _]. apply in_seq in H. lia. }
  assert (Hp : 0 < p) by (apply ceil_div_pos; lia).
  rewrite col_column_explicit in H by exact Hp.
  apply nth_error_seq_inv in H. destruct H as [Hr ->].
  split; [exact Hin|]. split.
  - symmetry. apply (Nat.div_unique _ _ _ r); lia.
  - symmetry. apply (Nat.mod_unique _ _ k); lia.
Qed.

Lemma concat_col_ranges n p c : 0 < p ->
  concat (map (fun k => seq (k * p) (Nat.min n (k * p + p) - k * p)) (seq 0 c)) = seq 0 (Nat.min n (c * p)).
Proof.
  intros Hp. induction c as [|c IH].
  - cbn. now rewrite Nat.min_0_r.
  - rewrite seq_S, map_app, concat_app, IH. cbn [map concat Nat.add]. rewrite app_nil_r.
    destruct (Nat.le_gt_cases n (c * p)) as [Hle|Hgt].
    + replace (Nat.min n (c * p + p) - c * p) with 0 by lia. cbn [seq]. rewrite app_nil_r.
      f_equal. cbn [Nat.mul]. lia.
    + replace (Nat.min n (c * p)) with (c * p) by lia.
      replace (Nat.min n (S c * p)) with (c * p + (Nat.min n (c * p + p) - c * p)) by (cbn [Nat.mul]; lia).
      now rewrite seq_app.
Qed.

Lemma order_col_concat n c : 0 < c -> concat (ordered_map_col n c) = seq 0 n.
Proof.
  intros Hc. destruct n as [|n].
  - unfold ordered_map_col. cbn [seq filter]. induction (seq 0 c) as [|x l IH]; [reflexivity|exact IH].
  - assert (Hp : 0 < ceil_div (S n) c) by (apply ceil_div_pos; lia).
    unfold ordered_map_col. cbv zeta.
    rewrite (map_ext _ (fun k => seq (k * ceil_div (S n) c)
                (Nat.min (S n) (k * ceil_div (S n) c + ceil_div (S n) c) - k * ceil_div (S n) c))).
    + rewrite concat_col_ranges by exact Hp.
      pose proof (ceil_div_covers (S n) c Hc). f_equal. lia.
    + intros k. apply col_column_explicit. exact Hp.
Qed.

Lemma perm_seq_count l n i : Permutation l (seq 0 n) -> i < n -> count_occ Nat.eq_dec l i = 1.
Proof.
  intros HP Hi. rewrite (Permutation_count_occ Nat.eq_dec) in HP. rewrite HP.
  assert (Hnd : NoDup (seq 0 n)) by apply seq_NoDup.
  rewrite (NoDup_count_occ' Nat.eq_dec) in Hnd. apply Hnd. apply in_seq. lia.
Qed.

Definition row_items (omap : list (list nat)) (r : nat) : list nat :=
  flat_map (fun col => match nth_error col r with Some i => [i] | None => [] end) omap.

Definition cell_h (col hs : list nat) (r : nat) : nat :=
  match nth_error col r with Some i => nth i hs 0 | None => 0 end.

Lemma bump_length acc r h : length (bump acc r h) = Nat.max (length acc) (S r).
Proof.
  revert acc. induction r as [|r IH]; intros [|x acc]; cbn [bump length]; try rewrite IH; cbn [length]; lia.
Qed.

Lemma bump_nth acc r h j :
  nth j (bump acc r h) 0 = if j =? r then Nat.max (nth j acc 0) h else nth j acc 0.
Proof.
  revert acc j. induction r as [|r IH]; intros [|x acc] [|j]; cbn [bump nth Nat.eqb]; try reflexivity.
  - destruct j; reflexivity.
  - rewrite IH. destruct (j =? r); destruct j; reflexivity.
  - apply IH.
Qed.

Lemma cell_h_nil hs r : cell_h [] hs r = 0.
Proof. unfold cell_h. destruct r; reflexivity. Qed.

Lemma lines_col_nth hs col : forall s acc j,
  nth j (lines_col col s hs acc) 0 =
  Nat.max (nth j acc 0) (if s <=? j then cell_h col hs (j - s) else 0).
Proof.
  induction col as [|i col IH]; intros s acc j; cbn [lines_col].
  - rewrite cell_h_nil. destruct (s <=? j); lia.
  - rewrite IH, bump_nth.
    destruct (j =? s) eqn:E1; destruct (S s <=? j) eqn:E2; destruct (s <=? j) eqn:E3; try (exfalso; lia).
    + replace (j - s) with 0 by lia. unfold cell_h. cbn [nth_error]. lia.
    + replace (j - s) with (S (j - S s)) by lia. unfold cell_h. cbn [nth_error]. lia.
    + lia.
Qed.

Lemma lines_col_length hs col : forall s acc,
  length (lines_col col s hs acc) =
  Nat.max (length acc) (match col with [] => 0 | _ => s + length col end).
Proof.
  induction col as [|i col IH]; intros s acc; cbn [lines_col].
  - lia.
  - rewrite IH, bump_length. destruct col; cbn [length]; lia.
Qed.

Lemma fold_lines_nth hs omap : forall acc j,
  nth j (fold_left (fun acc col => lines_col col 0 hs acc) omap acc) 0 =
  Nat.max (nth j acc 0) (list_max (map (fun col => cell_h col hs j) omap)).
Proof.
  induction omap as [|col omap IH]; intros acc j; cbn [fold_left map list_max fold_right].
  - lia.
  - rewrite IH, lines_col_nth. cbn [Nat.leb]. rewrite Nat.sub_0_r.
    change (fold_right Nat.max 0 (map (fun col0 => cell_h col0 hs j) omap))
      with (list_max (map (fun col0 => cell_h col0 hs j) omap)). lia.
Qed.

Lemma fold_lines_length hs omap : forall acc,
  length (fold_left (fun acc col => lines_col col 0 hs acc) omap acc) =
  Nat.max (length acc) (list_max (map (@length nat) omap)).
Proof.
  induction omap as [|col omap IH]; intros acc; cbn [fold_left map list_max fold_right].
  - lia.
  - rewrite IH, lines_col_length.
    change (fold_right Nat.max 0 (map (@length nat) omap)) with (list_max (map (@length nat) omap)).
    destruct col; cbn [length]; lia.
Qed.

Lemma cells_are_row_items hs omap r :
  list_max (map (fun col => cell_h col hs r) omap) = list_max (map (fun i => nth i hs 0) (row_items omap r)).
Proof.
  unfold row_items. induction omap as [|col omap IH]; [reflexivity|].
  cbn [map flat_map]. rewrite map_app, list_max_app, <- IH. unfold cell_h at 1.
  destruct (nth_error col r) as [i|]; unfold list_max; cbn [map fold_right]; lia.
Qed.

Lemma row_heights_max omap hs r :
  nth r (lines_per_every_row omap hs) 0 = list_max (map (fun i => nth i hs 0) (row_items omap r)).
Proof.
  unfold lines_per_every_row. rewrite fold_lines_nth, cells_are_row_items.
  destruct r; cbn [nth]; lia.
Qed.

Lemma row_heights_count omap hs :
  length (lines_per_every_row omap hs) = list_max (map (@length nat) omap).
Proof. unfold lines_per_every_row. rewrite fold_lines_length. cbn [length]. lia. Qed.

Lemma in_row_items omap r i :
  In i (row_items omap r) <-> exists col, In col omap /\ nth_error col r = Some i.
Proof.
  unfold row_items. rewrite in_flat_map. split; intros [col [Hc H]]; exists col; split; try exact Hc.
  - destruct (nth_error col r) as [i'|]; cbn in H; [|contradiction]. destruct H as [->|[]]. reflexivity.
  - rewrite H. now left.
Qed.

Lemma row_items_row n c r i : 0 < c ->
  In i (row_items (ordered_map_row n c) r) <-> i < n /\ i / c = r.
Proof.
  intros Hc. rewrite in_row_items. split.
  - intros [col [Hin H]]. apply (In_nth _ _ []) in Hin. destruct Hin as [k [Hk <-]].
    rewrite omap_row_length in Hk. apply order_row_position_inv in H; [|exact Hk]. tauto.
  - intros [Hi <-]. exists (nth (i mod c) (ordered_map_row n c) []). split.
    + apply nth_In. rewrite omap_row_length. apply Nat.mod_upper_bound. lia.
    + now apply order_row_position.
Qed.

Lemma row_items_col n c r i : 0 < c ->
  In i (row_items (ordered_map_col n c) r) <-> i < n /\ i mod ceil_div n c = r.
Proof.
  intros Hc. rewrite in_row_items. split.
  - intros [col [Hin H]]. apply (In_nth _ _ []) in Hin. destruct Hin as [k [Hk <-]].
    rewrite omap_col_length in Hk. apply order_col_position_inv in H; [|exact Hk]. tauto.
  - intros [Hi <-]. exists (nth (i / ceil_div n c) (ordered_map_col n c) []). split.
    + apply nth_In. rewrite omap_col_length.
      pose proof (ceil_div_covers n c Hc). pose proof (ceil_div_pos n c Hc ltac:(lia)).
      apply Nat.div_lt_upper_bound; lia.
    + now apply order_col_position.
Qed.

Lemma list_max_in l x : In x l -> x <= list_max l.
Proof.
  intros H. assert (Hf : Forall (fun k => k <= list_max l) l) by (apply list_max_le; lia).
  rewrite Forall_forall in Hf. now apply Hf.
Qed.

Lemma list_max_attained l : l <> [] -> In (list_max l) l.
Proof.
  induction l as [|x l IH]; [congruence|]. intros _. cbn [list_max fold_right].
  change (fold_right Nat.max 0 l) with (list_max l).
  destruct l as [|y l]; [cbn; left; lia|].
  destruct (Nat.max_spec x (list_max (y :: l))) as [[_ ->]|[_ ->]].
  - right. apply IH. congruence.
  - now left.
Qed.

Lemma row_height_bounds_item omap hs r i :
  In i (row_items omap r) -> nth i hs 0 <= nth r (lines_per_every_row omap hs) 0.
Proof.
  intros H. rewrite row_heights_max. apply list_max_in. apply in_map_iff. now exists i.
Qed.

Lemma row_height_attained omap hs r :
  row_items omap r <> [] ->
  exists i, In i (row_items omap r) /\ nth r (lines_per_every_row omap hs) 0 = nth i hs 0.
Proof.
  intros H. rewrite row_heights_max.
  assert (Hne : map (fun i => nth i hs 0) (row_items omap r) <> []).
  { destruct (row_items omap r); [congruence|discriminate]. }
  apply list_max_attained in Hne. apply in_map_iff in Hne. destruct Hne as [i [Hi Hin]].
  exists i. split; [exact Hin|]. now rewrite Hi.
Qed.

Lemma item_height_numbered ib lb lw : item_height (ib, Some (lb, lw)) = Nat.max (length ib) (length lb).
Proof. reflexivity. Qed.
Lemma item_height_plain ib : item_height (ib, None) = length ib.
Proof. reflexivity. Qed.

Section RenderAll.
  Variable render : wtree -> Z -> rres buffer.

  (* what [render_all_items] established for item number [id] *)
  Definition item_rendered (cw : Z) (kp : option key_pattern) (id : nat) (it : wtree)
             (x : buffer * option (buffer * nat)) : Prop :=
    match kp with
    | Some kp' =>
      let lab := get_widget_label kp' id in
      (0 < cw - Z.of_nat (length lab))%Z /\
      render it (cw - Z.of_nat (length lab))%Z = ROk (fst x) /\
      exists lb, label_buffer kp' id = ROk lb /\ snd x = Some (lb, length lab)
    | None => render it cw = ROk (fst x) /\ snd x = None
    end.

  Definition items_rendered (cw : Z) (kp : option key_pattern) (id : nat) (items : list wtree)
             (res : list (buffer * option (buffer * nat))) : Prop :=
    length res = length items /\
    forall j it x, nth_error items j = Some it -> nth_error res j = Some x ->
                   item_rendered cw kp (id + j) it x.

  Lemma items_rendered_cons cw kp id it items x res :
    item_rendered cw kp id it x -> items_rendered cw kp (S id) items res ->
    items_rendered cw kp id (it :: items) (x :: res).
  Proof.
    intros Hx [Hlen Hnth]. split; [cbn [length]; now rewrite Hlen|].
    intros [|j] it' x' Hj Hx'; cbn [nth_error] in Hj, Hx'.
    - injection Hj as <-. injection Hx' as <-. now rewrite Nat.add_0_r.
    - replace (id + S j) with (S id + j) by lia. now apply Hnth.
  Qed.

  Lemma items_rendered_in cw kp id items res x :
    items_rendered cw kp id items res -> In x res ->
    exists j it, In it items /\ item_rendered cw kp (id + j) it x.
  Proof.
    intros [Hlen Hnth] Hx. apply In_nth_error in Hx. destruct Hx as [j Hj].
    destruct (nth_error items j) as [it|] eqn:Eit.
    - exists j, it. split; [now apply (nth_error_In _ j)|now apply Hnth].
    - apply nth_error_None in Eit. assert (j < length res) by (apply nth_error_Some; congruence). lia.
  Qed.

  Lemma render_all_items_spec items : forall id cw kp res,
    render_all_items render items id cw kp = ROk res ->
    (items = [] \/ (0 < cw)%Z) /\ items_rendered cw kp id items res.
  Proof.
    induction items as [|it0 items IH]; intros id cw kp res H; cbn [render_all_items] in H.
    - injection H as <-. split; [now left|]. split; [reflexivity|]. intros [|j] it x Hj; discriminate.
    - destruct (cw <=? 0)%Z eqn:Ecw; [discriminate|]. split; [right; lia|].
      destruct kp as [kp'|]; unfold bind in H.
      + destruct (label_buffer kp' id) as [lb| |] eqn:Elb; try discriminate.
        destruct (cw - Z.of_nat (length (get_widget_label kp' id)) <=? 0)%Z eqn:Eiw; [discriminate|].
        destruct (render it0 (cw - Z.of_nat (length (get_widget_label kp' id)))%Z) as [ib| |] eqn:Eib; try discriminate.
        destruct (render_all_items render items (S id) cw (Some kp')) as [rest| |] eqn:Erest; try discriminate.
        injection H as <-. apply items_rendered_cons; [|apply (IH _ _ _ _ Erest)].
        cbn [item_rendered fst snd]. split; [lia|]. split; [exact Eib|]. exists lb. split; [exact Elb|reflexivity].
      + destruct (render it0 cw) as [ib| |] eqn:Eib; try discriminate.
        destruct (render_all_items render items (S id) cw None) as [rest| |] eqn:Erest; try discriminate.
        injection H as <-. apply items_rendered_cons; [|apply (IH _ _ _ _ Erest)]. now split.
  Qed.

  Lemma render_all_items_narrow items id cw kp :
    items <> [] -> (cw <= 0)%Z -> render_all_items render items id cw kp = RValueError.
  Proof.
    intros Hne Hcw. destruct items as [|it items]; [congruence|]. cbn [render_all_items].
    destruct (cw <=? 0)%Z eqn:E; [reflexivity|lia].
  Qed.

  (* numbering on: an item whose label leaves no room is refused, provided everything before it
     rendered (labels render: they are non-empty one-line texts rendered at their own length) *)
  Lemma render_all_items_label_too_wide kp' items : forall id cw i,
    i < length items ->
    (cw - Z.of_nat (length (get_widget_label kp' (id + i))) <= 0)%Z ->
    (forall j, j <= i -> exists lb, label_buffer kp' (id + j) = ROk lb) ->
    (forall j it, j < i -> nth_error items j = Some it ->
       exists b, render it (cw - Z.of_nat (length (get_widget_label kp' (id + j))))%Z = ROk b) ->
    render_all_items render items id cw (Some kp') = RValueError.
  Proof.
    induction items as [|it0 items IH]; intros id cw i Hi Hw Hlab Hok; cbn [length] in Hi; [lia|].
    cbn [render_all_items]. destruct (cw <=? 0)%Z eqn:Ecw; [reflexivity|].
    destruct (Hlab 0 ltac:(lia)) as [lb Hlb]. rewrite Nat.add_0_r in Hlb. rewrite Hlb. cbn [bind].
    destruct (cw - Z.of_nat (length (get_widget_label kp' id)) <=? 0)%Z eqn:Eiw; [reflexivity|].
    destruct i as [|i].
    - rewrite Nat.add_0_r in Hw. lia.
    - destruct (Hok 0 it0 ltac:(lia) eq_refl) as [b Hb]. rewrite Nat.add_0_r in Hb. rewrite Hb. cbn [bind].
      rewrite (IH (S id) cw i); [reflexivity|lia| | |].
      + replace (S id + i) with (id + S i) by lia. exact Hw.
      + intros j Hj. replace (S id + j) with (id + S j) by lia. apply Hlab. lia.
      + intros j it Hj Hn. replace (S id + j) with (id + S j) by lia. apply (Hok (S j) it); [lia|exact Hn].
  Qed.
End RenderAll.

(* [list_columns_width], [window_head] and [render_node] below are pieces of the body of [Containers.render], given a
   name so that statements can mention them; [render_S] is the unfolding *)
Definition list_columns_width (columns : Z) (forced : option Z) (spacing width : Z) : Z :=
  match forced with
  | Some cw => cw
  | None => Z.quot (width - (columns - 1) * spacing) columns
  end.

(* the widgets whose renders a widget draws *)
Definition children (t : wtree) : list wtree :=
  match t with
  | WText _ | WSep _ => []
  | WCenter c => [c]
  | WColumn cols _ => flat_map snd cols
  | WCheckbox box data => WText box :: map WText data
  | WList _ _ items _ _ _ | WWindow _ items => items
  end.

(* the title block of a window and the row of the cursor below it *)
Definition window_head (title : option text) (width : Z) : rres (buffer * nat) :=
  match title with
  | Some t =>
    match t_text t with
    | [] => ROk ([], 0)
    | _ =>
      let! tb := render_text t width in
      let '(b1, (r1, _)) := draw [] 0 0 false tb in
      let '(b2, (r2, _)) := draw b1 r1 0 false (render_sep 1) in
      ROk (b2, r2)
    end
  | None => ROk ([], 0)
  end.

(* the body of [render] with [r] for the renders of the children *)
Definition render_node (r : wtree -> Z -> rres buffer) (t : wtree) (width : Z) : rres buffer :=
  match t with
  | WText t => render_text t width
  | WSep n => ROk (render_sep n)
  | WCenter c =>
    let! cb := r c width in
    let! col := nat_of_Z ((width - Z.of_nat (buf_width cb)) / 2)%Z in
    ROk (fst (draw [] 0 col false cb))
  | WColumn cols spacing => render_columns r cols spacing width [] 0%Z
  | WCheckbox box data =>
    let! cb := render_columns r [(Some 3%Z, [WText box]); (Some (width - 4)%Z, map WText data)] 1%Z width [] 0%Z in
    ROk (fst (draw [] 0 0 false cb))
  | WList kind columns items forced spacing kp =>
    if (columns <=? 0)%Z then ROutOfModel else
    let cw := list_columns_width columns forced spacing width in
    let omap := ordered_map kind (length items) (Z.to_nat columns) in
    let! rendered := render_all_items r items 0 cw kp in
    draw_list_cols omap rendered (lines_per_every_row omap (map item_height rendered)) cw spacing [] 0%Z
  | WWindow title items =>
    let! b0 := window_head title width in
    draw_items_plain r items width (fst b0) (snd b0)
  end.

Lemma render_S f t w : render (S f) t w = render_node (render f) t w.
Proof. destruct t; reflexivity. Qed.

(* [render_node] asks [r] about the children only *)
Section Ext.
  Variables r1 r2 : wtree -> Z -> rres buffer.

  Lemma draw_items_block_ext items :
    (forall it w, In it items -> r1 it w = r2 it w) ->
    forall w b row col, draw_items_block r1 items w b row col = draw_items_block r2 items w b row col.
  Proof.
    induction items as [|it items IH]; intros H w b row col; cbn [draw_items_block]; [reflexivity|].
    rewrite (H it w (or_introl eq_refl)). destruct (r2 it w) as [ib| |]; cbn [bind]; try reflexivity.
    unfold draw. apply IH. intros it' w' Hin. apply H. now right.
  Qed.

  Lemma render_columns_ext cols :
    (forall it w, In it (flat_map snd cols) -> r1 it w = r2 it w) ->
    forall sp width b cp, render_columns r1 cols sp width b cp = render_columns r2 cols sp width b cp.
  Proof.
    induction cols as [|[cw items] cols IH]; intros H sp width b cp; cbn [render_columns]; [reflexivity|].
    cbn [flat_map snd] in H.
    destruct (nat_of_Z cp) as [cpn| |]; cbn [bind]; try reflexivity.
    destruct cw as [w0|];
      rewrite (draw_items_block_ext items) by (intros it w Hin; apply H, in_or_app; now left);
      (destruct (draw_items_block r2 items _ b 0 cpn) as [res| |]; cbn [bind]; try reflexivity;
       apply IH; intros it w Hin; apply H, in_or_app; now right).
  Qed.

  Lemma render_all_items_ext items :
    (forall it w, In it items -> r1 it w = r2 it w) ->
    forall id cw kp, render_all_items r1 items id cw kp = render_all_items r2 items id cw kp.
  Proof.
    induction items as [|it items IH]; intros H id cw kp; cbn [render_all_items]; [reflexivity|].
    assert (Hr : forall it' w, In it' items -> r1 it' w = r2 it' w).
    { intros it' w Hin. apply H. now right. }
    destruct (cw <=? 0)%Z; [reflexivity|]. destruct kp as [kp'|].
    - destruct (label_buffer kp' id) as [lb| |]; cbn [bind]; try reflexivity.
      destruct (_ <=? 0)%Z; [reflexivity|].
      rewrite (H it _ (or_introl eq_refl)). destruct (r2 it _) as [ib| |]; cbn [bind]; try reflexivity.
      now rewrite (IH Hr).
    - rewrite (H it _ (or_introl eq_refl)). destruct (r2 it _) as [ib| |]; cbn [bind]; try reflexivity.
      now rewrite (IH Hr).
  Qed.

  Lemma draw_items_plain_ext items :
    (forall it w, In it items -> r1 it w = r2 it w) ->
    forall w b row, draw_items_plain r1 items w b row = draw_items_plain r2 items w b row.
  Proof.
    induction items as [|it items IH]; intros H w b row; cbn [draw_items_plain]; [reflexivity|].
    rewrite (H it w (or_introl eq_refl)). destruct (r2 it w) as [ib| |]; cbn [bind]; try reflexivity.
    unfold draw. apply IH. intros it' w' Hin. apply H. now right.
  Qed.

  Lemma render_node_ext t :
    (forall c w, In c (children t) -> r1 c w = r2 c w) ->
    forall w, render_node r1 t w = render_node r2 t w.
  Proof.
    intros H w.
    destruct t as [tx|n|c|cols sp|box data|kind columns items forced sp kp|title items];
      cbn [render_node children] in *.
    - reflexivity.
    - reflexivity.
    - rewrite (H c w (or_introl eq_refl)). reflexivity.
    - now apply render_columns_ext.
    - rewrite (render_columns_ext _) by (cbn [flat_map snd app]; rewrite app_nil_r; exact H). reflexivity.
    - now rewrite (render_all_items_ext items H).
    - destruct (window_head title w) as [b0| |]; cbn [bind]; try reflexivity. now apply draw_items_plain_ext.
  Qed.
End Ext.

(* the loop of a column keeps any invariant [I] of the buffer that drawing an item satisfying [Q]
   at the column keeps *)
Section DrawItems.
  Variable r : wtree -> Z -> rres buffer.
  Variables (I Q : buffer -> Prop) (col : nat).
  Hypothesis draw_keeps : forall b row ib, I b -> Q ib -> I (fst (draw b row col true ib)).

  Lemma draw_items_block_inv items w :
    (forall it ib, In it items -> r it w = ROk ib -> Q ib) ->
    forall b row res, I b -> draw_items_block r items w b row col = ROk res -> I (fst res).
  Proof.
    induction items as [|it items IH]; intros Hit b row res Hb H; cbn [draw_items_block] in H.
    - injection H as <-. exact Hb.
    - destruct (r it w) as [ib| |] eqn:Eib; cbn [bind] in H; try discriminate.
      unfold draw in H. apply (IH (fun it' ib' Hin => Hit it' ib' (or_intror Hin))) in H; [exact H|].
      apply (draw_keeps b row ib Hb). exact (Hit it ib (or_introl eq_refl) Eib).
  Qed.
End DrawItems.

Lemma depth_pos t : 1 <= depth t.
Proof. destruct t; cbn [depth]; lia. Qed.

Lemma fold_items_ge items acc : acc <= fold_right (fun i a => Nat.max (depth i) a) acc items.
Proof. induction items as [|x items IH]; cbn [fold_right]; lia. Qed.

Lemma depth_items_le items acc it :
  In it items -> depth it <= fold_right (fun i a => Nat.max (depth i) a) acc items.
Proof.
  induction items as [|x items IH]; intros H; [contradiction|]. cbn [fold_right].
  destruct H as [->|H]; [lia|]. specialize (IH H). lia.
Qed.

Lemma depth_cols_le (cols : list (option Z * list wtree)) it :
  In it (flat_map snd cols) ->
  depth it <= fold_right (fun c acc => fold_right (fun i a => Nat.max (depth i) a) acc (snd c)) 0 cols.
Proof.
  induction cols as [|x cols IH]; intros Hin; [contradiction|]. cbn [fold_right flat_map] in *.
  apply in_app_or in Hin. destruct Hin as [Hin|Hin].
  - now apply depth_items_le.
  - specialize (IH Hin). pose proof (fold_items_ge (snd x)
      (fold_right (fun c acc => fold_right (fun i a => Nat.max (depth i) a) acc (snd c)) 0 cols)). lia.
Qed.

Lemma depth_child t c : In c (children t) -> depth c < depth t.
Proof.
  destruct t as [tx|n|c0|cols sp|box data|kind columns items forced sp kp|title items];
    cbn [children depth]; intros H.
  - contradiction.
  - contradiction.
  - destruct H as [<-|[]]. lia.
  - pose proof (depth_cols_le cols c H). lia.
  - destruct H as [<-|H]; [cbn [depth]; lia|]. apply in_map_iff in H. destruct H as [d [<- _]]. cbn [depth]. lia.
  - pose proof (depth_items_le items 0 c H). lia.
  - pose proof (depth_items_le items 0 c H). lia.
Qed.

(* [wtree] is nested in [list], so Coq's own induction principle says nothing about the items:
   this is structural induction, obtained from the depth *)
Lemma wtree_child_ind (P : wtree -> Prop) :
  (forall t, (forall c, In c (children t) -> P c) -> P t) -> forall t, P t.
Proof.
  intros step. assert (H : forall n t, depth t < n -> P t).
  { induction n as [|n IH]; intros t Hd; [lia|]. apply step. intros c Hc.
    apply IH. pose proof (depth_child t c Hc). lia. }
  intros t. apply (H (S (depth t))). lia.
Qed.

Lemma render_fuel_irrelevant : forall f1 f2 t w,
  depth t <= f1 -> depth t <= f2 -> render f1 t w = render f2 t w.
Proof.
  intros f1 f2 t. revert f1 f2. induction t as [t IH] using wtree_child_ind.
  intros [|f1] [|f2] w H1 H2; pose proof (depth_pos t); try lia.
  rewrite !render_S. apply render_node_ext. intros c w' Hc.
  pose proof (depth_child t c Hc). apply IH; [exact Hc|lia|lia].
Qed.

Lemma render_tree_fuel f t w : depth t <= f -> render f t w = render_tree t w.
Proof. intros H. unfold render_tree. apply render_fuel_irrelevant; lia. Qed.

Lemma render_tree_eq t w : render_tree t w = render_node render_tree t w.
Proof.
  unfold render_tree at 1. rewrite render_S. apply render_node_ext. intros c w' Hc.
  apply render_tree_fuel. pose proof (depth_child t c Hc). lia.
Qed.

Lemma list_ok_room kind columns items forced spacing kp w b :
  render_tree (WList kind columns items forced spacing kp) w = ROk b ->
  items = [] \/
  ((0 < list_columns_width columns forced spacing w)%Z /\
   forall i kp', i < length items -> kp = Some kp' ->
     (0 < list_columns_width columns forced spacing w - Z.of_nat (length (get_widget_label kp' i)))%Z).
Proof.
  rewrite render_tree_eq. cbn [render_node]. intros H.
  destruct (columns <=? 0)%Z; [discriminate|]. unfold bind in H.
  destruct (render_all_items _ items 0 _ kp) as [res| |] eqn:E; try discriminate.
  apply render_all_items_spec in E. destruct E as [Hcw [Hlen Hnth]].
  destruct Hcw as [->|Hcw]; [now left|]. right. split; [exact Hcw|].
  intros i kp' Hi ->.
  destruct (nth_error items i) as [it|] eqn:Eit; [|apply nth_error_None in Eit; lia].
  destruct (nth_error res i) as [x|] eqn:Ex; [|apply nth_error_None in Ex; lia].
  specialize (Hnth i it x Eit Ex). cbn in Hnth. tauto.
Qed.

Lemma list_refused_narrow kind columns items forced spacing kp w :
  (0 < columns)%Z -> items <> [] -> (list_columns_width columns forced spacing w <= 0)%Z ->
  render_tree (WList kind columns items forced spacing kp) w = RValueError.
Proof.
  intros Hc Hne Hcw. rewrite render_tree_eq. cbn [render_node].
  destruct (columns <=? 0)%Z eqn:E; [lia|].
  rewrite render_all_items_narrow by assumption. reflexivity.
Qed.

Lemma list_refused_label kind columns items forced spacing kp' w i :
  (0 < columns)%Z -> i < length items ->
  let cw := list_columns_width columns forced spacing w in
  (cw - Z.of_nat (length (get_widget_label kp' i)) <= 0)%Z ->
  (forall j, j <= i -> exists lb, label_buffer kp' j = ROk lb) ->
  (forall j it, j < i -> nth_error items j = Some it ->
     exists b, render_tree it (cw - Z.of_nat (length (get_widget_label kp' j)))%Z = ROk b) ->
  render_tree (WList kind columns items forced spacing (Some kp')) w = RValueError.
Proof.
  intros Hc Hi cw Hw Hlab Hok. rewrite render_tree_eq. cbn [render_node].
  destruct (columns <=? 0)%Z eqn:E; [lia|]. fold cw.
  rewrite (render_all_items_label_too_wide render_tree kp' items 0 cw i); try assumption; reflexivity.
Qed.

Lemma draw_items_plain_appends (r : wtree -> Z -> rres buffer) w : forall items b b',
  draw_items_plain r items w b (length b) = ROk b' <->
  exists ibs, Forall2 (fun it ib => r it w = ROk ib) items ibs /\ b' = b ++ concat ibs.
Proof.
  induction items as [|it items IH]; intros b b'; cbn [draw_items_plain].
  - split.
    + intros [= <-]. exists []. split; [constructor|]. cbn [concat]. now rewrite app_nil_r.
    + intros (ibs & HF & ->). inversion HF. cbn [concat]. now rewrite app_nil_r.
  - split.
    + destruct (r it w) as [ib| |] eqn:Hit; cbn [bind]; try discriminate.
      rewrite draw_end, IH. intros (ibs & HF & ->).
      exists (ib :: ibs). split; [now constructor|]. cbn [concat]. now rewrite app_assoc.
    + intros (ibs & HF & ->). inversion HF as [|? ib ? ibs' Hit HF']; subst.
      rewrite Hit. cbn [bind]. rewrite draw_end, IH.
      exists ibs'. split; [exact HF'|]. cbn [concat]. now rewrite app_assoc.
Qed.

(* the title block: the rendered title and one empty line; an empty title is no title *)
Definition window_title (title : option text) (w : Z) : rres buffer :=
  match title with
  | Some t => match t_text t with [] => ROk [] | _ => let! tb := render_text t w in ROk (tb ++ [[]]) end
  | None => ROk []
  end.

Lemma window_title_cases title w hd :
  window_title title w = ROk hd ->
  hd = [] \/ exists t tb, title = Some t /\ t_text t <> [] /\ render_text t w = ROk tb /\ hd = tb ++ [[]].
Proof.
  destruct title as [t|]; cbn [window_title]; [|intros [= <-]; now left].
  destruct (t_text t) eqn:Et; [intros [= <-]; now left|].
  destruct (render_text t w) as [tb| |] eqn:Etb; cbn [bind]; try discriminate. intros [= <-].
  right. exists t, tb. rewrite Et. repeat split; [discriminate|exact Etb].
Qed.

Lemma window_head_title title w :
  window_head title w = let! hd := window_title title w in ROk (hd, length hd).
Proof.
  destruct title as [t|]; [|reflexivity]. cbn [window_head window_title].
  destruct (t_text t); [reflexivity|].
  destruct (render_text t w) as [tb| |]; cbn [bind]; try reflexivity.
  change (draw [] 0 0 false tb) with (draw [] (length (@nil line)) 0 false tb). rewrite draw_end.
  cbn [app]. now rewrite draw_end.
Qed.

Lemma render_window title items w b :
  render_tree (WWindow title items) w = ROk b <->
  exists hd ibs, window_title title w = ROk hd /\
    Forall2 (fun it ib => render_tree it w = ROk ib) items ibs /\ b = hd ++ concat ibs.
Proof.
  rewrite render_tree_eq. cbn [render_node]. rewrite window_head_title.
  destruct (window_title title w) as [hd| |]; cbn [bind fst snd].
  - rewrite draw_items_plain_appends. split.
    + intros (ibs & HF & ->). now exists hd, ibs.
    + intros (hd' & ibs & [= <-] & HF & ->). now exists ibs.
  - split; [discriminate|]. intros (hd & ibs & Hd & _). discriminate.
  - split; [discriminate|]. intros (hd & ibs & Hd & _). discriminate.
Qed.

(* ConcOrder.v — C19 for programs in which thread 0 is the loop thread and the others only submit.
   1. Roles.  [subinv]: every thread but 0 stays a submitter, so a thread that gets, holds an entry or opens a level is
      thread 0 ([loop_thread]).  [no_deadlock_loop]: if no thread can move, every thread has finished, except that the
      loop thread may be waiting in get.  [submit_ignores_run]: a step of a submitting thread neither reads nor
      writes the run flag.
   2. Order.  [counter_order] (any programs): a thread's puts are logged in the order of its program ([ginv]) and
      those into one queue carry increasing counters ([cinv]).  [no_overtaking]: PriorityQueue.get returns the least
      (priority, counter) and a logged entry is pending, dispatched or in the loop thread's hand ([pinv]), so an
      entry put into a queue earlier and smaller is dispatched earlier ([dinv]).  [thread_order] is the two together
      for one thread and equal priorities. *)
From SL Require Import Tac proofs.ListFacts.
From Coq Require Import Permutation.
From RecordUpdate Require Import RecordUpdate.
From SL Require Import Conc proofs.ConcProofs proofs.ConcLocks.
Import ListNotations.

Definition is_submit (a : action) : bool := match a with ASubmit _ => true | _ => false end.
Definition submit_pc (p : pc) : bool := match p with P0 | PE _ _ => true | _ => false end.
Definition submit_thread (th : thread) : bool := forallb is_submit (t_prog th) && submit_pc (t_pc th).
Definition submitters_only (progs : list (list action)) : Prop :=
  forall t p, nth_error progs t = Some p -> t <> 0 -> forallb is_submit p = true.
Definition subinv (st : cstate) : Prop :=
  forall t th, nth_error (c_thr st) t = Some th -> t <> 0 -> submit_thread th = true.

Lemma tstep_submit : forall u th h th' h', tstep u th h = Some (th', h') -> submit_thread th = true ->
  submit_thread th' = true /\ h_active h' = h_active h.
Proof.
  intros u th h th' h' H S. destruct (tstep_spec _ _ _ _ _ H) as (l & h0 & -> & M). open_move M.
  all: unfold submit_thread in *; cbn in *; rewrite ?andb_false_r in S; try discriminate S; auto.
Qed.

Lemma subinv_step : forall t st, subinv st -> subinv (step t st).
Proof.
  intros t st F. destruct (stepP t st) as [t st|l1 th l2 h th' h' Ht]; [exact F|].
  unfold subinv in *. cbn [c_thr] in *.
  apply (mid_lift (fun n a => n <> 0 -> submit_thread a = true) (fun n a => n <> 0 -> submit_thread a = true) l1 th);
    [exact F| |auto].
  intros X Ne. eapply tstep_submit; eauto.
Qed.

Lemma subinv_reach : forall progs sch, submitters_only progs -> subinv (steps sch (init progs)).
Proof.
  intros progs sch H. apply steps_inv; [apply subinv_step|].
  intros t th Hn Hne. destruct (init_nth _ _ _ Hn) as (p & E & ->).
  unfold submit_thread. cbn. rewrite (H _ _ E Hne). reflexivity.
Qed.

Lemma loop_thread : forall l1 th l2 h, subinv {| c_thr := l1 ++ th :: l2; c_sh := h |} ->
  submit_thread th = false -> l1 = [].
Proof.
  intros [|x l1] th l2 h S F; [reflexivity|].
  rewrite (S _ _ (nth_error_mid (x :: l1) th l2)) in F; discriminate.
Qed.

Lemma submit_not_waiting : forall th h, submit_thread th = true -> waiting_get th h = false.
Proof.
  intros [prog p] h H. unfold submit_thread in H. cbn [t_pc t_prog] in H. apply andb_true_iff in H. destruct H as [A B].
  unfold waiting_get. cbn [t_pc t_prog]. destruct p; try discriminate B; auto.
  destruct prog as [|a r]; auto. destruct a; auto. discriminate A.
Qed.

Theorem no_deadlock_loop : forall progs sch, submitters_only progs ->
  let st := steps sch (init progs) in
  (exists t, enabled t st = true) \/
  (forall t th, nth_error (c_thr st) t = Some th ->
     finished th = true \/ (t = 0 /\ waiting_get th (c_sh st) = true)).
Proof.
  intros progs sch S st. destruct (no_deadlock progs sch) as [E|W]; [left; exact E|right].
  intros t th Ht. fold st in W. destruct (W t th Ht) as [F|X]; [left; exact F|right].
  split; [|exact X]. destruct (Nat.eq_dec t 0); auto. exfalso.
  rewrite (submit_not_waiting th _ (subinv_reach progs sch S _ _ Ht n)) in X. discriminate.
Qed.

Definition with_run (b : bool) (h : shared) : shared := h <| h_run := b |>.

Lemma estep_ignores_run : forall t s e h b,
  estep t s e (with_run b h) =
  match estep t s e h with None => None | Some (e', h') => Some (e', with_run b h') end.
Proof.
  intros t s e h b. destruct h. unfold with_run.
  destruct e; unfold estep, lbl; cbn;
    repeat match goal with |- context [match ?x with _ => _ end] => destruct x end; reflexivity.
Qed.

Lemma submit_ignores_run : forall t th h b, submit_thread th = true ->
  tstep t th (with_run b h) =
  match tstep t th h with None => None | Some (th', h') => Some (th', with_run b h') end.
Proof.
  intros t [prog p] h b S. unfold submit_thread in S. cbn [t_pc t_prog] in S.
  apply andb_true_iff in S. destruct S as [S1 S2].
  destruct p; try discriminate S2; unfold tstep; cbn [t_pc t_prog].
  - destruct prog as [|a r]; [reflexivity|]. cbn [forallb] in S1. apply andb_true_iff in S1. destruct S1 as [Sa _].
    destruct a; try discriminate Sa. unfold start, enq. rewrite estep_ignores_run.
    destruct (estep t s EFq h) as [[[e'|] h']|]; reflexivity.
  - unfold cont, enq. rewrite estep_ignores_run.
    destruct (estep t s e h) as [[[e'|] h']|]; reflexivity.
Qed.

Definition not_put_pc (p : pc) : Prop := forall s q c lk, p <> PE s (EPut q c lk).
Definition not_hold (p : pc) : Prop := forall e, p <> PCPutBack e.

(* what a step does to the queues and the ghost logs.  Of the moves of ConcProofs.move: em_put is k_put; s_disp and
   p_get are k_disp; p_take is k_hold; p_back is k_back; every other move is k_other.  (A thread that gets or puts
   back is not a submitter: it is at P0 before ADispatch or inside close_loop.) *)
Inductive kind (u : nat) (th : thread) (h : shared) (th' : thread) (h' : shared) : Prop :=
| k_other : h_pend h' = h_pend h -> h_disp h' = h_disp h -> h_putlog h' = h_putlog h ->
    not_hold (t_pc th) -> not_hold (t_pc th') -> kind u th h th' h'
| k_put s q c lk : t_pc th = PE s (EPut q c lk) ->
    h_pend h' = h_pend h ++ [(q, (s_prio s, c, s_id s))] ->
    h_putlog h' = (u, (q, (s_prio s, c, s_id s))) :: h_putlog h ->
    h_disp h' = h_disp h -> not_hold (t_pc th') -> kind u th h th' h'
| k_disp e : pop_min (h_active h) (h_pend h) = Some (e, h_pend h') ->
    h_disp h' = h_disp h ++ [e_sid e] -> h_putlog h' = h_putlog h ->
    not_hold (t_pc th) -> not_hold (t_pc th') -> submit_thread th = false -> kind u th h th' h'
| k_hold e : pop_min (h_active h) (h_pend h) = Some (e, h_pend h') -> t_pc th' = PCPutBack e ->
    h_disp h' = h_disp h -> h_putlog h' = h_putlog h -> h_active h' = h_active h ->
    not_hold (t_pc th) -> submit_thread th = false -> kind u th h th' h'
| k_back e : t_pc th = PCPutBack e -> h_pend h' = h_pend h ++ [(h_active h, e)] ->
    h_disp h' = h_disp h -> h_putlog h' = h_putlog h -> h_active h' = h_active h ->
    not_hold (t_pc th') -> submit_thread th = false -> kind u th h th' h'.

(* what a step does to the counters, the put log and the counter the thread has drawn: em_cnt is c_draw, em_put is
   c_put, every other move is c_same *)
Inductive ckind (u : nat) (th : thread) (h : shared) (th' : thread) (h' : shared) : Prop :=
| c_same : h_cnt h' = h_cnt h -> h_putlog h' = h_putlog h -> not_put_pc (t_pc th') -> ckind u th h th' h'
| c_draw s q lk : t_pc th' = PE s (EPut q (aget (h_cnt h) q) lk) ->
    h_cnt h' = aset (h_cnt h) q (S (aget (h_cnt h) q)) -> h_putlog h' = h_putlog h -> ckind u th h th' h'
| c_put s q c lk : t_pc th = PE s (EPut q c lk) ->
    h_putlog h' = (u, (q, (s_prio s, c, s_id s))) :: h_putlog h -> h_cnt h' = h_cnt h ->
    not_put_pc (t_pc th') -> ckind u th h th' h'.

Lemma tstep_kind : forall u th h th' h', tstep u th h = Some (th', h') -> kind u th h th' h'.
Proof.
  intros u th h th' h' H. destruct (tstep_spec _ _ _ _ _ H) as (l & h0 & -> & M). open_move M.
  all: solve [econstructor; unfold not_hold, submit_thread; cbn;
              first [eassumption|discriminate|apply andb_false_r|reflexivity]].
Qed.

Lemma tstep_ckind : forall u th h th' h', tstep u th h = Some (th', h') -> ckind u th h th' h'.
Proof.
  intros u th h th' h' H. destruct (tstep_spec _ _ _ _ _ H) as (l & h0 & -> & M). open_move M.
  all: solve [econstructor; unfold not_put_pc; cbn; first [discriminate|reflexivity]].
Qed.

Definition plog (st : cstate) := h_putlog (c_sh st).

(* the log is newest first: [R y x] for every entry x and every entry y logged before it *)
Definition ordered {A} (R : A -> A -> Prop) (log : list A) : Prop :=
  forall l1 x l2, log = l1 ++ x :: l2 -> forall y, In y l2 -> R y x.

Lemma ordered_nil : forall {A} (R : A -> A -> Prop), ordered R [].
Proof. intros A R [|z l1] x l2 E; discriminate E. Qed.

Lemma ordered_cons : forall {A} (R : A -> A -> Prop) x log,
  ordered R log -> (forall y, In y log -> R y x) -> ordered R (x :: log).
Proof.
  intros A R x log O H [|z l1] x' l2 E; injection E as <- ->; [exact H|exact (O _ _ _ eq_refl)].
Qed.

Definition fresh_cnt (log : list (nat * (nat * entry))) (cnts : list (nat * nat)) (t : nat) (th : thread) : Prop :=
  forall s q c lk, t_pc th = PE s (EPut q c lk) ->
  c < aget cnts q /\ forall e, In (t, (q, e)) log -> e_cnt e < c.

(* the put log is newest first *)
Record cinv (st : cstate) : Prop := {
  logged_below_counter : forall u q e, In (u, (q, e)) (plog st) -> e_cnt e < aget (h_cnt (c_sh st)) q;
  (* a counter drawn and not yet put is below the queue's counter and above the thread's logged ones *)
  drawn_is_fresh : forall t th, nth_error (c_thr st) t = Some th -> fresh_cnt (plog st) (h_cnt (c_sh st)) t th;
  counters_increase :
    ordered (fun '(t1, (q1, e1)) '(t2, (q2, e2)) => t1 = t2 -> q1 = q2 -> e_cnt e1 < e_cnt e2) (plog st)
}.

Lemma cinv_same : forall l1 th l2 th' h h',
  cinv {| c_thr := l1 ++ th :: l2; c_sh := h |} ->
  h_cnt h' = h_cnt h -> h_putlog h' = h_putlog h -> not_put_pc (t_pc th') ->
  cinv {| c_thr := l1 ++ th' :: l2; c_sh := h' |}.
Proof.
  intros l1 th l2 th' h h' [C1 C3 C4] Ec Ep Np. unfold plog in *. cbn [c_thr c_sh] in *.
  split; unfold plog; cbn [c_thr c_sh]; rewrite ?Ec, ?Ep; auto.
  apply (mid_lift (fresh_cnt (h_putlog h) (h_cnt h)) (fresh_cnt (h_putlog h) (h_cnt h)) l1 th); [exact C3| |auto].
  intros _ s q c lk X. destruct (Np _ _ _ _ X).
Qed.

Lemma cinv_step : forall t st, cinv st -> cinv (step t st).
Proof.
  intros t st C. destruct (stepP t st) as [t st|l1 th l2 h th' h' Ht]; [exact C|].
  destruct (tstep_ckind _ _ _ _ _ Ht) as [Ec Ep Np|s q lk P2 Ec Ep|s q c lk P1 Ep Ec Np].
  - eapply cinv_same; eauto.
  - destruct C as [C1 C3 C4]. unfold plog in *. cbn [c_thr c_sh] in *.
    split; unfold plog; cbn [c_thr c_sh]; rewrite ?Ec, ?Ep; auto.
    + intros u q' e He. cbn [aget aset]. specialize (C1 _ _ _ He).
      destruct (q =? q') eqn:Eq; [apply Nat.eqb_eq in Eq; subst; lia|exact C1].
    + apply (mid_lift (fresh_cnt (h_putlog h) (h_cnt h)) (fresh_cnt (h_putlog h) _) l1 th); [exact C3| |].
      * intros _ s' q' c lk' Hpc. rewrite P2 in Hpc. inversion Hpc; subst. cbn [aget aset]. rewrite Nat.eqb_refl.
        split; [lia|]. intros e He. eapply C1; eauto.
      * intros n a _ X s' q' c lk' Hpc. destruct (X _ _ _ _ Hpc) as [X1 Y]. split; [|exact Y].
        cbn [aget aset]. destruct (q =? q') eqn:Eq; [apply Nat.eqb_eq in Eq; subst; lia|exact X1].
  - destruct C as [C1 C3 C4]. unfold plog in *. cbn [c_thr c_sh] in *.
    destruct (C3 _ _ (nth_error_mid l1 th l2) _ _ _ _ P1) as [U1 U2].
    split; unfold plog; cbn [c_thr c_sh]; rewrite ?Ec, ?Ep.
    + intros u q' e [He|He]; [inversion He; subst; exact U1|eapply C1; eauto].
    + apply (mid_lift (fresh_cnt (h_putlog h) (h_cnt h)) (fresh_cnt _ (h_cnt h)) l1 th); [exact C3| |].
      * intros _ s' q' c' lk' X. destruct (Np _ _ _ _ X).
      * intros n a Ne X s' q' c' lk' Hpc. destruct (X _ _ _ _ Hpc) as [X1 Y]. split; [exact X1|].
        intros e [He|He]; [inversion He; congruence|auto].
    + apply ordered_cons; [exact C4|]. intros [t [q' e1]] He1 -> ->. apply U2, He1.
Qed.

Lemma cinv_init : forall progs, cinv (init progs).
Proof.
  intros; split; unfold plog; cbn.
  - contradiction.
  - intros t th H s q c lk Hp. destruct (init_nth _ _ _ H) as (p & _ & ->). discriminate.
  - apply ordered_nil.
Qed.

Definition hold0 (thr : list thread) (h : shared) (q : nat) (e : entry) : Prop :=
  exists th0, nth_error thr 0 = Some th0 /\ t_pc th0 = PCPutBack e /\ h_active h = q.

(* what was logged is pending in the queue it was logged for, dispatched, or held by the loop thread to be put
   back into that queue *)
Definition pinv (st : cstate) : Prop :=
  forall u q e, In (u, (q, e)) (plog st) ->
    In (q, e) (h_pend (c_sh st)) \/ In (e_sid e) (h_disp (c_sh st)) \/ hold0 (c_thr st) (c_sh st) q e.

Lemma hold0_mid : forall l1 th l2 th' h h' q e,
  (length l1 <> 0 -> h_active h' = h_active h) -> not_hold (t_pc th) ->
  hold0 (l1 ++ th :: l2) h q e -> hold0 (l1 ++ th' :: l2) h' q e.
Proof.
  intros l1 th l2 th' h h' q e Ha Nh (th0 & H0 & Hp & Hq).
  destruct l1 as [|x l1]; cbn [app nth_error] in *.
  - inversion H0; subst. exfalso. eapply Nh; eauto.
  - exists th0. repeat split; auto. rewrite Ha by (cbn; lia). exact Hq.
Qed.

(* a pending entry that carries the signal of a logged one is that entry, in the queue it was logged for:
   the signal can be in no second place *)
Lemma logged_at : forall st u q e x, NoDup (places st) -> pinv st -> In (u, (q, e)) (plog st) ->
  In x (h_pend (c_sh st)) -> sidof x = e_sid e -> x = (q, e).
Proof.
  intros st u q e x N P Hl Hx Es. unfold places in N. apply NoDup_app_remove_l in N.
  assert (Ip : In (e_sid e) (pending st)) by (rewrite <- Es; apply (in_map sidof), Hx).
  destruct (P _ _ _ Hl) as [X|[X|(th0 & H0 & Hp & _)]].
  - apply (nodup_map_inj sidof (h_pend (c_sh st))); auto.
    apply NoDup_app_remove_l, NoDup_app_remove_r in N. exact N.
  - exfalso. apply NoDup_app_remove_l in N. apply (NoDup_app_disjoint _ _ _ N Ip), in_or_app. left. exact X.
  - exfalso. apply (NoDup_app_disjoint _ _ (e_sid e) N); [|apply in_or_app; left; exact Ip].
    apply in_flat_map. exists th0. split; [eapply nth_error_In, H0|]. unfold thr_held. rewrite Hp. left. reflexivity.
Qed.

Lemma pinv_step : forall t st, subinv st -> pinv st -> pinv (step t st).
Proof.
  intros t st S P. destruct (stepP t st) as [t st|l1 th l2 h th' h' Ht]; [exact P|].
  pose proof (nth_error_mid l1 th l2) as Hu.
  assert (Hact : length l1 <> 0 -> h_active h' = h_active h).
  { intros X. eapply tstep_submit; [exact Ht|]. apply (S _ _ Hu X). }
  unfold pinv, plog in *. cbn [c_thr c_sh] in *.
  assert (Hold : not_hold (t_pc th) -> not_hold (t_pc th') ->
                 forall q e, hold0 (l1 ++ th' :: l2) h' q e <-> hold0 (l1 ++ th :: l2) h q e).
  { intros A B q e. split; apply hold0_mid; auto. intros X. symmetry. auto. }
  destruct (tstep_kind _ _ _ _ _ Ht)
    as [Ep Ed El Nh Nh'
       |s q c lk Pc Ep El Ed Nh'
       |e Hpop Ed El Nh Nh' _
       |e Hpop Pc' Ed El Ea Nh Sf
       |e Pc Ep Ed El Ea Nh' Sf]; rewrite ?Ep, ?Ed, ?El, ?Ea.
  - intros u q e He. rewrite (Hold Nh Nh'). eauto.
  - intros u q' e [He|He].
    + inversion He; subst. left. apply in_or_app. right. left. reflexivity.
    + assert (Nh : not_hold (t_pc th)) by (intros e0 X; congruence). rewrite (Hold Nh Nh').
      destruct (P _ _ _ He) as [X|[X|X]]; auto. left. apply in_or_app. left. exact X.
  - pose proof (pop_min_in _ _ _ _ Hpop) as Ek.
    intros u q' e' He. rewrite (Hold Nh Nh'). destruct (P _ _ _ He) as [X|[X|X]]; auto.
    + apply Ek in X. destruct X as [X|X]; [|auto].
      inversion X; subst. right; left. apply in_or_app. right. cbn. auto.
    + right; left. apply in_or_app. left. exact X.
  - (* get of another priority: the stepping thread is the loop thread and now holds the entry *)
    pose proof (pop_min_in _ _ _ _ Hpop) as Ek.
    pose proof (loop_thread _ _ _ _ S Sf) as ->. cbn [app] in *.
    intros u q' e' He. destruct (P _ _ _ He) as [X|[X|X]]; auto.
    + apply Ek in X. destruct X as [X|X]; [|auto].
      inversion X; subst. right; right. exists th'. cbn. auto.
    + destruct X as (th0 & H0 & Hp & _). cbn in H0. inversion H0; subst. exfalso. eapply Nh; eauto.
  - pose proof (loop_thread _ _ _ _ S Sf) as ->. cbn [app] in *.
    intros u q' e' He. destruct (P _ _ _ He) as [X|[X|X]]; auto.
    + left. apply in_or_app. left. exact X.
    + destruct X as (th0 & H0 & Hp & Hq). cbn in H0. inversion H0; subst. rewrite Pc in Hp. inversion Hp; subst.
      left. apply in_or_app. right. cbn. auto.
Qed.

(* no overtaking in a queue, whoever put: an entry put into q earlier and smaller in (priority, counter) is
   dispatched earlier *)
Definition dinv (st : cstate) : Prop :=
  ordered (fun '(_, (q1, e1)) '(_, (q2, e2)) => q1 = q2 -> entry_le e2 e1 = false -> In (e_sid e2) (h_disp (c_sh st)) ->
             exists d1 d2 d3, h_disp (c_sh st) = d1 ++ e_sid e1 :: d2 ++ e_sid e2 :: d3) (plog st).

Lemma dinv_step : forall t st, subinv st -> NoDup (places st) -> pinv st -> dinv st -> dinv (step t st).
Proof.
  intros t st S N P D. destruct (stepP t st) as [t st|l1 th l2 h th' h' Ht]; [exact D|].
  pose proof (nth_error_mid l1 th l2) as Hu.
  unfold dinv, plog in *. cbn [c_thr c_sh] in *.
  destruct (tstep_kind _ _ _ _ _ Ht)
    as [_ Ed El _
       |s q c lk Pc _ El Ed _
       |e Hpop Ed El Nh _ Sf
       |e _ _ Ed El _
       |e _ _ Ed El _].
  - rewrite Ed, El. exact D.
  - (* put: the new entry's signal was still to be put, so it has not been dispatched *)
    rewrite Ed, El.
    apply ordered_cons; [exact D|]. intros [t1 [q1 e1]] _ _ _ Hd. exfalso. cbn [e_sid snd] in Hd.
    assert (U : In (s_id s) (unput {| c_thr := l1 ++ th :: l2; c_sh := h |})).
    { apply in_flat_map. exists th. split; [eapply nth_error_In, Hu|]. unfold thr_unput. rewrite Pc. cbn. auto. }
    apply (NoDup_app_disjoint _ _ _ N U).
    apply in_or_app; right. apply in_or_app; right. apply in_or_app; left. exact Hd.
  - rewrite Ed, El.
    destruct (pop_min_some _ _ _ _ Hpop) as (_ & _ & _ & _ & I4).
    assert (I1 : In (h_active h, e) (h_pend h)) by (apply (pop_min_in _ _ _ _ Hpop); auto).
    intros k1 [t [q' e2]] k2 Hs [t1 [q1 e1]] He1 -> Hp Hd.
    apply in_app_or in Hd. destruct Hd as [Hd|[Hd|[]]].
    + destruct (D _ _ _ Hs _ He1 eq_refl Hp Hd) as (d1 & d2 & d3 & X).
      exists d1, d2, (d3 ++ [e_sid e]). rewrite X. repeat (rewrite <- ?app_assoc; cbn [app]). reflexivity.
    + (* the entry dispatched now is e2: e1, logged earlier and smaller, cannot still be pending *)
      assert (X : (h_active h, e) = (q', e2)).
      { apply (logged_at _ t _ _ _ N P); [unfold plog; cbn [c_sh]; rewrite Hs; apply in_elt|exact I1|exact Hd]. }
      inversion X; subst q' e2. clear X.
      assert (I1' : In (t1, (h_active h, e1)) (h_putlog h)).
      { rewrite Hs. apply in_or_app. right. right. exact He1. }
      destruct (P _ _ _ I1') as [Y|[Y|Y]].
      * rewrite (I4 _ Y) in Hp. discriminate Hp.
      * cbn [c_sh] in Y. apply in_split in Y. destruct Y as (d1 & d2 & Y).
        exists d1, d2, []. rewrite Y. rewrite <- app_assoc. reflexivity.
      * exfalso. destruct Y as (th0 & H0 & Hp0 & _). cbn [c_thr] in H0.
        pose proof (loop_thread _ _ _ _ S Sf) as ->.
        inversion H0; subst. eapply Nh; eauto.
  - rewrite Ed, El. exact D.
  - rewrite Ed, El. exact D.
Qed.

Lemma tstep_unput : forall u th h th' h', tstep u th h = Some (th', h') ->
  (h_putlog h' = h_putlog h /\ exists d, thr_unput th = d ++ thr_unput th') \/
  (exists q e, h_putlog h' = (u, (q, e)) :: h_putlog h /\ thr_unput th = e_sid e :: thr_unput th').
Proof.
  intros u th h th' h' H. destruct (tstep_spec _ _ _ _ _ H) as (l & h0 & -> & M). open_move M.
  all: first [left; split; [reflexivity|]; first [exists []; reflexivity|eexists [_]; reflexivity]
             |right; eexists _, _; split; reflexivity].
Qed.

Section Prog.
  Variable progs : list (list action).

  Definition behind (log : list (nat * (nat * entry))) (t : nat) (th : thread) : Prop :=
    forall p, nth_error progs t = Some p ->
    exists pre, prog_sids p = pre ++ thr_unput th /\ forall q e, In (t, (q, e)) log -> In (e_sid e) pre.

  Record ginv (st : cstate) : Prop := {
    (* a thread's program is what it has passed followed by what it has not yet put; its logged entries are passed *)
    log_behind_program : forall t th, nth_error (c_thr st) t = Some th -> behind (plog st) t th;
    log_in_program_order :
      ordered (fun '(t1, (_, e1)) '(t2, (_, e2)) => t1 = t2 -> forall p, nth_error progs t1 = Some p ->
                 exists a b c, prog_sids p = a ++ e_sid e1 :: b ++ e_sid e2 :: c) (plog st)
  }.

  Lemma ginv_step : forall t st, ginv st -> ginv (step t st).
  Proof.
    intros t st G. destruct (stepP t st) as [t st|l1 th l2 h th' h' Ht]; [exact G|].
    destruct G as [G1 G2]. unfold plog in *. cbn [c_thr c_sh] in *.
    destruct (tstep_unput _ _ _ _ _ Ht) as [(El & d & Un)|(q & e & El & Un)];
      (split; unfold plog; cbn [c_thr c_sh]; rewrite El).
    - apply (mid_lift (behind (h_putlog h)) (behind (h_putlog h)) l1 th); [exact G1| |auto].
      intros X p Hp. destruct (X p Hp) as (pre & X1 & Y). exists (pre ++ d).
      rewrite X1, Un, <- app_assoc. split; [reflexivity|]. intros q e He. apply in_or_app. left. eauto.
    - exact G2.
    - apply (mid_lift (behind (h_putlog h)) (behind (_ :: h_putlog h)) l1 th); [exact G1| |].
      + intros X p Hp. destruct (X p Hp) as (pre & X1 & Y).
        exists (pre ++ [e_sid e]). rewrite X1, Un, <- app_assoc. split; [reflexivity|].
        intros q' e' [He|He]; apply in_or_app.
        * inversion He; subst. right. cbn. auto.
        * left. eauto.
      + intros n a Ne X p Hp. destruct (X p Hp) as (pre & X1 & Y). exists pre. split; [exact X1|].
        intros q' e' [He|He]; [inversion He; congruence|eauto].
    - apply ordered_cons; [exact G2|]. intros [t [q1 e1]] He1 -> p Hp.
      destruct (G1 _ _ (nth_error_mid l1 th l2) _ Hp) as (pre & X & Y). specialize (Y _ _ He1).
      apply in_split in Y. destruct Y as (a & b & Y). exists a, b, (thr_unput th').
      rewrite X, Un, Y, <- app_assoc. reflexivity.
  Qed.

  Lemma ginv_init : ginv (init progs).
  Proof.
    split; unfold plog; cbn [init c_thr c_sh h0 h_putlog].
    - intros t th Hn p Hp. rewrite nth_error_map, Hp in Hn. inversion Hn; subst. exists []. split; [reflexivity|contradiction].
    - apply ordered_nil.
  Qed.
End Prog.

Lemma nodup_split_unique : forall {A} (l : list A) x a1 r1 a2 r2, NoDup l ->
  l = a1 ++ x :: r1 -> l = a2 ++ x :: r2 -> a1 = a2.
Proof.
  intros A l x a1. revert l. induction a1 as [|y a1 IH]; intros l r1 a2 r2 N E1 E2; subst l.
  - destruct a2 as [|z a2]; [reflexivity|]. exfalso. injection E2 as Ez E2. subst z r1.
    inversion N as [|? ? Hni _]. apply Hni, in_elt.
  - destruct a2 as [|z a2]; injection E2 as Ez E2.
    + exfalso. subst y. inversion N as [|? ? Hni _]. apply Hni, in_elt.
    + subst z. f_equal. inversion N as [|? ? _ N']. exact (IH _ _ _ _ N' eq_refl E2).
Qed.

Lemma before_antisym : forall {A} (l : list A) x y a b c a' b' c', NoDup l ->
  l = a ++ x :: b ++ y :: c -> l = a' ++ y :: b' ++ x :: c' -> False.
Proof.
  intros A l x y a b c a' b' c' N H1 H2.
  assert (H2' : l = (a' ++ y :: b') ++ x :: c') by (rewrite H2, <- app_assoc; reflexivity).
  pose proof (nodup_split_unique _ _ _ _ _ _ N H1 H2') as X. subst a.
  rewrite H1 in N. rewrite <- app_assoc in N. cbn [app] in N.
  apply NoDup_remove_2 in N. apply N. apply in_or_app; right. apply in_or_app; right. right. apply in_elt.
Qed.

Lemma nodup_flat_map_nth : forall {A} (f : A -> list nat) l n a, NoDup (flat_map f l) -> nth_error l n = Some a -> NoDup (f a).
Proof.
  intros A f l n a N H. destruct (nth_error_split _ _ H) as (l1 & l2 & -> & _).
  rewrite flat_map_app in N. cbn [flat_map] in N. eapply NoDup_app_remove_r, NoDup_app_remove_l, N.
Qed.

Lemma cinv_reach : forall progs sch, cinv (steps sch (init progs)).
Proof. intros. apply steps_inv; [apply cinv_step|apply cinv_init]. Qed.
Lemma ginv_reach : forall progs sch, ginv progs (steps sch (init progs)).
Proof. intros. apply steps_inv; [apply ginv_step|apply ginv_init]. Qed.
Lemma pinv_reach : forall progs sch, submitters_only progs -> pinv (steps sch (init progs)).
Proof.
  intros progs sch S. apply reach_ind; [intros u q e []|]. intros sch0 t. apply pinv_step, subinv_reach, S.
Qed.

Theorem no_overtaking : forall progs sch, submitters_only progs -> NoDup (all_sids progs) -> dinv (steps sch (init progs)).
Proof.
  intros progs sch S N. apply reach_ind; [apply ordered_nil|].
  intros sch0 t. apply dinv_step; [apply subinv_reach, S|apply no_duplication, N|apply pinv_reach, S].
Qed.

Theorem counter_order : forall progs sch, NoDup (all_sids progs) ->
  let st := steps sch (init progs) in
  forall t p a s1 b s2 c q e1 e2,
    nth_error progs t = Some p -> prog_sids p = a ++ s1 :: b ++ s2 :: c ->
    In (t, (q, e1)) (plog st) -> e_sid e1 = s1 -> In (t, (q, e2)) (plog st) -> e_sid e2 = s2 ->
    exists l1 l2, plog st = l1 ++ (t, (q, e2)) :: l2 /\ In (t, (q, e1)) l2 /\ e_cnt e1 < e_cnt e2.
Proof.
  intros progs sch N st t p a s1 b s2 c q e1 e2 Hp Hord H1 E1 H2 E2.
  pose proof (cinv_reach progs sch) as C. pose proof (ginv_reach progs sch) as G. fold st in C, G.
  assert (Np : NoDup (prog_sids p)) by (eapply (nodup_flat_map_nth prog_sids); eauto).
  assert (Ne : s1 <> s2).
  { intros X. rewrite Hord in Np. apply NoDup_remove_2 in Np. apply Np.
    apply in_or_app. right. rewrite X. apply in_elt. }
  apply in_split in H2. destruct H2 as (k1 & k2 & Hs). rewrite Hs in H1.
  apply in_app_or in H1. destruct H1 as [H1|[H1|H1]].
  - exfalso. apply in_split in H1. destruct H1 as (j1 & j2 & Hj). rewrite Hj in Hs. rewrite <- app_assoc in Hs. cbn [app] in Hs.
    destruct (log_in_program_order _ _ G _ _ _ Hs (t, (q, e2)) (in_elt _ _ _) eq_refl _ Hp) as (a' & b' & c' & X).
    rewrite E1, E2 in X. eapply before_antisym; eauto.
  - exfalso. inversion H1; subst. congruence.
  - exists k1, k2. repeat split; auto. exact (counters_increase _ C _ _ _ Hs _ H1 eq_refl eq_refl).
Qed.

Theorem thread_order : forall progs sch, submitters_only progs -> NoDup (all_sids progs) ->
  let st := steps sch (init progs) in
  forall t p a s1 b s2 c q e1 e2,
    nth_error progs t = Some p -> prog_sids p = a ++ s1 :: b ++ s2 :: c ->
    In (t, (q, e1)) (plog st) -> e_sid e1 = s1 -> In (t, (q, e2)) (plog st) -> e_sid e2 = s2 ->
    e_cnt e1 < e_cnt e2 /\
    (e_prio e1 = e_prio e2 -> In s2 (h_disp (c_sh st)) ->
     exists d1 d2 d3, h_disp (c_sh st) = d1 ++ s1 :: d2 ++ s2 :: d3).
Proof.
  intros progs sch S N st t p a s1 b s2 c q e1 e2 Hp Hord H1 E1 H2 E2.
  destruct (counter_order progs sch N t p a s1 b s2 c q e1 e2 Hp Hord H1 E1 H2 E2) as (k1 & k2 & Hs & I1 & Lt).
  split; [exact Lt|]. intros Hpr Hd. subst s1 s2. apply (no_overtaking progs sch S N _ _ _ Hs _ I1 eq_refl); [|exact Hd].
  unfold entry_le. rewrite Hpr, Z.ltb_irrefl, Z.eqb_refl. apply Nat.leb_gt, Lt.
Qed.

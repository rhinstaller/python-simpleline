(* C06Proofs.v — "each typed line reaches exactly the screen that asked".
   1. chk_C06 (with the comparison of the arguments) accepts every well-formed session: the arguments belong to the
      request (its handler's callback carries them; fix of finding F15);
   2. chk_C06_noargs = chk_C06 without the comparison of the arguments; chk_C06 is the stronger one;
   3. pure corollary of acceptance: a line delivered as a successful result is a typed line, unmodified;
   4. the legacy model (InputManager._input_args read at delivery time: one slot per screen) and the F15 session. *)
From SL Require Import Tac.
From RecordUpdate Require Import RecordUpdate.
From SL Require Import PyInt LoopSem ScreenSem ScreenMon proofs.ListFacts proofs.ScreenFacts proofs.InputLink.
Import ListNotations.

Theorem lines_delivered specs specl typed quit run_empty fuel acts :
  (forall n, specs n = nth n specl default_spec) -> wf_session specl quit acts = true ->
  sok chk_C06 typed (rev (trace (snd (app_run_all specs specl typed quit run_empty fuel acts)))) = true.
Proof. apply (accepted_by chk_C06 false). intros w e H. apply (chk_all_split _ _ _ _ _ H). Qed.

Lemma chk_C06_stronger w e : chk_C06 w e = true -> chk_C06_noargs w e = true.
Proof.
  unfold chk_C06, chk_C06_noargs. intros H. apply andb_true_iff in H. destruct H as [H1 H2]. rewrite H2, andb_true_r.
  destruct (sw_must_input w) as [[[scr args] text]|]; [|reflexivity]. destruct e; try exact H1.
  apply andb_true_iff in H1. destruct H1 as [H1 H4]. apply andb_true_iff in H1. destruct H1 as [H1 H3].
  rewrite H1, H4. reflexivity.
Qed.

Lemma C06_must_input_meaning w scr args text e : sw_must_input w = Some (scr, args, text) -> chk_C06 w e = true ->
  match e with
  | EUser tag a t => tag = T_INPUT /\ nth0 a 0 = scr /\ nth0 a 1 = args /\ streq t text = true
  | EHandlerEnd _ _ _ => False
  | _ => True
  end.
Proof.
  intros M H. unfold chk_C06 in H. rewrite M in H. apply andb_true_iff in H. destruct H as [H _]. destruct e; auto; [discriminate H|].
  apply andb_true_iff in H. destruct H as [H H4]. apply andb_true_iff in H. destruct H as [H H3]. apply andb_true_iff in H. destruct H as [H1 H2].
  apply Nat.eqb_eq in H1, H2, H3. auto.
Qed.

Lemma C06_input_only_when_due w a t : chk_C06_noargs w (EUser T_INPUT a t) = true -> sw_must_input w <> None.
Proof.
  unfold chk_C06_noargs. intros H. apply andb_true_iff in H. destruct H as [_ H]. cbn [T_INPUT T_READY Nat.eqb] in H.
  destruct (sw_must_input w); [discriminate|discriminate H].
Qed.

Definition line_of (l : option str) : str := match l with Some s => s | None => [] end.

Definition mintact (typed : list (option str)) (m : mw) : Prop :=
  exists k, m_typed m = skipn k typed /\
            (m_line m = [] \/ In (m_line m) (map line_of (firstn k typed))) /\
            (forall x, In x (m_hand m) -> snd x = [] \/ In (snd x) (map line_of (firstn k typed))).
Lemma mk_intact typed m k : m_typed m = skipn k typed ->
  (m_line m = [] \/ In (m_line m) (map line_of (firstn k typed))) ->
  (forall x, In x (m_hand m) -> snd x = [] \/ In (snd x) (map line_of (firstn k typed))) -> mintact typed m.
Proof. intros. exists k. auto. Qed.


Lemma mintact_step typed m e : mintact typed m -> mintact typed (mstep m e).
Proof.
  intros (k & T & Ln & H).
  assert (HH : forall x, In x (hand_after m e) -> snd x = [] \/ In (snd x) (map line_of (firstn k typed))).
  { unfold hand_after, received. destruct e; try exact H.
    - destruct (m_istack m); [exact H|]. destruct (_ =? _)%nat; [|exact H]. intros x I. apply in_app_or in I.
      destruct I as [I|[<-|I]]; [auto|exact Ln|]. apply in_map_iff in I. destruct I as (r & <- & _). left. reflexivity.
    - destruct (tag =? T_READY)%nat; [|exact H]. intros x I. apply H. eapply remove_first_sub, I. }
  destruct e; try (apply (mk_intact typed _ k); assumption).
  unfold mintact, mstep. cbn [m_typed m_line m_hand typed_after line_after]. destruct (reads tag args); [|exists k; auto].
  (* the reader takes the next typed line *)
  destruct (m_typed m) as [|ln r] eqn:E.
  - exists k. split; [exact T|]. split; [left; reflexivity|exact HH].
  - destruct (firstn_S_skipn _ _ _ _ (eq_sym T)) as [A B].
    exists (S k). rewrite A, B, map_app. split; [reflexivity|]. split.
    + right. apply in_or_app. right. left. destruct ln; reflexivity.
    + intros x I. destruct (HH x I) as [X|X]; [auto|right]. apply in_or_app. left. exact X.
Qed.

Definition intact (typed : list (option str)) (w : sworld) : Prop := mintact typed (absw w).

Lemma intact_step typed w e : intact typed w -> intact typed (sworld_step w e).
Proof. unfold intact. rewrite abs_step. apply mintact_step. Qed.

Lemma intact_init typed : intact typed (sworld0 typed).
Proof. apply (mk_intact typed _ 0); cbn; auto. Qed.

Theorem delivered_lines_intact typed t1 n text t2 :
  sok chk_C06_noargs typed (t1 ++ EUser T_READY [n; 1] text :: t2) = true ->
  streq [] text = true \/ exists l, In l typed /\ streq (line_of l) text = true.
Proof.
  intros H. apply sok_event in H. rename H into X.
  pose proof (fold_inv sworld_step _ (intact_step typed) t1 _ (intact_init typed)) as (k & _ & _ & HH).
  unfold chk_C06_noargs in X. apply andb_true_iff in X. destruct X as [_ X]. cbn [T_READY Nat.eqb] in X.
  apply existsb_exists in X. destruct X as (x & I & C). apply andb_true_iff in C. destruct C as [_ C].
  destruct (HH x I) as [E|E]; [left; rewrite <- E; exact C|right].
  apply in_map_iff in E. destruct E as (l & E & I2). exists l. split; [eapply In_firstn; exact I2|rewrite E; exact C].
Qed.

(* an example session: 3 screens (1 pushed with arguments 3, 2 pushed modally), 7 lines incl. an empty one and EOF *)
Definition ex06_spec (inp : list (str * (list scmd * ret_val))) : screen_spec :=
  {| sc_setup := []; sc_refresh := []; sc_show := []; sc_closed := []; sc_input := inp;
     sc_input_default := ([], None); sc_prompt_none := false; sc_input_required := true;
     sc_no_separator := false; sc_skip_check := false; sc_pages := 0; sc_answer0 := AnsNoAttr; sc_custom := []; sc_setup_cmds := [] |}.
Definition ex06_specl : list screen_spec :=
  [ex06_spec [([49%N], ([SPush 1 3], RProcessed)); ([50%N], ([SPushModal 2 0], RProcessed))];
   ex06_spec []; ex06_spec []].
Definition ex06_fargs (s : nat) : nat := if (s =? 1)%nat then 3 else 0.
Definition ex06_typed : list (option str) :=
  [Some [49%N]; Some []; Some [104%N; 101%N; 108%N; 108%N; 111%N]; Some [99%N]; Some [50%N]; Some [32%N; 120%N; 32%N]; None].
Definition ex06_acts : list saction := [SACmds [SSchedule 0 0]; SARun].
Definition ex06_run := app_run_all (fun n => nth n ex06_specl default_spec) ex06_specl ex06_typed None false 3000 ex06_acts.
Definition ex06_trace : list event := rev (trace (snd ex06_run)).
(* a setup() that runs commands: screen 0's setup() pushes screen 1 modally with arguments 5 (T_SETUP_BEGIN); the modal
   screen gets the first typed line (and closes), then setup() reports success and screen 0 gets the second line *)
Definition su06_spec (cmds : list scmd) (inp : list (str * (list scmd * ret_val))) : screen_spec :=
  {| sc_setup := []; sc_refresh := []; sc_show := []; sc_closed := []; sc_input := inp;
     sc_input_default := ([], None); sc_prompt_none := false; sc_input_required := true;
     sc_no_separator := false; sc_skip_check := false; sc_pages := 0; sc_answer0 := AnsNoAttr; sc_custom := [];
     sc_setup_cmds := cmds |}.
Definition su06_specl : list screen_spec :=
  [su06_spec [SPushModal 1 5] []; su06_spec [] [([49%N], ([SCloseNow], RProcessed))]].
Definition su06_typed : list (option str) := [Some [49%N]; Some [50%N]; None].
Definition su06_acts : list saction := [SACmds [SSchedule 0 0]; SARun].
Definition su06_run := app_run_all (fun n => nth n su06_specl default_spec) su06_specl su06_typed None false 3000 su06_acts.
Definition su06_trace : list event := rev (trace (snd su06_run)).
Definition user_events (tag : nat) (t : list event) : list (list nat * str) :=
  flat_map (fun e => match e with EUser tg a x => if (tg =? tag)%nat then [(a, x)] else [] | _ => [] end) t.

(* finding F15 (fixed): the arguments handed to input() were the InputManager's latest, not the request's.
   LEGACY model = the code before the fix: InputHandler's callback was InputManager.process_input itself, which read
   self._input_args - written by every get_input() of the screen - at delivery time.  Only the ready handler differs:
   it does not put the request's arguments in place. *)
Definition legacy_input_ready_handler (specs : nat -> screen_spec) (n : nat) (sg : signal) : sprog :=
  if negb (sg_a sg =? n)%nat then PRet
  else
    wr (upd_ih n (fun h => h <| ih_received := true |> <| ih_success := sg_b sg |>)) ;;
    evt T_READY [n; b2n (sg_b sg)] (sg_data sg) ;;
    if negb (sg_b sg) then PRet
    else
      wr (upd_ih n (fun h => h <| ih_value := Some (sg_data sg) |>)) ;;
      rd (fun u => if ih_cb (ih_of u n)
                   then wr (upd_ih n (fun h => h <| ih_cb := false |>)) ;; process_input specs (ih_owner (ih_of u n)) (sg_data sg)
                   else PRet).
Definition legacy_screen_code (specs : nat -> screen_spec) (hid : nat) (sg : signal) (data : nat) : sprog :=
  if (hid =? H_RENDER)%nat || (hid =? H_CLOSE)%nat || (hid =? H_RECEIVED)%nat then screen_code specs hid sg data
  else if (10 <=? hid)%nat then legacy_input_ready_handler specs (hid - 10) sg
  else screen_code specs hid sg data.                (* a screen's own signal callback, or nothing *)
Fixpoint legacy_app_session (specs : nat -> screen_spec) (fuel : nat) (acts : list saction) (s : lstate sstate)
  : list outcome * lstate sstate :=
  match acts with
  | [] => ([], s)
  | a :: r =>
    let '(o, s1) :=
      match a with
      | SACmds l => exec (legacy_screen_code specs) fuel (CProg (run_cmds specs 0 0 l)) (emit ETop s)
      | SARun =>
        match st_stack (ust s), st_run_empty (ust s) with
        | [], false => (OThrow XError, emit ETop s)
        | _, _ => exec (legacy_screen_code specs) fuel CRun (emit ETop s)
        end
      end in
    match o with
    | OBlocked | OFuel | OThrow XSysExit => ([o], s1)
    | _ => let '(os, s2) := legacy_app_session specs fuel r s1 in (o :: os, s2)
    end
  end.
Definition legacy_app_run_all (specs : nat -> screen_spec) (specl : list screen_spec) (typed : list (option str))
           (quit : option nat) (run_empty : bool) (fuel : nat) (acts : list saction) : list outcome * lstate sstate :=
  let s0 := init_state (sstate0 specl typed quit run_empty) in
  let '(_, s1) := exec (legacy_screen_code specs) 20 (CProg app_initialize) s0 in
  legacy_app_session specs fuel acts s1.

(* the F15 session (corpus/screen/regression_F15_args_overwritten.json): run() twice after force_quit; the refused second request
   of the same screen, scheduled a second time with arguments 2, overwrote InputManager._input_args *)
Definition f15_spec : screen_spec :=
  {| sc_setup := []; sc_refresh := [SIfCount 1 [] [SForceQuit]]; sc_show := [SIfCount 1 [SPush 0 2] []]; sc_closed := [];
     sc_input := []; sc_input_default := ([], Some RProcessed); sc_prompt_none := false; sc_input_required := true;
     sc_no_separator := false; sc_skip_check := false; sc_pages := 0; sc_answer0 := AnsNoAttr; sc_custom := []; sc_setup_cmds := [] |}.
Definition f15_typed : list (option str) := [Some [49%N]; Some [50%N]].
Definition f15_acts : list saction := [SACmds [SSchedule 0 1]; SARun; SARun].
Definition f15_trace : list event :=
  rev (trace (snd (app_run_all (fun n => nth n [f15_spec] default_spec) [f15_spec] f15_typed None false 500 f15_acts))).
Definition f15_legacy_trace : list event :=
  rev (trace (snd (legacy_app_run_all (fun n => nth n [f15_spec] default_spec) [f15_spec] f15_typed None false 500 f15_acts))).

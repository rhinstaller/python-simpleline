(* C15 — drawing and writing into a widget change exactly the intended cells.
   Theorem statements; the proofs are lemmas of proofs/WidgetProofs.v; C15_write_empty and the example hold by
   computation.

   Vocabulary (defined in proofs/WidgetProofs.v):
     cell b i j     : option char   the character at row i, column j of buffer b (None: no such cell)
     row_len b i    : nat           length of row i (0 if the row does not exist)
     path text x y col width block  the positions written by the typewriter, one per non-newline character
     visible text                   the non-newline characters of text, in order
     path_end / need_rows           final cursor / number of rows made to exist, same recursion, no buffer
     pos_lt                         reading order on positions (row first, then column)
   Model (Widget.v): draw T r c block S = (buffer, cursor) for T.draw(S, r, c, block);
                     write b cur text row col width block = (buffer, cursor) for b.write(text, row, col, width, block). *)
From Coq Require Import ZArith NArith List Bool.
From SL Require Import Widget proofs.WidgetProofs.
Import ListNotations.

(* every cell of the result, in one formula: source character inside the rectangle; otherwise the old
   character if there was one; otherwise a blank if the row is a drawn row and the column is left of
   the start column (padding, also for an empty source row); otherwise nothing *)
Theorem C15_draw_cells : forall T r c block S i j,
  cell (fst (draw T r c block S)) i j =
  if (r <=? i) && (i <? r + length S) && (c <=? j) && (j <? c + row_len S (i - r))
  then cell S (i - r) (j - c)
  else match cell T i j with
       | Some ch => Some ch
       | None => if (r <=? i) && (i <? r + length S) && (j <? c) then Some SP else None
       end.
Proof. exact draw_cells. Qed.

(* the same, as four separate implications that together cover every (i, j) *)
Theorem C15_draw_inside : forall T r c block S i j,
  r <= i -> i < r + length S -> c <= j -> j < c + row_len S (i - r) ->
  cell (fst (draw T r c block S)) i j = cell S (i - r) (j - c).
Proof. exact draw_inside. Qed.

Theorem C15_draw_outside_kept : forall T r c block S i j ch,
  ~ (r <= i < r + length S /\ c <= j < c + row_len S (i - r)) ->
  cell T i j = Some ch ->
  cell (fst (draw T r c block S)) i j = Some ch.
Proof. exact draw_outside_kept. Qed.

Theorem C15_draw_padding : forall T r c block S i j,
  r <= i -> i < r + length S -> row_len T i <= j -> j < c ->
  cell (fst (draw T r c block S)) i j = Some SP.
Proof. exact draw_padding. Qed.

Theorem C15_draw_absent : forall T r c block S i j,
  ~ (r <= i < r + length S /\ j < c + row_len S (i - r)) ->
  cell T i j = None ->
  cell (fst (draw T r c block S)) i j = None.
Proof. exact draw_absent. Qed.

(* the target grows only as far as needed: number of rows, and the length of every row *)
Theorem C15_draw_height : forall T r c block S,
  length (fst (draw T r c block S)) = Nat.max (length T) (r + length S).
Proof. exact draw_height. Qed.

Theorem C15_draw_row_length : forall T r c block S i,
  row_len (fst (draw T r c block S)) i =
  if (r <=? i) && (i <? r + length S) then Nat.max (row_len T i) (c + row_len S (i - r)) else row_len T i.
Proof. exact draw_row_len. Qed.

(* the cursor is left on the row below, same column in block mode, first column otherwise *)
Theorem C15_draw_cursor : forall T r c block S,
  snd (draw T r c block S) = (r + length S, if block then c else 0).
Proof. exact draw_cursor. Qed.

Theorem C15_write_empty : forall b cur row col width block,
  write b cur [] row col width block = (b, cur).
Proof. reflexivity. Qed.

(* one position per written character; positions strictly increase in reading order, so no position
   is written twice *)
Theorem C15_write_path_length : forall text x y col width block,
  length (path text x y col width block) = length (visible text).
Proof. exact path_length. Qed.

Theorem C15_write_path_increasing : forall text x y col width block k1 k2 p1 p2,
  k1 < k2 ->
  nth_error (path text x y col width block) k1 = Some p1 ->
  nth_error (path text x y col width block) k2 = Some p2 ->
  pos_lt p1 p2.
Proof. intros text x y col width block k1 k2 p1 p2. intros. eapply sorted_nth; eauto. apply path_sorted. Qed.

Theorem C15_write_path_distinct : forall text x y col width block,
  NoDup (path text x y col width block).
Proof. intros text x y col width block. apply sorted_NoDup, path_sorted. Qed.

(* the k-th written character is found at the k-th position of the path *)
Theorem C15_write_path : forall b cur text row col width block k p ch,
  nth_error (path text row col col width block) k = Some p ->
  nth_error (visible text) k = Some ch ->
  cell (fst (write b cur text row col width block)) (fst p) (snd p) = Some ch.
Proof. intros b cur text row col width block k p ch. rewrite write_buffer. apply typewriter_written. Qed.

(* a cell off the path: unchanged if it existed; a blank if it lies left of a written position on the
   same row beyond the old row end; absent otherwise *)
Theorem C15_write_elsewhere_kept : forall b cur text row col width block i j v,
  ~ In (i, j) (path text row col col width block) ->
  cell b i j = Some v ->
  cell (fst (write b cur text row col width block)) i j = Some v.
Proof. intros b cur text row col width block i j v. rewrite write_buffer. apply typewriter_kept. Qed.

Theorem C15_write_elsewhere_padding : forall b cur text row col width block i j j',
  ~ In (i, j) (path text row col col width block) ->
  cell b i j = None ->
  In (i, j') (path text row col col width block) -> j < j' ->
  cell (fst (write b cur text row col width block)) i j = Some SP.
Proof. intros b cur text row col width block i j j'. rewrite write_buffer. apply typewriter_padding. Qed.

Theorem C15_write_elsewhere_absent : forall b cur text row col width block i j,
  ~ In (i, j) (path text row col col width block) ->
  cell b i j = None ->
  (forall j', In (i, j') (path text row col col width block) -> j' < j) ->
  cell (fst (write b cur text row col width block)) i j = None.
Proof. intros b cur text row col width block i j. rewrite write_buffer. apply typewriter_absent. Qed.

(* rows: the rows of the written characters and the rows entered by a newline are made to exist (empty) *)
Theorem C15_write_height : forall b cur text row col width block,
  length (fst (write b cur text row col width block)) =
  Nat.max (length b) (need_rows text row col col width block).
Proof. intros b cur text row col width block. rewrite write_buffer. apply typewriter_height. Qed.

Theorem C15_write_cursor : forall b cur text row col width block,
  text <> [] ->
  snd (write b cur text row col width block) = path_end text row col col width block.
Proof. exact write_cursor. Qed.

(* wrapping: with a width w >= 1 no character is written at or right of column col + w, and in block
   mode none left of col *)
Theorem C15_write_wraps : forall text row col w block i j,
  1 <= w ->
  In (i, j) (path text row col col (Some w) block) ->
  j < col + w /\ (block = true -> col <= j).
Proof. exact write_wraps. Qed.

(* reading order, closed form for a text without newlines:
   block mode     — rows of w characters starting at column col;
   non-block mode — the first row starts at col, every row ends before col + w, later rows start at 0;
   no width       — a single row *)
Theorem C15_write_block_reading_order : forall text row col w k,
  1 <= w ->
  Forall (fun ch => (ch =? NL)%N = false) text ->
  k < length text ->
  nth_error (path text row col col (Some w) true) k = Some (row + k / w, col + k mod w).
Proof. exact write_block_reading_order. Qed.

Theorem C15_write_nonblock_reading_order : forall text row col w k,
  1 <= w ->
  Forall (fun ch => (ch =? NL)%N = false) text ->
  k < length text ->
  nth_error (path text row col col (Some w) false) k =
  Some (row + (col + k) / (col + w), (col + k) mod (col + w)).
Proof. exact write_nonblock_reading_order. Qed.

Theorem C15_write_nowidth_reading_order : forall text x y col block k,
  Forall (fun ch => (ch =? NL)%N = false) text ->
  k < length text ->
  nth_error (path text x y col None block) k = Some (x, y + k).
Proof. intros text x y col block k. intros Hall Hk. rewrite path_line by exact Hall. apply line_path_nth, Hk. Qed.

(* a newline: what follows continues one row below the current one, at col (block) or at 0 *)
Theorem C15_write_newline : forall t1 t2 x y col width block,
  path (t1 ++ NL :: t2) x y col width block =
  path t1 x y col width block ++
  path t2 (S (fst (path_end t1 x y col width block))) (if block then col else 0) col width block.
Proof. exact path_newline. Qed.

(* target "abcde" / "fg" / "hijk", source "XY" / "Z":
   drawn at (2,3) it overwrites the end of row 2, extends it, and creates row 3 padded with blanks;
   drawn at (1,4) in block mode it pads row 1 and extends row 2;
   "123\n4" written at (1,1) with width 2 in block mode *)
Example C15_example :
  let T := [[97; 98; 99; 100; 101]; [102; 103]; [104; 105; 106; 107]]%N in
  let S := [[88; 89]; [90]]%N in
  draw T 2 3 false S =
    ([[97; 98; 99; 100; 101]; [102; 103]; [104; 105; 106; 88; 89]; [32; 32; 32; 90]]%N, (4, 0)) /\
  draw T 1 4 true S =
    ([[97; 98; 99; 100; 101]; [102; 103; 32; 32; 88; 89]; [104; 105; 106; 107; 90]]%N, (3, 4)) /\
  write T (0, 0) [49; 50; 51; 10; 52]%N 1 1 (Some 2) true =
    ([[97; 98; 99; 100; 101]; [102; 49; 50]; [104; 51; 106; 107]; [32; 52]]%N, (3, 2)) /\
  path [49; 50; 51; 10; 52]%N 1 1 1 (Some 2) true = [(1, 1); (1, 2); (2, 1); (3, 1)].
Proof. vm_compute. repeat split. Qed.

Print Assumptions C15_draw_cells.
Print Assumptions C15_draw_inside.
Print Assumptions C15_draw_outside_kept.
Print Assumptions C15_draw_padding.
Print Assumptions C15_draw_absent.
Print Assumptions C15_draw_height.
Print Assumptions C15_draw_row_length.
Print Assumptions C15_draw_cursor.
Print Assumptions C15_write_empty.
Print Assumptions C15_write_path_length.
Print Assumptions C15_write_path_increasing.
Print Assumptions C15_write_path_distinct.
Print Assumptions C15_write_path.
Print Assumptions C15_write_elsewhere_kept.
Print Assumptions C15_write_elsewhere_padding.
Print Assumptions C15_write_elsewhere_absent.
Print Assumptions C15_write_height.
Print Assumptions C15_write_cursor.
Print Assumptions C15_write_wraps.
Print Assumptions C15_write_block_reading_order.
Print Assumptions C15_write_nonblock_reading_order.
Print Assumptions C15_write_nowidth_reading_order.
Print Assumptions C15_write_newline.

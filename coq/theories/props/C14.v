(* C14 — the number shown next to an item is the number that selects it.
   Theorem statements; the proofs are [exact] of lemmas in proofs/C14Proofs.v and proofs/PyIntProofs.v, except
   C14_label_shows_number, C14_not_a_string, C14_numbering_off and the example, which hold by computation. *)
From Coq Require Import ZArith NArith List.
From SL Require Import PyInt KeyPattern proofs.PyIntProofs proofs.C14Proofs.
Import ListNotations.
Local Open Scope Z_scope.

(* the displayed label is prefix ++ number ++ suffix, for every pattern of the family *)
Theorem C14_label_shows_number kp i :
  get_widget_label kp i = kp_prefix kp ++ shown_number kp i ++ kp_suffix kp.
Proof. reflexivity. Qed.

(* typing exactly the displayed number fires exactly that item's callback (once; nothing if it has none), handled *)
Theorem C14_roundtrip : forall kp items i it,
  nth_error items i = Some it ->
  process_user_input (Some kp) items (KStr (shown_number kp i)) = (true, fire it).
Proof. exact roundtrip. Qed.

(* distinct items show distinct numbers, for every offset *)
Theorem C14_numbers_distinct : forall kp i j, shown_number kp i = shown_number kp j -> i = j.
Proof. exact numbers_distinct. Qed.

(* any key that int() reads as the displayed number selects that item ... *)
Theorem C14_selected : forall kp items s i it,
  parse_int s = Some (Z.of_nat i + kp_offset kp) ->
  nth_error items i = Some it ->
  process_user_input (Some kp) items (KStr s) = (true, fire it).
Proof. exact selected. Qed.

(* ... and every other string (zero / negative / too large relative to the displayed range,
   text, empty) fires nothing and is reported as not handled *)
Theorem C14_nothing_else : forall kp items s,
  (forall i, (i < length items)%nat -> parse_int s <> Some (Z.of_nat i + kp_offset kp)) ->
  process_user_input (Some kp) items (KStr s) = (false, []).
Proof. exact not_selected. Qed.

Theorem C14_not_a_string : forall kp items, process_user_input kp items KNotStr = (false, []).
Proof. intros [kp|] items; reflexivity. Qed.

Theorem C14_numbering_off : forall items k, process_user_input None items k = (false, []).
Proof. reflexivity. Qed.

Theorem C14_at_most_one_callback : forall kp items k,
  (length (snd (process_user_input kp items k)) <= 1)%nat.
Proof. exact at_most_one. Qed.

Theorem C14_parse_int_dec : forall z, parse_int (dec z) = Some z.
Proof. exact parse_int_dec. Qed.

(* non-vacuity: offset 5, three items, the middle one without callback *)
Example C14_example :
  let kp := {| kp_prefix := []; kp_suffix := [41; 32]%N; kp_offset := 5 |} in
  let items := [ {| it_callback := Some 7%nat; it_data := 70%nat |};
                 {| it_callback := None; it_data := 0%nat |};
                 {| it_callback := Some 9%nat; it_data := 90%nat |} ] in
  get_widget_label kp 2 = [55; 41; 32]%N /\
  process_user_input (Some kp) items (KStr [55]%N) = (true, [(9%nat, 90%nat)]) /\
  process_user_input (Some kp) items (KStr [54]%N) = (true, []) /\
  process_user_input (Some kp) items (KStr [49]%N) = (false, []) /\
  process_user_input (Some kp) items (KStr [56]%N) = (false, []).
Proof. vm_compute. repeat split. Qed.

Print Assumptions C14_label_shows_number.
Print Assumptions C14_roundtrip.
Print Assumptions C14_numbers_distinct.
Print Assumptions C14_selected.
Print Assumptions C14_nothing_else.
Print Assumptions C14_not_a_string.
Print Assumptions C14_numbering_off.
Print Assumptions C14_at_most_one_callback.
Print Assumptions C14_parse_int_dec.

(* C17 — console output is append-only and stays within the configured width.
   "Everything the framework itself emits is appended to the end of the output as plain lines: it never emits
    carriage returns, backspaces or cursor or erase sequences, so nothing already printed is rewritten.  Every
    screen draw is preceded by the two-line separator of exactly the configured width unless the screen disables
    it, and every line the framework produces - separator, title, wrapped text, list layout, prompt - is, ignoring
    trailing blanks, no longer than the configured width."
   Theorem statements; the proofs are lemmas of proofs/C17Proofs.v (C17_tree_within_width: proofs/ContainersFinal.v);
   the examples hold by computation.

   Model: ScreenOut.v.  [draw_output no_separator window w H] is the list of characters the process writes during
   one ScreenScheduler._draw_screen of a screen whose window is [window], at configured width [w] and screen height
   [H], with the outcome (ROk tt, or the exception that ended the draw: what was written before it is still there).
   It is built from [spacer] (ScreenScheduler._spacer), [Paging.show_all] (UIScreen.show_all: render the window,
   print it page by page) and [Prompt.text_prompt] (the press-ENTER prompt between pages).  [draw_terminal] is the
   same with the line feed echoed by the terminal when the user answers a press-ENTER prompt; [prompt_output] is
   the prompt written after the draw.  Characters are code points; [split_lines] cuts a stream at every line feed.
   Vocabulary (end of ScreenOut.v): [forbidden], [rstrip_sp], [texts_of_tree], [chars_of_tree], [tree_texts_ok],
   [fitting_tree], [prompt_app_chars], [prompt_literals], [own_chars]. *)
From Coq Require Import ZArith NArith List Bool.
From SL Require Import PyInt Widget TextWrap KeyPattern Containers Prompt Paging ScreenOut
     proofs.ContainersLayout proofs.ContainersFinal proofs.C17Proofs.
Import ListNotations.

(* a rendered widget tree (any nesting of texts, separators, centred widgets, columns, checkboxes, list containers,
   windows; any width; [tree_texts_ok]: every text meets the chunk contract) consists of blanks and of characters of
   the application's strings and labels that are NOT in textwrap._whitespace ("\t\n\v\f\r "): wrapping turns each of
   those into a blank, copies everything else *)
Theorem C17_charset_render : forall t w b c,
  tree_texts_ok t -> render_tree t w = ROk b -> In c (concat b) ->
  c = SP \/ (In c (chars_of_tree t) /\ is_tw_space c = false).
Proof. exact charset_render. Qed.

(* hence no rendered line contains a tab, line feed, vertical tab, form feed or carriage return, whatever the
   application's strings contain *)
Theorem C17_no_layout_controls : forall t w b c,
  tree_texts_ok t -> render_tree t w = ROk b -> In c (concat b) -> is_tw_space c = true -> c = SP.
Proof. exact render_no_layout_chars. Qed.

Theorem C17_lines_have_no_newline : forall t w b,
  tree_texts_ok t -> render_tree t w = ROk b -> Forall (Forall (fun c => c <> NL)) b.
Proof. exact render_lines_no_nl. Qed.

(* the building blocks (P: any set of characters containing the blank): drawing and typing only move characters *)
Theorem C17_chars_draw : forall (P : char -> Prop), P SP -> forall b row col block src,
  Forall (Forall P) b -> Forall (Forall P) src -> Forall (Forall P) (fst (draw b row col block src)).
Proof. exact chars_draw. Qed.

Theorem C17_chars_write : forall (P : char -> Prop), P SP -> forall b cur text row col width block,
  Forall (Forall P) b -> Forall (fun c => c = NL \/ P c) text ->
  Forall (Forall P) (fst (write b cur text row col width block)).
Proof. exact chars_write. Qed.

Theorem C17_chars_munge : forall s,
  Forall (fun c => c = SP \/ (In c s /\ is_tw_space c = false)) (munge s).
Proof. exact chars_munge. Qed.

(* Prompt.__str__ adds only the literals "[" "]" "'" " " "," ":" to the message, the keys and the descriptions *)
Theorem C17_prompt_str_chars : forall p c,
  In c (prompt_str p) -> In c prompt_literals \/ In c (prompt_app_chars p).
Proof. exact prompt_str_chars. Qed.

(* the prompt as written: line feeds (line breaks of the wrapping), blanks, and non-blank characters of str(prompt) *)
Theorem C17_charset_prompt : forall p chunks w s c,
  chunks_ok {| t_text := prompt_str p; t_chunks := chunks |} = true ->
  prompt_output p chunks w = ROk s -> In c s ->
  c = NL \/ c = SP \/ ((In c prompt_literals \/ In c (prompt_app_chars p)) /\ is_tw_space c = false).
Proof. exact chars_prompt_output. Qed.

(* one whole draw (separator, content page by page, press-ENTER prompts; complete or ended by an exception):
   every character is one of the framework's own ([own_chars]: line feed, blank, "=", the press-ENTER prompt),
   the terminal's echo, or a non-whitespace character of the application's strings *)
Theorem C17_charset_draw : forall echo ns win w H c,
  tree_texts_ok win -> In c (fst (draw_output_echo echo ns win w H)) ->
  In c own_chars \/ In c echo \/ (In c (chars_of_tree win) /\ is_tw_space c = false).
Proof. exact charset_draw. Qed.

(* the framework's own characters are the line feed and printable ASCII *)
Theorem C17_own_chars_plain : forall c, In c own_chars -> c = NL \/ (32 <= c /\ c < 127)%N.
Proof. exact own_chars_plain. Qed.

Theorem C17_prompt_literals_plain : forall c, In c prompt_literals -> (32 <= c /\ c < 127)%N.
Proof. exact prompt_literals_plain. Qed.

(* forbidden = BS, TAB, VT, FF, CR, ESC, DEL.  If the application's strings contain none of them - other than the
   blanks TAB, VT, FF, CR, which wrapping normalises - then a draw writes none, for every width, height, tree *)
Theorem C17_charset_framework : forall ns win w H,
  tree_texts_ok win ->
  (forall c, In c (chars_of_tree win) -> is_tw_space c = false -> forbidden c = false) ->
  Forall (fun c => forbidden c = false) (fst (draw_output ns win w H)).
Proof. exact charset_framework. Qed.

Theorem C17_charset_framework_prompt : forall p chunks w s,
  chunks_ok {| t_text := prompt_str p; t_chunks := chunks |} = true ->
  (forall c, In c (prompt_app_chars p) -> is_tw_space c = false -> forbidden c = false) ->
  prompt_output p chunks w = ROk s -> Forall (fun c => forbidden c = false) s.
Proof. exact charset_prompt. Qed.

(* append-only: the only control character (< 32, or DEL) the framework itself writes is the line feed; any other
   one is a non-whitespace character of the application's own strings, copied *)
Theorem C17_append_only : forall ns win w H c,
  tree_texts_ok win -> In c (fst (draw_output ns win w H)) -> (c < 32 \/ c = 127)%N ->
  c = NL \/ (In c (chars_of_tree win) /\ is_tw_space c = false).
Proof. exact append_only. Qed.

(* and every line feed is the end of a printed line: content that fits the screen (fewer than H - 2 lines) is
   written as the separator and then the window's lines, each followed by one line feed, nothing else;
   reading the stream back gives exactly those lines *)
Theorem C17_stream_fits_screen : forall echo ns win w H b,
  render_tree win w = ROk b -> (Z.of_nat (length b) < H - 2)%Z ->
  draw_output_echo echo ns win w H = ((if ns then [] else py_print (spacer w)) ++ emit_lines b, ROk tt).
Proof. exact draw_fits_screen. Qed.

Theorem C17_stream_lines : forall ns win w H b,
  tree_texts_ok win -> render_tree win w = ROk b -> (Z.of_nat (length b) < H - 2)%Z ->
  split_lines (fst (draw_output ns win w H)) = (if ns then [] else [rule w; rule w]) ++ b ++ [[]].
Proof. exact draw_stream_lines. Qed.

(* exactly two lines of exactly w "=" (w = 0, or negative: two empty lines) *)
Theorem C17_separator_width : forall w,
  split_lines (spacer w) = [rule w; rule w] /\ length (rule w) = Z.to_nat w /\ Forall (fun c => c = EQS) (rule w).
Proof. intros w. split; [apply split_lines_spacer|]. split; [apply rule_length|apply rule_chars]. Qed.

(* a draw with the separator enabled starts with it (printed: followed by a line feed) and continues as the draw
   without it, with the same outcome - also when the draw ends with an exception *)
Theorem C17_separator_first : forall echo win w H,
  fst (draw_output_echo echo false win w H) = py_print (spacer w) ++ fst (draw_output_echo echo true win w H) /\
  snd (draw_output_echo echo false win w H) = snd (draw_output_echo echo true win w H).
Proof. exact draw_starts_with_separator. Qed.

Theorem C17_separator_lines : forall echo win w H,
  split_lines (fst (draw_output_echo echo false win w H)) =
  rule w :: rule w :: split_lines (fst (draw_output_echo echo true win w H)).
Proof. exact draw_separator_lines. Qed.

(* with the separator disabled only show_all writes, and any "=" in the output is the application's *)
Theorem C17_no_separator : forall echo win w H, draw_output_echo echo true win w H = show_all_output echo win w H.
Proof. exact draw_no_separator. Qed.

Theorem C17_no_separator_no_rule : forall win w H,
  tree_texts_ok win -> In EQS (fst (draw_output true win w H)) -> In EQS (chars_of_tree win).
Proof. exact no_separator_no_rule. Qed.

(* every line of a rendered fitting tree (see [fitting_tree] in ScreenOut.v: texts, separators, centred widgets,
   checkboxes with a title or text, list containers without forced column width and with spacing >= 0, windows;
   nested) is at most w long.
   Extends C13_within_width (plain trees) by the checkbox *)
Theorem C17_tree_within_width : forall t w b,
  fitting_tree t -> (0 <= w)%Z -> render_tree t w = ROk b -> Forall (fun l : line => (Z.of_nat (length l) <= w)%Z) b.
Proof. exact fitting_tree_within_width. Qed.

Theorem C17_plain_is_fitting : forall t, plain_tree t -> fitting_tree t.
Proof. exact (fit_fitting _). Qed.

(* every line of one draw, as it stands on the terminal (the user answering press-ENTER prompts with ENTER):
   separator, title, wrapped texts, list layout, press-ENTER prompt - its trailing blanks removed, it is at most w long.
   For every w >= 0, every height, every fitting tree, complete or interrupted draw. *)
Theorem C17_width : forall ns win w H,
  fitting_tree win -> (0 <= w)%Z ->
  Forall (fun l => (Z.of_nat (length (rstrip_sp l)) <= w)%Z) (split_lines (fst (draw_terminal ns win w H))).
Proof. exact width_draw_fitting. Qed.

(* _partial: the same for ANY window, under the hypothesis that the window itself renders within w.  What the
   hypothesis excludes (and C17_width's [fitting_tree] does not contain): ColumnWidget, list containers with a
   forced columns_width, title-less checkboxes - see C17_overflow_* and C17_titleless_checkbox_refuted: they CAN
   exceed the width *)
Theorem C17_width_partial : forall ns win w H,
  (0 <= w)%Z ->
  (forall b, render_tree win w = ROk b -> Forall (fun l : line => (Z.of_nat (length l) <= w)%Z) b) ->
  Forall (fun l => (length (rstrip_sp l) <= Z.to_nat w)%nat) (split_lines (fst (draw_terminal ns win w H))).
Proof. exact width_draw_gen. Qed.

(* the stream the process writes (no echo), when the content fits the screen: every line at most w, no stripping *)
Theorem C17_width_fits_screen : forall ns win w H b,
  fitting_tree win -> (0 <= w)%Z -> render_tree win w = ROk b -> (Z.of_nat (length b) < H - 2)%Z ->
  Forall (fun l => (Z.of_nat (length l) <= w)%Z) (split_lines (fst (draw_output ns win w H))).
Proof.
  intros ns win w H b.
  intros Hp Hw Hb Hlen. apply (width_draw_fits_screen_gen ns win w H b); try assumption. now apply (fitting_tree_within_width win w b).
Qed.

(* the prompt: lines of at most w characters joined by line feeds, then ONE blank: the last line is at most w + 1
   long, and at most w once its trailing blanks are removed *)
Theorem C17_width_prompt : forall p chunks w s,
  (0 <= w)%Z -> prompt_output p chunks w = ROk s ->
  (exists b, s = join_nl b ++ [SP] /\ Forall (fun l : line => (Z.of_nat (length l) <= w)%Z) b) /\
  Forall (fun l => (Z.of_nat (length (rstrip_sp l)) <= w)%Z) (split_lines s) /\
  Forall (fun l => (Z.of_nat (length l) <= w + 1)%Z) (split_lines s).
Proof. exact width_prompt. Qed.

Local Open Scope N_scope.
Definition ex_t (s : str) : wtree := WText (simple_text s).

(* a window titled "Menu" with a numbered 2-column list of "aa bb cc", "d", "ee", at width 20, height 30 *)
Definition ex_win : wtree :=
  WWindow (Some (simple_text [77;101;110;117]))
    [WList KRow 2%Z [ex_t [97;97;32;98;98;32;99;99]; ex_t [100]; ex_t [101;101]] None 3%Z (Some default_pattern)].

Example C17_example_stream :
  draw_output false ex_win 20 30 =
    ( (* "====================\n====================\nMenu\n\n1) aa bb   2) d\n   cc\n3) ee\n" *)
      [61;61;61;61;61;61;61;61;61;61;61;61;61;61;61;61;61;61;61;61;10;
       61;61;61;61;61;61;61;61;61;61;61;61;61;61;61;61;61;61;61;61;10;
       77;101;110;117;10; 10;
       49;41;32;97;97;32;98;98;32;32;32;50;41;32;100;10;
       32;32;32;99;99;10;
       51;41;32;101;101;10], ROk tt) /\
  fst (draw_output true ex_win 20 30) =
      [77;101;110;117;10; 10; 49;41;32;97;97;32;98;98;32;32;32;50;41;32;100;10; 32;32;32;99;99;10; 51;41;32;101;101;10].
Proof. vm_compute. split; reflexivity. Qed.

(* the hypotheses of the theorems hold for it *)
Example C17_example_hypotheses :
  tree_texts_ok ex_win /\ fitting_tree ex_win /\
  (forall c, In c (chars_of_tree ex_win) -> is_tw_space c = false -> forbidden c = false).
Proof.
  split; [|split].
  - unfold tree_texts_ok. vm_compute. repeat constructor.
  - unfold ex_win, ex_t. repeat (constructor; try (vm_compute; discriminate)).
  - assert (E : forallb (fun c => is_tw_space c || negb (forbidden c)) (chars_of_tree ex_win) = true) by (vm_compute; reflexivity).
    intros c Hc Hs. rewrite forallb_forall in E. specialize (E c Hc). rewrite Hs in E. cbn [orb] in E.
    now destruct (forbidden c).
Qed.

(* paging at height 4 (pages of 2 lines), no separator, width 8: the stream as written, and as the terminal shows it
   after ENTER; the press-ENTER prompt "\nPress ENTER to continue: " is wrapped at 8 like everything else *)
Example C17_example_paging :
  draw_output true (WWindow None [ex_t [97;10;98;10;99;10;100]]) 8 4 =
    ( (* "a\nb\n" "\nPress\nENTER to\ncontinue\n: " "c\nd\n" *)
      [97;10;98;10; 10;80;114;101;115;115;10;69;78;84;69;82;32;116;111;10;99;111;110;116;105;110;117;101;10;58;32;
       99;10;100;10], ROk tt) /\
  split_lines (fst (draw_terminal true (WWindow None [ex_t [97;10;98;10;99;10;100]]) 8 4)) =
    [[97]; [98]; []; [80;114;101;115;115]; [69;78;84;69;82;32;116;111]; [99;111;110;116;105;110;117;101]; [58;32];
     [99]; [100]; []].
Proof. vm_compute. split; reflexivity. Qed.

(* application text "a\tb\rc\vd\fe\x1bf": TAB is expanded, CR, VT, FF become blanks; ESC is not whitespace for
   textwrap and is copied (it is the application's, not the framework's) *)
Example C17_example_controls :
  render_tree (ex_t [97;9;98;13;99;11;100;12;101;27;102]) 40 =
    ROk [[97;32;32;32;32;32;32;32;98;32;99;32;100;32;101;27;102]].
Proof. vm_compute. reflexivity. Qed.

(* a draw that ends with an exception (list of 2 columns at width 3: ValueError) has written the separator only *)
Example C17_example_exception :
  draw_output false (WWindow None [WList KRow 2%Z [ex_t [97]; ex_t [98]] None 3%Z None]) 3 30 =
    ([61;61;61;10;61;61;61;10], RValueError).
Proof. vm_compute. reflexivity. Qed.

(* the default prompt of a screen at width 40 *)
Example C17_example_prompt :
  let p := run_pops (new_prompt (Some DEFAULT_MESSAGE))
             [PAddRefresh REFRESH_DESCRIPTION; PAddContinue CONTINUE_DESCRIPTION; PAddQuit QUIT_DESCRIPTION] in
  prompt_output p (t_chunks (simple_text (prompt_str p))) 40 =
    ROk (* "Please make a selection from the above\n['c' to continue, 'q' to quit, 'r' to\nrefresh]: " *)
      [80;108;101;97;115;101;32;109;97;107;101;32;97;32;115;101;108;101;99;116;105;111;110;32;102;114;111;109;32;
       116;104;101;32;97;98;111;118;101;10;
       91;39;99;39;32;116;111;32;99;111;110;116;105;110;117;101;44;32;39;113;39;32;116;111;32;113;117;105;116;44;32;
       39;114;39;32;116;111;10;
       114;101;102;114;101;115;104;93;58;32].
Proof. vm_compute. reflexivity. Qed.

(* the texts the framework supplies by default are ASCII letters and blanks (one line feed in the press-ENTER
   message, which text_prompt turns into a line break) *)
Example C17_default_texts_plain :
  forallb (fun c => (c =? 32) || ((65 <=? c) && (c <=? 90)) || ((97 <=? c) && (c <=? 122)))
          (DEFAULT_MESSAGE ++ QUIT ++ QUIT_DESCRIPTION ++ CONTINUE ++ CONTINUE_DESCRIPTION ++ REFRESH ++
           REFRESH_DESCRIPTION ++ HELP ++ HELP_DESCRIPTION ++ ENTER ++ tl continue_message) = true /\
  hd 0 continue_message = NL /\
  own_chars = [10; 32; 61; 10; 80;114;101;115;115;32;69;78;84;69;82;32;116;111;32;99;111;110;116;105;110;117;101;58;32].
Proof. vm_compute. repeat split. Qed.

(* what the width theorems exclude can really exceed the width: fixed-width columns *)
Example C17_overflow_forced_list_width :        (* ListRowContainer(2, ["a"*10, "b"*10], columns_width=10).render(12): 23 characters *)
  render_tree (WList KRow 2%Z [ex_t (repeat 97 10); ex_t (repeat 98 10)] (Some 10%Z) 3%Z None) 12 =
    ROk [repeat 97 10 ++ [32;32;32] ++ repeat 98 10].
Proof. vm_compute. reflexivity. Qed.

Example C17_overflow_column_widget :            (* ColumnWidget([(15, ["a"*15])], 1).render(10): 15 characters *)
  render_tree (WColumn [(Some 15%Z, [ex_t (repeat 97 15)])] 1%Z) 10 = ROk [repeat 97 15].
Proof. vm_compute. reflexivity. Qed.

(* FINDING (known_findings: titleless-checkbox-wider-than-width): a CheckboxWidget with neither title nor text is
   its box "[x]", a fixed column of 3, and nothing is rendered at width - 4 that could raise ValueError: at width 2 it
   renders a 3-character line; in a numbered list at width 5 the line "1) [x]" has 6 characters - also inside a
   window, hence on the screen.  With a title or text the render raises ValueError below width 5 and fits from 5 on
   (C17_tree_within_width). *)
Example C17_titleless_checkbox_refuted :
  render_tree (WCheckbox (simple_text [91;120;93]) []) 2 = ROk [[91;120;93]] /\
  render_tree (WList KRow 1%Z [WCheckbox (simple_text [91;120;93]) []] None 3%Z (Some default_pattern)) 5 =
    ROk [[49;41;32;91;120;93]] /\
  fst (draw_output true (WWindow None [WList KRow 1%Z [WCheckbox (simple_text [91;120;93]) []] None 3%Z (Some default_pattern)]) 5 30) =
    [49;41;32;91;120;93;10] /\
  render_tree (WCheckbox (simple_text [91;120;93]) [simple_text [97;98]]) 5 = ROk [[91;120;93;32;97]; [32;32;32;32;98]] /\
  render_tree (WCheckbox (simple_text [91;120;93]) [simple_text [97;98]]) 4 = RValueError.
Proof. vm_compute. repeat split. Qed.

Print Assumptions C17_charset_render.
Print Assumptions C17_no_layout_controls.
Print Assumptions C17_lines_have_no_newline.
Print Assumptions C17_chars_draw.
Print Assumptions C17_chars_write.
Print Assumptions C17_chars_munge.
Print Assumptions C17_prompt_str_chars.
Print Assumptions C17_charset_prompt.
Print Assumptions C17_charset_draw.
Print Assumptions C17_own_chars_plain.
Print Assumptions C17_prompt_literals_plain.
Print Assumptions C17_charset_framework.
Print Assumptions C17_charset_framework_prompt.
Print Assumptions C17_append_only.
Print Assumptions C17_stream_fits_screen.
Print Assumptions C17_stream_lines.
Print Assumptions C17_separator_width.
Print Assumptions C17_separator_first.
Print Assumptions C17_separator_lines.
Print Assumptions C17_no_separator.
Print Assumptions C17_no_separator_no_rule.
Print Assumptions C17_tree_within_width.
Print Assumptions C17_plain_is_fitting.
Print Assumptions C17_width.
Print Assumptions C17_width_partial.
Print Assumptions C17_width_fits_screen.
Print Assumptions C17_width_prompt.

(* "Every screen draw is preceded by the separator unless the screen disables it", over whole sessions, is
   props/C17sep.v, on the screen-layer model (ScreenSem.v, [draw_screen]).  One draw of that model stands for the stream
   [draw_output (no_separator of the screen) (its window) (configured width) (its screen height)] of this file (read off
   the two models, not a theorem); C17_separator_first / C17_separator_lines say that this stream starts with the
   separator when no_separator = false, C17_no_separator that it is show_all's output alone otherwise. *)

(* C18 — one outstanding input request unless bypassed; bypass hands off cleanly.
   "Unless the requester opted out of the check, asking for input while another request is outstanding is refused
    with an error that names every requester involved.  With the check bypassed, when a line arrives exactly the
    most recent requester receives it as a successful result, every earlier requester is told exactly once that its
    request failed so that anything waiting on it wakes up, and afterwards the input subsystem is idle again so that
    a new request is served normally; a blocking wait returns only after its own request was answered or failed,
    and then reports the value and success flag accordingly."
   C18_input_requests is a projection of proofs/InputLink.v [all_accepted] (through [accepted_by]), C18_handoff_def is by
   computation; the other theorems are [exact] of lemmas of proofs/C18Proofs.v; the examples are computed.

   Model: ScreenSem.v — InputThreadManager ([start_input_thread], [input_received_handler]), InputHandler
   ([handler_get_input], [input_ready_handler], the wait loop of [get_input_blocking]); the reader thread is the
   loop's [ext] mechanism.  Property: the acceptor [chk_C18] of ScreenMon.v over the world rebuilt from the events:
     T_REFUSED ids   only when a request is outstanding; ids = all outstanding requests oldest first, then the
                     refused one;
     T_PROMPT [n; k] a reader thread is started (k = 0) iff none is running, otherwise only the prompt is printed;
     T_READY [n; ok] text  is one of the ready signals announced by a hand-off (at EHandler H_RECEIVED the most
                     recent outstanding requester is announced (true, the line taken by the reader thread), every
                     earlier one (false, ""); the request stack is empty and no reader runs afterwards); each
                     announcement is consumed by its delivery;
     T_GOT [scr; n]  (a blocking wait returns) only after T_READY [n; _].
   [wf_session specl quit acts]: every screen id in the session's commands and the quit screen is one of specl, and
   every SConnect names one of the seven callbacks (k < 7). *)
From Coq Require Import ZArith NArith List Bool.
From SL Require Import PyInt LoopSem ScreenSem ScreenMon proofs.InputLink proofs.C18Proofs.
Import ListNotations.

(* every well-formed session of the model - any screens (bypassing the check or not), typed lines, actions, fuel - is
   accepted *)
Theorem C18_input_requests : forall specs specl typed quit run_empty fuel acts,
  (forall n, specs n = nth n specl default_spec) -> wf_session specl quit acts = true ->
  sok chk_C18 typed (rev (trace (snd (app_run_all specs specl typed quit run_empty fuel acts)))) = true.
Proof.
  intros specs specl typed quit run_empty fuel acts.
  apply (accepted_by chk_C18 false). intros w e H. apply (chk_all_split _ _ _ _ _ H).
Qed.

(* "told exactly once": when the application has no InputHandler objects of its own ([no_handler_objects]: no
   SHandlerAsk anywhere - then every request has a fresh handler, which is all the framework itself ever does through
   InputManager) no input handler ever gets a second ready signal: the additional acceptor [chk_once]
   (proofs/InputLink.v: T_READY [n; _] only for a handler n that has not received one) accepts the session ... *)
Theorem C18_answered_at_most_once : forall specs specl typed quit run_empty fuel acts,
  (forall n, specs n = nth n specl default_spec) -> wf_session specl quit acts = true ->
  no_handler_objects specl acts = true ->
  sok chk_once typed (rev (trace (snd (app_run_all specs specl typed quit run_empty fuel acts)))) = true.
Proof. exact answered_once. Qed.

(* for REUSED handler objects "once" is per request, and that is the hand-off clause of chk_C18: an accepted ready
   signal consumes exactly one entry of the hand-off list, the one it matches (every session: C18_input_requests) *)
Theorem C18_ready_consumes_its_entry : forall w n ok t, chk_C18 w (EUser T_READY [n; ok] t) = true ->
  exists x, fst (fst x) = n /\ snd (fst x) = (ok =? 1)%nat /\ streq (snd x) t = true /\
            Permutation.Permutation (sw_handoff w) (x :: sw_handoff (sworld_step w (EUser T_READY [n; ok] t))).
Proof. exact ready_consumes_entry. Qed.

(* ... and a trace [chk_once] accepts contains no two ready signals for the same handler *)
Theorem C18_no_second_ready : forall typed t1 n a1 x1 t2 a2 x2 t3,
  sok chk_once typed (t1 ++ EUser T_READY (n :: a1) x1 :: t2 ++ EUser T_READY (n :: a2) x2 :: t3) = true -> False.
Proof. exact no_second_ready. Qed.

(* what the acceptor says, clause by clause *)
Theorem C18_refused_names_everyone : forall w ids t, chk_C18 w (EUser T_REFUSED ids t) = true ->
  sw_istack w <> [] /\ exists n, ids = rev (sw_istack w) ++ [n].
Proof. exact C18_refused_meaning. Qed.

Theorem C18_reader_started_iff_idle : forall w n k t, chk_C18 w (EUser T_PROMPT [n; k] t) = true ->
  (k = 0 <-> sw_processing w = false).
Proof. exact C18_prompt_meaning. Qed.

Theorem C18_ready_was_announced : forall w n ok t, chk_C18 w (EUser T_READY [n; ok] t) = true ->
  exists x, In x (sw_handoff w) /\ fst (fst x) = n /\ snd (fst x) = (ok =? 1)%nat /\ streq (snd x) t = true.
Proof. exact C18_ready_meaning. Qed.

Theorem C18_wait_returns_after_answer : forall w scr n t, chk_C18 w (EUser T_GOT [scr; n] t) = true ->
  In n (sw_received w).
Proof. exact C18_got_meaning. Qed.

(* the application's own handler object h (InputHandler n): after h.wait_on_input() it sees (input_successful(), value)
   = those of the LAST ready signal delivered to n since n last asked ([sw_last]: T_PROMPT [n; _] pushes (n, None),
   T_READY [n; ok] text pushes (n, Some (ok, text))) - and there is one *)
Theorem C18_wait_reports_last_answer : forall w h n ok hv t, chk_C18 w (EUser T_WAITED [h; n; ok; hv] t) = true ->
  exists b v, alookup n (sw_last w) = Some (Some (b, v)) /\ b = (ok =? 1)%nat /\
              (b = true -> hv = 1 /\ streq v t = true).
Proof. exact C18_waited_meaning. Qed.

(* the hand-off itself: the most recent requester gets the line, every earlier one a failure (oldest first); the
   stack of requests is empty and no reader runs afterwards *)
Theorem C18_handoff_def : forall w sid d top rest, sw_istack w = top :: rest ->
  let w' := sworld_step w (EHandler H_RECEIVED sid d) in
  sw_handoff w' = sw_handoff w ++ (top, true, sw_line w) :: map (fun r => (r, false, [])) (rev rest) /\
  sw_istack w' = [] /\ sw_processing w' = false.
Proof. intros w sid d top rest E. cbn. rewrite E. repeat split. Qed.

(* a screen that bypasses the check redraws itself twice while its prompt is outstanding: three overlapping
   requests 0, 1, 2 (one reader thread: prompts [0;0] [1;1] [2;1]); the line "1" arrives: request 2 succeeds, 0 and 1
   are told they failed, oldest first; afterwards the subsystem is idle: request 3 starts a reader again; the end of
   file is delivered as the empty line.  The same screen without the bypass: the second request is refused, the
   error names [0; 1], the application is killed.  And the monitor is not vacuous. *)
Example C18_example :
  fst (ex18_run true) = [ONormal; OBlocked] /\
  sok chk_C18 ex18_typed (ex18_trace true) = true /\ sok chk_once ex18_typed (ex18_trace true) = true /\
  user_events T_PROMPT (ex18_trace true) = [([0; 0], []); ([1; 1], []); ([2; 1], []); ([3; 0], []); ([4; 0], []); ([5; 0], [])] /\
  user_events T_READY (ex18_trace true) = [([2; 1], [49%N]); ([0; 0], []); ([1; 0], []); ([3; 1], [50%N]); ([4; 1], [])] /\
  fst (ex18_run false) = [ONormal; OThrow XSysExit] /\
  sok chk_C18 ex18_typed (ex18_trace false) = true /\
  user_events T_REFUSED (ex18_trace false) = [([0; 1], [])] /\
  (* a second reader thread while one is running *)
  sok chk_C18 [] [EUser T_PROMPT [0; 0] []; EUser T_PROMPT [1; 0] []] = false /\
  (* a refusal that does not name the outstanding request *)
  sok chk_C18 [] [EUser T_PROMPT [0; 0] []; EUser T_REFUSED [1] []] = false /\
  (* the line goes to the older requester *)
  sok chk_C18 [Some [49%N]] [EUser T_PROMPT [0; 0] []; EUser T_PROMPT [1; 1] []; EHandler H_RECEIVED 0 0;
                             EUser T_READY [0; 1] [49%N]] = false /\
  (* a failure is announced twice *)
  sok chk_C18 [Some [49%N]] [EUser T_PROMPT [0; 0] []; EUser T_PROMPT [1; 1] []; EHandler H_RECEIVED 0 0;
                             EUser T_READY [0; 0] []; EUser T_READY [0; 0] []] = false /\
  (* a blocking wait returns without its answer *)
  sok chk_C18 [] [EUser T_ASK [0; 0] []; EUser T_PROMPT [0; 0] []; EUser T_GOT [0; 0] []] = false.
Proof. vm_compute. repeat split. Qed.

(* the application's own InputHandler objects and a user who types ahead (the reader's InputReceivedSignal is queued
   before the requesting code goes on):
   (1) one object asks, waits, asks again, waits again: chk_C18 accepts, each wait reports its own line; the object got
       two ready signals - one per request - so chk_once rejects: the hypothesis of C18_answered_at_most_once is needed;
   (2) three objects ask one after the other before anything is processed (prompts [0;0] [1;1] [2;1], ONE reader): the
       most recent gets "a", the two earlier ones are told they failed and their waits report (False, None); then object
       0 asks again and is superseded by object 1: its wait reports (False, None), object 1's ("b");
   and the T_WAITED clause is not vacuous: a stale success flag after a failure, and a wait that returns before any
   answer, are rejected *)
Example C18_example_handler_objects :
  wf_session [ex18_spec true] None ex18h_acts1 = true /\ no_handler_objects [ex18_spec true] ex18h_acts1 = false /\
  sok chk_C18 ex18h_typed1 (ex18h_trace ex18h_acts1 ex18h_typed1) = true /\
  sok chk_once ex18h_typed1 (ex18h_trace ex18h_acts1 ex18h_typed1) = false /\
  user_events T_WAITED (ex18h_trace ex18h_acts1 ex18h_typed1) = [([0; 0; 1; 1], [97%N]); ([0; 0; 1; 1], [98%N])] /\
  sok chk_C18 ex18h_typed2 (ex18h_trace ex18h_acts2 ex18h_typed2) = true /\
  user_events T_PROMPT (ex18h_trace ex18h_acts2 ex18h_typed2) = [([0; 0], []); ([1; 1], []); ([2; 1], []); ([0; 0], []); ([1; 1], [])] /\
  user_events T_READY (ex18h_trace ex18h_acts2 ex18h_typed2) =
    [([2; 1], [97%N]); ([0; 0], []); ([1; 0], []); ([1; 1], [98%N]); ([0; 0], [])] /\
  user_events T_WAITED (ex18h_trace ex18h_acts2 ex18h_typed2) =
    [([2; 2; 1; 1], [97%N]); ([0; 0; 0; 0], []); ([1; 1; 0; 0], []); ([0; 0; 0; 0], []); ([1; 1; 1; 1], [98%N])] /\
  sok chk_C18 [Some [97%N]] [EUser T_PROMPT [0; 0] []; EUser T_PROMPT [1; 1] []; EHandler H_RECEIVED 0 0;
                             EUser T_READY [1; 1] [97%N]; EUser T_READY [0; 0] []; EUser T_WAITED [0; 0; 1; 0] []] = false /\
  sok chk_C18 [Some [97%N]] [EUser T_PROMPT [0; 0] []; EUser T_WAITED [0; 0; 0; 0] []] = false /\
  sok chk_C18 [Some [97%N]] [EUser T_PROMPT [0; 0] []; EHandler H_RECEIVED 0 0; EUser T_READY [0; 1] [97%N];
                             EUser T_WAITED [0; 0; 1; 1] [98%N]] = false.
Proof. vm_compute. repeat split. Qed.

Print Assumptions C18_input_requests.
Print Assumptions C18_answered_at_most_once.
Print Assumptions C18_ready_consumes_its_entry.
Print Assumptions C18_wait_reports_last_answer.
Print Assumptions C18_no_second_ready.
Print Assumptions C18_refused_names_everyone.
Print Assumptions C18_reader_started_iff_idle.
Print Assumptions C18_ready_was_announced.
Print Assumptions C18_wait_returns_after_answer.
Print Assumptions C18_handoff_def.

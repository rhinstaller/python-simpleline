(* C07 — what input() returns decides exactly one follow-up action.
   "After a line is handled, exactly one thing happens, determined by the screen's answer: 'processed' - nothing
    further; 'processed and redraw' or the refresh key - one refresh and draw of the top screen; 'processed and
    close' or the continue key - the top screen closes; the quit key - the application quits, or, when a quit
    dialog is configured, quits only if the dialog's answer is yes (or it has no answer).  A rejected or
    unrecognised line only re-issues the prompt, except that every fifth consecutive rejection redraws the screen
    first, and any accepted line resets that count."
   C07_one_followup is a projection of proofs/InputLink.v [all_accepted] (through [accepted_by]); the other theorems are
   [exact] of lemmas of proofs/C07Proofs.v; the example is computed.

   Model: ScreenSem.v [process_input] / [action_of] / [process_input_result] (InputManager.process_input,
   InputManager._process_input, ScreenScheduler.process_input_result) inside the event loop LoopSem.v.
   Property: the acceptor [chk_C07 quit] of ScreenMon.v.  [T_ACTION [scr; act]] is emitted right after the screen's
   input() answered (act: 0 NOOP, 1 REDRAW, 2 CLOSE, 3 QUIT, 4 INPUT_ERROR); the observer keeps the count of
   consecutive rejections per screen and demands the NEXT event:
     NOOP: the handler's end;  REDRAW: the creation of one RenderScreenSignal by the scheduler, its enqueueing,
     then the handler's end;  CLOSE: T_OP [O_CLOSE; 0; _] (close_screen());  QUIT: the modal push of the configured
     quit screen - and after it returned either ExitMainLoop or one redraw - or ExitMainLoop at once when no quit
     screen is configured;  INPUT_ERROR: the re-prompt T_REQ of the TOP screen with its arguments (or the handler's
     end when its prompt() is None), but one redraw when the count of consecutive rejections is a multiple of 5;
     with an empty stack: ExitMainLoop.
   [wf_session specl quit acts]: every screen id in the session's commands and the quit screen is one of specl, and
   every SConnect names one of the seven callbacks (k < 7). *)
From Coq Require Import ZArith NArith List Bool.
From RecordUpdate Require Import RecordUpdate.
From SL Require Import PyInt LoopSem ScreenSem ScreenMon proofs.InputLink proofs.C07Proofs.
Import ListNotations.

(* 1. every well-formed session of the model is accepted *)
Theorem C07_one_followup : forall specs specl typed quit run_empty fuel acts,
  (forall n, specs n = nth n specl default_spec) -> wf_session specl quit acts = true ->
  sok (chk_C07 quit) typed (rev (trace (snd (app_run_all specs specl typed quit run_empty fuel acts)))) = true.
Proof.
  intros specs specl typed quit run_empty fuel acts.
  apply (accepted_by (chk_C07 quit) false). intros w e H. apply (chk_all_split _ _ _ _ _ H).
Qed.

(* 2. the table: what the screen's input() returned -> the action ("r" = 114, "c" = 99, "q" = 113) *)
Theorem C07_table :
  action_of RProcessed = ANoop /\ action_of RRedraw = ARedraw /\ action_of RClose = AClose /\
  action_of RDiscarded = AError /\ action_of RNone = AError /\
  action_of (RKey [114%N]) = ARedraw /\ action_of (RKey [99%N]) = AClose /\ action_of (RKey [113%N]) = AQuit /\
  (forall s, s <> [114%N] -> s <> [99%N] -> s <> [113%N] -> action_of (RKey s) = AError).
Proof. exact action_table. Qed.

(* 3. the counter: process_input updates the screen's error counter with [err_step] and decides on the redraw from
      the updated counter ... *)
Theorem C07_counter_update : forall specs scr line,
  process_input specs scr line =
  (wr (fun u => u <| st_rb := false |>) ;;
   PTry (call_input specs scr line ;; wr (fun u => u <| st_rb := true |>))
        (raise_exception_signal ;; wr (fun u => u <| st_rb := false |>)) ;;
   rd (fun u => if st_rb u then
      let act := action_of (st_rv u) in
      ev T_ACTION [scr; match act with ANoop => 0 | ARedraw => 1 | AClose => 2 | AQuit => 3 | AError => 4 end] ;;
      wr (upd_scr scr (err_step act)) ;;
      rd (fun u => process_input_result specs act (Nat.modulo (ss_err (scr_of u scr)) 5 =? 0)%nat)
    else PRet)).
Proof. exact process_input_uses_err_step. Qed.

(* ... so after any sequence of actions the counter is the length of the current run of rejections *)
Theorem C07_counter : forall acts s,
  ss_err (fold_left (fun s a => err_step a s) acts s) = rejection_run acts (ss_err s).
Proof. exact counter_is_run. Qed.

(* in particular k rejections after an accepted line leave the counter at k, whatever happened before *)
Theorem C07_counter_streak : forall acts a k s, is_rejection a = false ->
  ss_err (fold_left (fun s x => err_step x s) (acts ++ a :: repeat AError k) s) = k.
Proof. exact streak_after_accept. Qed.

(* a session: five rejections (the fifth redraws), the refresh key, a rejection, the quit key answered "no" (one
   redraw), the quit key answered "yes" (the application quits: run() returns); and the monitor is not vacuous *)
Example C07_example :
  wf_session ex07_specl (Some 1) ex07_acts = true /\
  fst ex07_run = [ONormal; ONormal] /\
  sok (chk_C07 (Some 1)) ex07_typed ex07_trace = true /\
  actions_of ex07_trace = [4; 4; 4; 4; 4; 1; 4; 3; 2; 3; 2] /\ count_tag T_SHOW ex07_trace = 6 /\
  (* REDRAW demanded, the handler just ends *)
  sok (chk_C07 None) [] [EUser T_STACK [K_APPEND; 0; 0; 0; 0] []; EUser T_ACTION [0; 1] []; EHandlerEnd 10 0 None] = false /\
  (* NOOP demanded, a redraw happens *)
  sok (chk_C07 None) [] [EUser T_STACK [K_APPEND; 0; 0; 0; 0] []; EUser T_ACTION [0; 0] []; ESigNew 0 CLS_RENDER 0 None] = false /\
  (* first rejection: the prompt must be re-issued, not a redraw *)
  sok (chk_C07 None) [] [EUser T_STACK [K_APPEND; 0; 0; 0; 0] []; EUser T_ACTION [0; 4] []; ESigNew 0 CLS_RENDER 0 None] = false /\
  (* the re-prompt must be the TOP screen's *)
  sok (chk_C07 None) [] [EUser T_STACK [K_APPEND; 0; 0; 0; 0] []; EUser T_ACTION [0; 4] []; EUser T_REQ [1; 0; 0] []] = false /\
  (* QUIT with a quit dialog configured: quitting at once is rejected *)
  sok (chk_C07 (Some 1)) [] [EUser T_STACK [K_APPEND; 0; 0; 0; 0] []; EUser T_ACTION [0; 3] []; EHandlerEnd 10 0 (Some XExit)] = false.
Proof. vm_compute. repeat split. Qed.

Print Assumptions C07_one_followup.
Print Assumptions C07_table.
Print Assumptions C07_counter_update.
Print Assumptions C07_counter.
Print Assumptions C07_counter_streak.

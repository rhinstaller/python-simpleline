(* C02 — every dispatched signal reaches every handler of its class exactly once.
   Theorem statements: every proof is [exact] of a lemma (or an instance of one) of proofs/C02Proofs.v; the two
   examples of part 5 are computed.
   The property is the trace acceptor [chk_C02] of Monitors.v (the same function, extracted, judges
   the traces recorded from the implementation):
     - [EHandler h sid d] only as the next not-yet-started entry (h, d) of the live handler list of the
       class of the signal whose dispatch is innermost, never after force_quit;
     - [EDispatchEnd] only when every registered handler was started (or force_quit);
     - a handler ending with an ordinary exception is followed at once by the creation of one
       ExceptionSignal (priority -20) and its enqueueing into the active queue; the dispatch goes on;
     - [EKill] only for an ExceptionSignal with no handler registered; after it nothing but unwinding. *)
From Coq Require Import ZArith NArith List Bool.
From RecordUpdate Require Import RecordUpdate.
From SL Require Import LoopSem LoopProg Monitors proofs.C02Link proofs.C02Proofs.
Import ListNotations.

(* 1. every trace the loop can produce — any handler code (hence any registration table, any signals,
      any set of raising invocations), any sequence of top-level calls, any fuel — is accepted *)
Theorem C02_delivery : forall U (code : nat -> signal -> nat -> prog U) fuel acts (u : U),
  ok_C02 (rev (trace (snd (run_session code fuel acts (init_state u))))) = true.
Proof. exact @delivery. Qed.

(* the Hoare-style statement behind it: from a state whose trace is accepted and linked to the world
   ([good 0 F]: F = the open dispatch frames), every call leaves the frames as it found them
   (_process_signal: pops its own) — or the application was killed, or the run is blocked / out of fuel
   with everything so far accepted *)
Theorem C02_exec_discipline : forall U (code : nat -> signal -> nat -> prog U) f c s F o s',
  pre c F s -> exec code f c s = (o, s') -> res F o s'.
Proof. exact @exec_res. Qed.

(* what acceptance means after a kill: only SystemExit unwinding follows — no handler, no quit callback *)
Theorem C02_after_kill : forall t1 t2,
  ok_C02 (t1 ++ EKill :: t2) = true ->
  forall e, In e t2 -> exists h sid, e = EHandlerEnd h sid (Some XSysExit).
Proof. exact after_kill_shape. Qed.

(* 2. the ExceptionSignal (priority -20) overtakes everything pending of lower urgency ... *)
Theorem C02_exception_overtakes : forall x q,
  (forall p s, In (p, s) q -> (-20 < p)%Z) -> stable_insert (-20)%Z x q = ((-20)%Z, x) :: q.
Proof. exact (stable_insert_first (-20)%Z). Qed.

(* ... and in general stands behind entries of priority <= -20 only *)
Theorem C02_exception_position : forall p x q,
  exists l1 l2, q = l1 ++ l2 /\ stable_insert p x q = l1 ++ (p, x) :: l2 /\
                (forall p' s', In (p', s') l1 -> (p' <= p)%Z) /\
                match l2 with [] => True | (p', _) :: _ => (p < p')%Z end.
Proof. exact stable_insert_split. Qed.

(* the ExceptionSignal has no source: it is put into the active queue (dropped after force_quit) *)
Theorem C02_exception_enqueue : forall U (s : lstate U) id,
  do_enqueue s (mk_signal id exception_spec) =
  if force_quit s then emit (EDropped id) s
  else emit (EEnq id (active s)) (set_q s (active s) (q_put (get_q s (active s)) (mk_signal id exception_spec))).
Proof. exact @enqueue_exception. Qed.

(* 3. an ExceptionSignal nobody handles kills the application: no handler runs, nothing else happens *)
Theorem C02_unhandled_kills : forall U (code : nat -> signal -> nat -> prog U) f sg s,
  handlers_of s CLS_EXCEPTION = None -> sg_cls sg = CLS_EXCEPTION ->
  exec code (S f) (CProcessSignal sg 0) s =
  (OThrow XSysExit, emit EKill (s <| tickets := mark_line_to_go (tickets s) CLS_EXCEPTION |>)).
Proof. exact @unhandled_kills. Qed.

(* SystemExit leaves _process_signals_loop, _mainloop and run() unchanged ... *)
Theorem C02_kill_leaves_procloop : forall U (code : nat -> signal -> nat -> prog U) f s sg s1 s3,
  run_loop s = true -> do_get s = inl (Some (sg, s1)) ->
  exec code f (CProcessSignal sg 0) (emit (EDispatch (sg_id sg) (active s) (length (levels s))) s1)
    = (OThrow XSysExit, s3) ->
  exec code (S f) CProcLoop s = (OThrow XSysExit, s3).
Proof. exact @sysexit_through_procloop. Qed.

Theorem C02_kill_leaves_mainloop : forall U (code : nat -> signal -> nat -> prog U) f s s1,
  run_loop s = true -> exec code f CProcLoop s = (OThrow XSysExit, s1) ->
  exec code (S f) CMainloop s = (OThrow XSysExit, s1).
Proof. exact @sysexit_through_mainloop. Qed.

(* ... run() adds nothing (no quit callback, no return) to what its main loop did *)
Theorem C02_kill_leaves_run : forall U (code : nat -> signal -> nat -> prog U) f s s',
  exec code (S f) CRun s = (OThrow XSysExit, s') <->
  exec code f CMainloop (run_entry s) = (OThrow XSysExit, s').
Proof. exact @sysexit_through_run. Qed.

(* run() returns normally (quit callback, ERunReturn) only from a normal end or ExitMainLoop of its main loop *)
Theorem C02_run_returns_only : forall U (code : nat -> signal -> nat -> prog U) f s s',
  exec code (S f) CRun s = (ONormal, s') ->
  exists s1, s' = run_exit s1 /\
             (exec code f CMainloop (run_entry s) = (ONormal, s1) \/
              exec code f CMainloop (run_entry s) = (OThrow XExit, s1)).
Proof. exact @run_normal_only. Qed.

(* 4. a handler that raises: its end is recorded, exactly one ExceptionSignal is created and enqueued,
      and the dispatch continues with the next handler *)
Theorem C02_failure_isolated : forall U (code : nat -> signal -> nat -> prog U) f sg idx s hs hid data s2,
  handlers_of (ps_state sg idx s) (sg_cls sg) = Some hs -> force_quit (ps_state sg idx s) = false ->
  nth_error hs idx = Some (hid, data) ->
  exec code f (CProg (code hid sg data)) (emit (EHandler hid (sg_id sg) data) (ps_state sg idx s)) = (OThrow XError, s2) ->
  exec code (S f) (CProcessSignal sg idx) s =
  let s3 := emit (EHandlerEnd hid (sg_id sg) (Some XError)) s2 in
  let '(xs, s4) := new_signal s3 exception_spec in
  exec code f (CProcessSignal sg (S idx)) (do_enqueue s4 xs).
Proof. exact @failure_isolated. Qed.

(* _process_signal never lets an ordinary exception out *)
Theorem C02_dispatch_catches : forall U (code : nat -> signal -> nat -> prog U) f sg idx s o s',
  exec code f (CProcessSignal sg idx) s = (o, s') -> o <> OThrow XError.
Proof. exact @exec_ps_noerr. Qed.

(* 5. non-vacuity.  Three classes; class 1 has three handlers, the middle one raises; class 2 has two,
      the first registers a third for its own class during the dispatch, which ends run();
      two signals pending; the ExceptionSignal (sid 2) overtakes the pending signal 1. *)
Definition ex_bodies : list (list cmd) :=
  [ [CmMark 100];                                   (* h0: class 1 *)
    [CmMark 101; CmRaise];                          (* h1: class 1, raises *)
    [CmMark 102];                                   (* h2: class 1 *)
    [CmIfCount 1 [CmRegHandler 2 5 25] []];         (* h3: class 2, registers h5 for its own class *)
    [CmMark 104];                                   (* h4: class 2 *)
    [CmExit];                                       (* h5: class 2, raises ExitMainLoop *)
    [CmMark 106];                                   (* h6: class 3 *)
    [CmMark 107] ].                                 (* h7: the ExceptionSignal handler *)
Definition ex_table : list cmd :=
  [CmRegHandler 1 0 10; CmRegHandler 1 1 11; CmRegHandler 1 2 12;
   CmRegHandler 2 3 20; CmRegHandler 2 4 21; CmRegHandler 3 6 30].
Definition ex_signals : list cmd := [CmSetQuitCb 9; CmEnqueue 1 0%Z None; CmEnqueue 2 0%Z None].
Definition is_handler (e : event) : bool := match e with EHandler _ _ _ => true | _ => false end.

Example C02_example :
  let '(os, st) := run_session (handler_prog ex_bodies) 100
                     [TProg (compile_cmds 0 (ex_table ++ [CmRegHandler 0 7 70] ++ ex_signals)); TRun] (init_state []) in
  os = [ONormal; ONormal] /\
  ok_C02 (rev (trace st)) = true /\
  filter is_handler (rev (trace st)) =
    [EHandler 0 0 10; EHandler 1 0 11; EHandler 2 0 12;      (* signal 0, class 1: all three, in order *)
     EHandler 7 2 70;                                         (* the ExceptionSignal overtakes signal 1 *)
     EHandler 3 1 20; EHandler 4 1 21; EHandler 5 1 25].      (* signal 1, class 2, incl. the late handler *)
Proof. vm_compute. repeat split. Qed.

(* the same without an ExceptionSignal handler: the application is killed, run() does not return and the
   quit callback is not called *)
Example C02_example_kill :
  let '(os, st) := run_session (handler_prog ex_bodies) 100
                     [TProg (compile_cmds 0 (ex_table ++ ex_signals)); TRun] (init_state []) in
  os = [ONormal; OThrow XSysExit] /\
  ok_C02 (rev (trace st)) = true /\
  hd ETop (trace st) = EKill /\
  filter is_handler (rev (trace st)) = [EHandler 0 0 10; EHandler 1 0 11; EHandler 2 0 12] /\
  existsb (fun e => match e with EQuitCb _ | ERunReturn => true | _ => false end) (trace st) = false.
Proof. vm_compute. repeat split. Qed.

Print Assumptions C02_delivery.
Print Assumptions C02_exec_discipline.
Print Assumptions C02_after_kill.
Print Assumptions C02_exception_overtakes.
Print Assumptions C02_exception_position.
Print Assumptions C02_exception_enqueue.
Print Assumptions C02_unhandled_kills.
Print Assumptions C02_kill_leaves_procloop.
Print Assumptions C02_kill_leaves_mainloop.
Print Assumptions C02_kill_leaves_run.
Print Assumptions C02_run_returns_only.
Print Assumptions C02_failure_isolated.
Print Assumptions C02_dispatch_catches.

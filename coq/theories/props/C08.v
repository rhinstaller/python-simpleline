(* C08 — screen lifecycle: set up once, refreshed before every draw, closed once.
   "A screen's setup runs before its first refresh and never again once it has succeeded, and every draw of
    a screen is immediately preceded by a refresh of that same screen with the arguments it was scheduled
    with.  A screen whose setup reports failure is discarded without ever being refreshed, drawn or prompted
    and the next screen on the stack is processed instead; the closed callback fires exactly once for each
    close of a screen and never for a replace."
   Theorem statements: a proof here is [exact] of a lemma of proofs/C08Proofs.v or proofs/ScreenLink.v (in section 2 mostly
   applied to [sok_event] of proofs/ScreenFacts.v), the closed [Example]s are evaluated by [vm_compute] here or in C08Proofs.v.
   The property is the trace acceptor [chk_C08] of ScreenMon.v (the same function, extracted, judges the
   traces recorded from the implementation):
     - while the entry popped by close_screen waits for its closed() no other screen-layer event is
       accepted; T_CLOSED only for that entry (so: never after the pop of a replace or of a discard);
     - T_SETUP only for a screen not yet ready, with the arguments of the top entry, at the start of a
       _process_screen frame; T_REFRESH only for a ready screen, same conditions;
       a setup() that runs commands of its own logs T_SETUP_BEGIN when it is entered — the conditions are checked
       there (not ready, the top entry's arguments, first thing of the frame) — and the T_SETUP of its return and the
       T_REFRESH that follows are recognised by the frame's state [in_setup_of] (the stack may have changed meanwhile);
     - T_SHOW only in a frame whose last lifecycle event is the T_REFRESH of the same entry;
     - after a failed setup the next stack / operation / prompt event is the pop of that entry.
   Hypothesis [failing_setup_plain specs]: a screen whose setup() can report failure (sc_setup contains false) has no
   setup commands; [plain_setup specs] implies it.  Without it the statement is false: a setup() that pushes a screen and
   then reports failure makes the scheduler discard the pushed screen ([C08_failed_setup_after_push_refuted]).
   Hypothesis [wf_session]: every screen id occurring in a push / push_modal / replace / schedule command
   (of the actions and of every callback list of every screen — setup() included —, through SIfCount) and the quit screen is
   < length specl, i.e. every screen that can reach the stack owns a slot of per-screen state.  In the
   Python every screen is an object of its own; in the model a screen without a slot cannot remember that
   its setup succeeded (counter-example: [C08_needs_wf]). *)
From Coq Require Import ZArith NArith List Bool.
From RecordUpdate Require Import RecordUpdate.
From SL Require Import PyInt LoopSem ScreenSem ScreenMon proofs.ScreenLink proofs.C04Proofs proofs.C08Proofs.
Import ListNotations.

(* 1. every well-formed session, under [failing_setup_plain], produces a trace the monitor accepts *)
Theorem C08_lifecycle : forall specs specl typed quit run_empty fuel acts,
  failing_setup_plain specs ->
  (forall n, specs n = nth n specl default_spec) -> wf_session specl quit acts = true ->
  sok chk_C08 typed (rev (trace (snd (app_run_all specs specl typed quit run_empty fuel acts)))) = true.
Proof. exact C08_lifecycle_proof. Qed.

(* the link behind it: at the end of a session that ran to its end the ideal stack is the concrete one and nothing is
   expected, failed or awaiting its closed() ([slink]); and in every state with the invariant [Inv] of proofs/ScreenLink.v
   the observer's set of ready screens is exactly the set of screens whose setup flag is set ([C08_ready_is_flag]) *)
Theorem C08_ready_link : forall specs specl typed quit run_empty fuel acts,
  failing_setup_plain specs ->
  (forall n, specs n = nth n specl default_spec) -> wf_session specl quit acts = true ->
  Forall finished (fst (app_run_all specs specl typed quit run_empty fuel acts)) ->
  slink typed (snd (app_run_all specs specl typed quit run_empty fuel acts)).
Proof. exact ready_link. Qed.

Theorem C08_ready_is_flag : forall typed nscr Ps pf s,
  Inv typed true nscr Ps pf s -> forall x, mem x (sw_ready (SW typed s)) = ss_ready (scr_of (ust s) x).
Proof. exact Inv_ready. Qed.

(* every _process_screen leaves the frames of the enclosing ones alone: through every loop-level call *)
Theorem C08_frames_balanced : forall typed specs nscr Ps pf f c s o s',
  failing_setup_plain specs ->
  (forall x, spec_wf nscr (specs x) = true) ->
  is_prog c = false -> Inv typed true nscr Ps pf s ->
  exec (screen_code specs) f c s = (o, s') ->
  match o with
  | OFuel | OBlocked => acc_tr (chkb true) typed (trace s')
  | _ => Inv typed true nscr Ps pf s' /\ sw_pframes (SW typed s') = pf
  end.
Proof. exact frames_balanced. Qed.

(* 2. what acceptance means, event by event.  [fold_left sworld_step t1 (sworld0 typed)] = the observer's world after the
      events t1 *)
(* closed() fires only for the entry just popped by close_screen ... *)
Theorem C08_closed_only_after_close : forall typed t1 i scr tx t2,
  sok chk_C08 typed (t1 ++ EUser T_CLOSED [i; scr] tx :: t2) = true ->
  sw_closed_pending (fold_left sworld_step t1 (sworld0 typed)) = Some i.
Proof. intros * H. exact (chk08_closed _ _ _ (ScreenFacts.sok_event _ _ _ _ _ H)). Qed.

(* ... which only the pop announced by close_screen arms (not a replace's pop, not the discard) ... *)
Theorem C08_closed_pending_armed : forall w e i,
  sw_closed_pending (sworld_step w e) = Some i -> sw_closed_pending w = Some i \/
  exists a t r, e = EUser T_STACK a t /\ sw_expect w = XPop true :: r /\ nth0 a 1 = i.
Proof. exact closed_pending_armed. Qed.

(* ... and at once: the next screen-layer event after that pop is the closed() of that entry *)
Theorem C08_closed_at_once : forall typed t1 tag a tx t2 i,
  sok chk_C08 typed (t1 ++ EUser tag a tx :: t2) = true ->
  sw_closed_pending (fold_left sworld_step t1 (sworld0 typed)) = Some i -> tag = T_CLOSED /\ nth0 a 0 = i.
Proof. intros * H. exact (chk08_pending _ _ _ _ _ (ScreenFacts.sok_event _ _ _ _ _ H)). Qed.

(* a draw happens only in a _process_screen frame whose state is "refreshed entry i" ... *)
Theorem C08_show_after_refresh : forall typed t1 i scr tx t2,
  sok chk_C08 typed (t1 ++ EUser T_SHOW [i; scr] tx :: t2) = true ->
  exists f r, sw_pframes (fold_left sworld_step t1 (sworld0 typed)) = f :: r /\ pf_state f = 1 /\ pf_id f = i.
Proof. intros * H. exact (chk08_show _ _ _ (ScreenFacts.sok_event _ _ _ _ _ H)). Qed.

(* ... a state only T_REFRESH of entry i creates: otherwise the frames were the same before the event, or the event is
   the EHandlerEnd that pops a nested frame *)
Theorem C08_refreshed_state : forall w e f r,
  sw_pframes (sworld_step w e) = f :: r -> pf_state f = 1 ->
  (exists a t, e = EUser T_REFRESH a t /\ pf_id f = nth0 a 0) \/
  (sw_pframes w = f :: r) \/ (exists h sid how g, e = EHandlerEnd h sid how /\ sw_pframes w = g :: f :: r).
Proof. exact pframe_refreshed. Qed.

(* setup() only for a screen not yet ready, with the top entry's arguments, at the start of a frame — or the return of
   a setup() with commands that was entered under these conditions (C08_setup_begin_once, C08_in_setup_state) *)
Theorem C08_setup_once : forall typed t1 i scr args ok tx t2,
  sok chk_C08 typed (t1 ++ EUser T_SETUP [i; scr; args; ok] tx :: t2) = true ->
  (mem scr (sw_ready (fold_left sworld_step t1 (sworld0 typed))) = false /\
   (exists e, top_entry (fold_left sworld_step t1 (sworld0 typed)) = Some e /\ en_args e = args) \/
   in_setup_of (fold_left sworld_step t1 (sworld0 typed)) i = true) /\
  exists f r, sw_pframes (fold_left sworld_step t1 (sworld0 typed)) = f :: r /\ pf_state f = 0.
Proof. intros * H. exact (chk08_setup _ _ _ (ScreenFacts.sok_event _ _ _ _ _ H)). Qed.

(* a setup() with commands is entered only for a screen not yet ready, with the top entry's arguments, as the first thing
   of a frame, and never while a failed entry waits for its discard *)
Theorem C08_setup_begin_once : forall typed t1 i scr args tx t2,
  sok chk_C08 typed (t1 ++ EUser T_SETUP_BEGIN [i; scr; args] tx :: t2) = true ->
  mem scr (sw_ready (fold_left sworld_step t1 (sworld0 typed))) = false /\
  (exists e, top_entry (fold_left sworld_step t1 (sworld0 typed)) = Some e /\ en_args e = args) /\
  (exists f r, sw_pframes (fold_left sworld_step t1 (sworld0 typed)) = f :: r /\ pf_state f = 0 /\ pf_id f = 0) /\
  sw_failed (fold_left sworld_step t1 (sworld0 typed)) = None.
Proof. intros * H. exact (chk08_setup_begin _ _ _ (ScreenFacts.sok_event _ _ _ _ _ H)). Qed.

(* "inside the setup() of entry i" is a state of the innermost frame that only T_SETUP_BEGIN of entry i creates (the
   frame's refresh / draw end it; an inner frame that ends reveals the state of the enclosing one) *)
Theorem C08_in_setup_state : forall w e i,
  in_setup_of (sworld_step w e) i = true ->
  (exists a t, e = EUser T_SETUP_BEGIN a t /\ nth0 a 0 = i) \/ in_setup_of w i = true \/
  (exists h sid how g r, e = EHandlerEnd h sid how /\ sw_pframes w = g :: r /\ sw_pframes (sworld_step w e) = r).
Proof. exact in_setup_armed. Qed.

(* refresh() only for a ready screen (its setup has succeeded), with the top entry's arguments — or right after the
   return of that entry's setup() with commands *)
Theorem C08_refresh_ready : forall typed t1 i scr args tx t2,
  sok chk_C08 typed (t1 ++ EUser T_REFRESH [i; scr; args] tx :: t2) = true ->
  mem scr (sw_ready (fold_left sworld_step t1 (sworld0 typed))) = true /\
  ((exists e, top_entry (fold_left sworld_step t1 (sworld0 typed)) = Some e /\ en_args e = args) \/
   in_setup_of (fold_left sworld_step t1 (sworld0 typed)) i = true) /\
  exists f r, sw_pframes (fold_left sworld_step t1 (sworld0 typed)) = f :: r /\ pf_state f = 0.
Proof. intros * H. exact (chk08_refresh _ _ _ (ScreenFacts.sok_event _ _ _ _ _ H)). Qed.

(* once ready, always ready: no second setup *)
Theorem C08_ready_for_ever : forall w e x, mem x (sw_ready w) = true -> mem x (sw_ready (sworld_step w e)) = true.
Proof. exact ready_grows. Qed.

(* a failed setup is followed by the discard of that entry: no operation, prompt, separator, ... before *)
Theorem C08_failed_setup_discarded : forall typed t1 i scr args tx0 tag a tx t2,
  sok chk_C08 typed (t1 ++ EUser T_SETUP [i; scr; args; 0] tx0 :: EUser tag a tx :: t2) = true ->
  tag <> T_SETUP -> tag <> T_REFRESH -> tag <> T_SHOW -> tag <> T_CLOSED ->
  tag = T_STACK /\ nth0 a 0 = K_POP /\ nth0 a 1 = i.
Proof. exact accepted_failed_discard. Qed.

(* 3. non-vacuity.  The hypothesis is satisfiable by non-trivial sessions; the two example sessions of C04
      (modal dialog replaced then closed; a setup that fails once) are accepted and contain what the
      clauses speak about *)
Example C08_example_modal_replace :
  wf_session ex_specl None ex_acts1 = true /\
  sok chk_C08 ex_typed1 ex_trace1 = true /\
  shows ex_trace1 = [(0, 0); (1, 1); (2, 2); (0, 0)] /\
  (* three screens set up once each, four refreshes and draws, two closes (the replaced dialog: none) *)
  count_tag T_SETUP ex_trace1 = 3 /\ count_tag T_REFRESH ex_trace1 = 4 /\ count_tag T_SHOW ex_trace1 = 4 /\
  count_tag T_CLOSED ex_trace1 = 2.
Proof. vm_compute. repeat split. Qed.

Example C08_example_failed_setup :
  wf_session ex_specl None ex_acts2 = true /\
  sok chk_C08 ex_typed2 ex_trace2 = true /\
  shows ex_trace2 = [(1, 0); (2, 3); (1, 0)] /\
  (* the shy screen: setup fails (entry 0, discarded, never drawn), later succeeds (entry 2) *)
  filter (fun e => match e with EUser g _ _ => (g =? T_SETUP)%nat | _ => false end) ex_trace2 =
    [EUser T_SETUP [0; 3; 4; 0] []; EUser T_SETUP [1; 0; 0; 1] []; EUser T_SETUP [2; 3; 0; 1] []].
Proof. vm_compute. repeat split. Qed.

(* the monitor is not vacuous *)
Example C08_monitor_rejects :
  sok chk_C08 [] bad_show_without_refresh = false /\
  sok chk_C08 [] good_setup_refresh_show = true /\
  sok chk_C08 [] bad_closed_after_replace = false /\
  sok chk_C08 [] good_closed_after_close = true /\
  sok chk_C08 [] bad_closed_twice = false /\
  sok chk_C08 [] bad_close_without_closed = false /\
  sok chk_C08 [] bad_setup_twice = false /\
  sok chk_C08 [] bad_refresh_after_failed_setup = false.
Proof. vm_compute. repeat split. Qed.

(* why [wf_session]: a screen id without a slot (no screens declared at all, screen 0 scheduled) is set up
   again on every redraw ('r'): the model's trace is rejected *)
Example C08_needs_wf :
  let specl := @nil screen_spec in
  let typed := [Some [114%N]; None] in
  let acts := [SACmds [SSchedule 0 0]; SARun] in
  wf_session specl None acts = false /\
  sok chk_C08 typed (rev (trace (snd (app_run_all (fun n => nth n specl default_spec) specl typed None false 500 acts)))) = false /\
  sok chk_C04 typed (rev (trace (snd (app_run_all (fun n => nth n specl default_spec) specl typed None false 500 acts)))) = true.
Proof. vm_compute. repeat split. Qed.

(* setup() with commands.  Screen 0's setup() pushes screen 1 and reports FAILURE (session [fs_specl] of
   proofs/C04Proofs.v): the entry the scheduler discards is the pushed screen, not the one whose setup failed — "a screen
   whose setup reports failure is discarded" is violated by the code; the model's own trace is rejected *)
Example C08_failed_setup_after_push_refuted :
  sok chk_C08 fs_typed (rev (trace (snd (app_run_all (fs_specs [false]) (fs_specl [false]) fs_typed None false fs_fuel fs_acts)))) = false.
Proof. exact C08Proofs.C08_failed_setup_after_push_refuted. Qed.

Example C08_failed_setup_after_push_trace :
  filter (fun e => match e with EUser g _ _ => (g =? T_SETUP)%nat || (g =? T_SETUP_BEGIN)%nat || (g =? T_STACK)%nat | _ => false end)
         (firstn 22 (rev (trace (snd (app_run_all (fs_specs [false]) (fs_specl [false]) fs_typed None false fs_fuel fs_acts))))) =
  [EUser T_STACK [K_ADD_FIRST; 0; 0; 0; 0] []; EUser T_SETUP_BEGIN [0; 0; 0] []; EUser T_STACK [K_APPEND; 1; 1; 0; 0] [];
   EUser T_SETUP [0; 0; 0; 0] []; EUser T_STACK [K_POP; 1; 1; 0; 0] []].
Proof. exact C08Proofs.C08_failed_setup_after_push_trace. Qed.

(* the same session with a setup() that succeeds satisfies the hypotheses of C08_lifecycle (so they are satisfiable by a
   setup() that changes the stack), is accepted, and runs to its end *)
Theorem C08_setup_push_hypothesis : failing_setup_plain (fs_specs []) /\ ~ failing_setup_plain (fs_specs [false]).
Proof. exact (conj fs_failing_setup_plain fs_not_failing_setup_plain). Qed.

Example C08_setup_push_accepted :
  wf_session (fs_specl []) None fs_acts = true /\
  sok chk_C08 fs_typed (rev (trace (snd (app_run_all (fs_specs []) (fs_specl []) fs_typed None false fs_fuel fs_acts)))) = true /\
  fst (app_run_all (fs_specs []) (fs_specl []) fs_typed None false fs_fuel fs_acts) = [ONormal; ONormal].
Proof. exact C08Proofs.C08_setup_push_accepted. Qed.

Print Assumptions C08_lifecycle.
Print Assumptions C08_ready_link.
Print Assumptions C08_ready_is_flag.
Print Assumptions C08_frames_balanced.
Print Assumptions C08_closed_only_after_close.
Print Assumptions C08_closed_pending_armed.
Print Assumptions C08_closed_at_once.
Print Assumptions C08_show_after_refresh.
Print Assumptions C08_refreshed_state.
Print Assumptions C08_setup_once.
Print Assumptions C08_setup_begin_once.
Print Assumptions C08_in_setup_state.
Print Assumptions C08_setup_push_hypothesis.
Print Assumptions C08_refresh_ready.
Print Assumptions C08_ready_for_ever.
Print Assumptions C08_failed_setup_discarded.

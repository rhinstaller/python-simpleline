(* Adv — the stock dialogs of simpleline/render/adv_widgets.py inside the screen-layer model (auxiliary
   theorem file, not a numbered property).
   AdvWidgets.v gives for every stock class the [screen_spec] that describes it.  The screen-layer theorems
   C04..C08, C18 are quantified over the table of specs; this file records (a) what the specs of the stock dialogs
   answer, key by key, (b) what the quit protocol of ScreenScheduler.process_input_result does with the answer
   of the configured dialog, (c) that the stock specs are well-formed members of any table, with C04 and C08
   instantiated for "the application's own screens ++ stock dialogs".
   The correspondence of these specs with the real classes is checked by checks/adv_corr.py (sessions on the
   real YesNoDialog / ErrorDialog / HelpScreen / GetInputScreen / GetPasswordInputScreen / PasswordDialog
   against the model run on [adv_spec kind]).
   Theorem statements and two computed examples (with their sessions); every proof of a theorem is a lemma of
   proofs/AdvWidgetsProofs.v, or (Adv_str_eqb_eq, Adv_yesno_answers, Adv_getinput_run) a few of them put together. *)
From Coq Require Import ZArith NArith List Bool.
From RecordUpdate Require Import RecordUpdate.
From SL Require Import PyInt LoopSem ScreenSem ScreenMon AdvWidgets proofs.ScreenLink proofs.AdvWidgetsProofs.
Import ListNotations.

(* [input_entry sp key] = what ScreenSem.call_input runs and returns for the key (table entry or default) *)
Theorem Adv_yesno_table : forall key,
  input_entry yes_no_dialog_spec key =
  if str_eqb key s_yes then ([SSetAnswer AnsTrue], RClose)
  else if str_eqb key s_no then ([SSetAnswer AnsOther], RClose)
  else ([], RDiscarded).
Proof. exact yesno_table. Qed.

(* the follow-up action (InputManager._process_input): close for yes / no, rejection for EVERY other key —
   also for c / r / q: the dialog returns DISCARDED, not the key, so no global key works inside it *)
Theorem Adv_yesno_action : forall key,
  action_of (snd (input_entry yes_no_dialog_spec key)) = if str_eqb key s_yes || str_eqb key s_no then AClose else AError.
Proof. exact yesno_action. Qed.

Theorem Adv_str_eqb_eq : forall k k', str_eqb k k' = true <-> k = k'.
Proof. intros k k'. split; [apply str_eqb_eq | intros ->; apply str_eqb_refl]. Qed.

(* in any session, in any state that has the screen: input("yes") on a screen whose spec is the YesNoDialog's
   emits the one T_INPUT event, sets the screen's answer to True and returns a value whose follow-up action is
   close; "no": answer False (AnsOther), close; anything else: the answer is left alone, rejection *)
Theorem Adv_yesno_answers : forall specs scr f s,
  specs scr = yes_no_dialog_spec -> scr < length (st_scr (ust s)) ->
  (exists s', exec (screen_code specs) (10 + f) (CProg (call_input specs scr s_yes)) s = (ONormal, s') /\
     ss_answer (scr_of (ust s') scr) = AnsTrue /\ action_of (st_rv (ust s')) = AClose /\
     trace s' = EUser T_INPUT [scr; ss_input_args (scr_of (ust s) scr)] s_yes :: trace s /\
     st_stack (ust s') = st_stack (ust s)) /\
  (exists s', exec (screen_code specs) (10 + f) (CProg (call_input specs scr s_no)) s = (ONormal, s') /\
     ss_answer (scr_of (ust s') scr) = AnsOther /\ action_of (st_rv (ust s')) = AClose /\
     trace s' = EUser T_INPUT [scr; ss_input_args (scr_of (ust s) scr)] s_no :: trace s /\
     st_stack (ust s') = st_stack (ust s)) /\
  (forall key, key <> s_yes -> key <> s_no ->
   exists s', exec (screen_code specs) (8 + f) (CProg (call_input specs scr key)) s = (ONormal, s') /\
     ss_answer (scr_of (ust s') scr) = ss_answer (scr_of (ust s) scr) /\ action_of (st_rv (ust s')) = AError /\
     trace s' = EUser T_INPUT [scr; ss_input_args (scr_of (ust s) scr)] key :: trace s /\
     st_stack (ust s') = st_stack (ust s)).
Proof.
  intros specs scr f s E H. split; [|split]; [| |intros key Hy Hn].
  - destruct (input_answers specs scr s_yes (Some AnsTrue) RClose (3 + f) s) as [s' [R [Ha [Hr Hts]]]];
      [rewrite E; reflexivity | exact H|].
    exists s'. rewrite Hr. auto.
  - destruct (input_answers specs scr s_no (Some AnsOther) RClose (3 + f) s) as [s' [R [Ha [Hr Hts]]]];
      [rewrite E; reflexivity | exact H|].
    exists s'. rewrite Hr. auto.
  - destruct (input_answers specs scr key None RDiscarded (1 + f) s) as [s' [R [Ha [Hr Hts]]]];
      [rewrite E, yesno_table, (str_eqb_neq _ _ Hy), (str_eqb_neq _ _ Hn); reflexivity | exact H|].
    exists s'. rewrite Hr. auto.
Qed.

(* the dialog's `answer` exists before any callback ran (__init__: self._response = None), for every table and
   every position of the dialog in it; refresh() leaves it alone.  Hence, by Adv_quit_protocol, a YesNoDialog or
   PasswordDialog as quit dialog whose push returns without an answer does NOT quit (the AttributeError branch is
   for dialogs without the property: ErrorDialog, HelpScreen, GetInputScreen) *)
Theorem Adv_initial_answer : forall specl typed quit run_empty i sp,
  nth_error specl i = Some sp -> ss_answer (scr_of (sstate0 specl typed quit run_empty) i) = sc_answer0 sp.
Proof. exact initial_answer. Qed.

Theorem Adv_answer0 : forall k,
  sc_answer0 (adv_spec k) = match k with KYesNo | KPassword => AnsOther | _ => AnsNoAttr end.
Proof. exact adv_answer0. Qed.

Theorem Adv_yesno_refresh : forall specs d f s,
  specs (sd_scr d) = yes_no_dialog_spec ->
  exists s', exec (screen_code specs) (6 + f) (CProg (call_refresh specs d)) s = (ONormal, s') /\
    trace s' = EUser T_REFRESH [sd_id d; sd_scr d; sd_args d] [] :: trace s /\
    st_stack (ust s') = st_stack (ust s) /\
    ss_answer (scr_of (ust s') (sd_scr d)) = ss_answer (scr_of (ust s) (sd_scr d)).
Proof. exact yesno_refresh. Qed.

(* GetInputScreen / GetPasswordInputScreen: for EVERY key the table built from the acceptance conditions
   answers as GetInputScreen._test_input does: accepted = PROCESSED_AND_CLOSE, else DISCARDED *)
Theorem Adv_getinput_table : forall conds key,
  input_entry (get_input_screen_spec conds) key = ([], accept_ret (test_input conds key)).
Proof. exact getinput_table. Qed.

Theorem Adv_getinput_action : forall conds key,
  action_of (snd (input_entry (get_input_screen_spec conds) key)) = if test_input conds key then AClose else AError.
Proof. exact getinput_action. Qed.

Theorem Adv_getinput_run : forall specs conds scr key f s,
  specs scr = get_input_screen_spec conds ->
  exists s', exec (screen_code specs) (8 + f) (CProg (call_input specs scr key)) s = (ONormal, s') /\
    st_rv (ust s') = accept_ret (test_input conds key) /\
    trace s' = EUser T_INPUT [scr; ss_input_args (scr_of (ust s) scr)] key :: trace s /\
    st_stack (ust s') = st_stack (ust s).
Proof.
  intros specs conds scr key f s E. exists (after_input scr key None (accept_ret (test_input conds key)) s).
  split; [|split; [reflexivity | split; [reflexivity | apply after_input_stack]]].
  apply (call_input_answer specs scr key None _ (1 + f)). rewrite E. apply getinput_table.
Qed.

(* HelpScreen: any key closes;  ErrorDialog: any key is sys.exit(1);
   PasswordDialog.input: the empty line is rejected, any other line is stored and closes *)
Theorem Adv_help_table : forall key, input_entry help_screen_spec key = ([], RClose).
Proof. exact help_table. Qed.

Theorem Adv_error_table : forall key, input_entry error_dialog_spec key = ([SSysExit], RNone).
Proof. exact error_table. Qed.

(* InputManager.process_input on an ErrorDialog, any key, any state: SystemExit leaves through `except Exception`;
   exactly one event (the T_INPUT): no follow-up action, no ExceptionSignal, the stack untouched *)
Theorem Adv_error_exits : forall specs scr key f s,
  specs scr = error_dialog_spec ->
  exists s', exec (screen_code specs) (12 + f) (CProg (process_input specs scr key)) s = (OThrow XSysExit, s') /\
    trace s' = EUser T_INPUT [scr; ss_input_args (scr_of (ust s) scr)] key :: trace s /\
    st_stack (ust s') = st_stack (ust s).
Proof. exact error_process. Qed.

Theorem Adv_password_table : forall key,
  input_entry password_dialog_spec key = match key with [] => ([], RDiscarded) | _ => ([SSetAnswer AnsOther], RClose) end.
Proof. exact password_table. Qed.

(* the quit key with a quit dialog configured: the dialog is pushed modally (whatever happens inside: one
   [exec] of push_screen_modal); when that returns normally the application quits iff the dialog's answer is
   True or the dialog has no `answer`; otherwise exactly one RenderScreenSignal is created and enqueued *)
Theorem Adv_quit_protocol : forall specs qs top rest sr f s,
  st_stack (ust s) = top :: rest -> st_quit (ust s) = Some qs ->
  exec (screen_code specs) (6 + f) (CProg (process_input_result specs AQuit sr)) s =
  let '(o, s1) := exec (screen_code specs) (3 + f) (CProg (push_screen_modal specs qs 0)) s in
  match o with
  | ONormal =>
    match ss_answer (scr_of (ust s1) qs) with
    | AnsOther => let '(sg, s2) := new_signal s1 (render_spec None) in (ONormal, do_enqueue s2 sg)
    | _ => (OThrow XExit, s1)
    end
  | _ => (o, s1)
  end.
Proof. exact quit_protocol. Qed.

Theorem Adv_quit_without_dialog : forall specs top rest sr f s,
  st_stack (ust s) = top :: rest -> st_quit (ust s) = None ->
  exec (screen_code specs) (3 + f) (CProg (process_input_result specs AQuit sr)) s = (OThrow XExit, s).
Proof. exact no_quit_screen. Qed.

(* no stock dialog issues a stack operation: well-formed in a table of any size *)
Theorem Adv_specs_wf : forall n k, spec_wf n (adv_spec k) = true.
Proof. exact adv_spec_wf. Qed.

Theorem Adv_wf_extend : forall own ks quit acts,
  wf_session own quit acts = true -> wf_session (own ++ map adv_spec ks) quit acts = true.
Proof. exact adv_wf_extend. Qed.

(* the application's own screens may push / schedule the dialogs, and a dialog may be the quit screen *)
Theorem Adv_wf_session : forall own ks quit acts,
  forallb (spec_wf (length own + length ks)) own = true ->
  match quit with Some q => q < length own + length ks | None => True end ->
  forallb (saction_wf (length own + length ks)) acts = true ->
  wf_session (own ++ map adv_spec ks) quit acts = true.
Proof. exact adv_wf_session. Qed.

(* C04 and C08 for applications that use the stock dialogs (instances of the general theorems) *)
(* the hypothesis of C04 / C08 about setup() with commands concerns the application's own screens only: the stock
   dialogs' setup() runs no commands *)
Theorem Adv_setup_hypothesis : forall specs own ks,
  (forall n, specs n = nth n (own ++ map adv_spec ks) default_spec) ->
  (forall sp, In sp own -> In false (sc_setup sp) -> sc_setup_cmds sp = []) ->
  failing_setup_plain specs.
Proof. exact adv_failing_setup_plain. Qed.

Theorem Adv_C04_covered : forall specs own ks typed quit run_empty fuel acts,
  failing_setup_plain specs ->
  (forall n, specs n = nth n (own ++ map adv_spec ks) default_spec) ->
  sok chk_C04 typed (rev (trace (snd (app_run_all specs (own ++ map adv_spec ks) typed quit run_empty fuel acts)))) = true.
Proof. exact adv_C04. Qed.

Theorem Adv_C08_covered : forall specs own ks typed quit run_empty fuel acts,
  failing_setup_plain specs ->
  (forall n, specs n = nth n (own ++ map adv_spec ks) default_spec) ->
  forallb (spec_wf (length own + length ks)) own = true ->
  match quit with Some q => q < length own + length ks | None => True end ->
  forallb (saction_wf (length own + length ks)) acts = true ->
  sok chk_C08 typed (rev (trace (snd (app_run_all specs (own ++ map adv_spec ks) typed quit run_empty fuel acts)))) = true.
Proof. exact adv_C08. Qed.

(* one plain screen (returns the key: q is the quit key), the YesNoDialog as quit dialog.
   typed: q, x (rejected by the dialog), no (back to the screen), q, c (rejected: no global key in the dialog), yes *)
Definition ex_specl : list screen_spec := [stock_base] ++ map adv_spec [KYesNo].
Definition ex_typed : list (option str) :=
  [Some [113]; Some [120]; Some s_no; Some [113]; Some [99]; Some s_yes; Some [120]]%N.
Definition ex_run :=
  app_run_all (fun n => nth n ex_specl default_spec) ex_specl ex_typed (Some 1) false 3000 [SACmds [SSchedule 0 0]; SARun].

Example Adv_example :
  wf_session ex_specl (Some 1) [SACmds [SSchedule 0 0]; SARun] = true /\
  fst ex_run = [ONormal; ONormal] /\                                    (* run() returned: the application quit *)
  map ss_answer (st_scr (ust (snd ex_run))) = [AnsNoAttr; AnsTrue] /\
  st_typed (ust (snd ex_run)) = [Some [120%N]] /\                        (* ... exactly after "yes" *)
  (* the actions: q -> quit(3); x -> rejected(4); no -> close(2); q -> quit(3); c -> rejected(4); yes -> close(2) *)
  flat_map (fun e => match e with EUser 19 [scr; a] _ => [(scr, a)] | _ => [] end) (rev (trace (snd ex_run)))
    = [(0, 3); (1, 4); (1, 2); (0, 3); (1, 4); (1, 2)] /\
  sok (chk_C07 (Some 1)) ex_typed (rev (trace (snd ex_run))) = true.
Proof. vm_compute. repeat split. Qed.

(* the quit dialog that was never rendered: the handler of "1" calls force_quit() and returns the quit key;
   push_screen_modal returns at once, the YesNoDialog's answer is None: no ExitMainLoop from the handler (every
   handler ends normally), the redraw signal is discarded by the stopped loop *)
Definition ex2_specl : list screen_spec :=
  [ {| sc_setup := []; sc_refresh := []; sc_show := []; sc_closed := [];
       sc_input := [([49%N], ([SForceQuit], RKey [113%N]))]; sc_input_default := ([], None);
       sc_prompt_none := false; sc_input_required := true; sc_no_separator := false; sc_skip_check := false;
       sc_pages := 0; sc_answer0 := AnsNoAttr; sc_custom := []; sc_setup_cmds := [] |} ] ++ map adv_spec [KYesNo].
Definition ex2_run :=
  app_run_all (fun n => nth n ex2_specl default_spec) ex2_specl [Some [49%N]; Some s_yes] (Some 1) false 3000
              [SACmds [SSchedule 0 0]; SARun].

Example Adv_example_never_rendered :
  fst ex2_run = [ONormal; ONormal] /\
  map ss_answer (st_scr (ust (snd ex2_run))) = [AnsNoAttr; AnsOther] /\
  existsb (fun e => match e with EDropped _ => true | _ => false end) (trace (snd ex2_run)) = true /\
  forallb (fun e => match e with EHandlerEnd _ _ (Some _) => false | _ => true end) (trace (snd ex2_run)) = true /\
  sok (chk_C07 (Some 1)) [Some [49%N]; Some s_yes] (rev (trace (snd ex2_run))) = true.
Proof. vm_compute. repeat split. Qed.

Print Assumptions Adv_yesno_table.
Print Assumptions Adv_yesno_action.
Print Assumptions Adv_str_eqb_eq.
Print Assumptions Adv_yesno_answers.
Print Assumptions Adv_initial_answer.
Print Assumptions Adv_answer0.
Print Assumptions Adv_yesno_refresh.
Print Assumptions Adv_getinput_table.
Print Assumptions Adv_getinput_action.
Print Assumptions Adv_getinput_run.
Print Assumptions Adv_help_table.
Print Assumptions Adv_error_table.
Print Assumptions Adv_error_exits.
Print Assumptions Adv_password_table.
Print Assumptions Adv_quit_protocol.
Print Assumptions Adv_quit_without_dialog.
Print Assumptions Adv_specs_wf.
Print Assumptions Adv_wf_extend.
Print Assumptions Adv_wf_session.
Print Assumptions Adv_C04_covered.
Print Assumptions Adv_C08_covered.
Print Assumptions Adv_setup_hypothesis.

(* C16 — rendering depends only on current content and width, not on render history.
   Theorem statements; proofs are [exact] of lemmas in proofs/ContainersProofs.v and
   proofs/ContainersHistory.v (or [reflexivity] for definitional facts); the examples hold by computation.

   In the model a render is a pure function [render_tree : wtree -> Z -> rres buffer], and the
   model of a long-lived object (ContainerObject.v: run_ops) has the tree as its only state:
   after fix b8b32a9 the Python keeps nothing from one render() to the next except the items
   (self._numbering_widgets is rebuilt by every render, every buffer is cleared first).  Hence
   C16_idempotent .. C16_other_widget below are immediate consequences of that choice of state —
   they say what the property means for the model, they are NOT where the confidence comes from.
   The content of C16 is (a) C16_fuel_irrelevant, which makes "the" render of a tree well defined,
   (b) the correspondence run of checks/C16.py, which drives real long-lived objects through random
   histories and compares every get_lines() with [run_ops] and with a freshly built equal tree, and
   (c) C16_legacy_refuted_*, the pre-fix behaviour, for which the same statements are false. *)
From Coq Require Import ZArith NArith List.
From SL Require Import PyInt Widget TextWrap KeyPattern Containers ContainerObject LegacyContainers
     proofs.ContainersProofs proofs.ContainersHistory.
Import ListNotations.

(* the fuel of [render] only bounds the nesting depth: any sufficient fuel gives the same result *)
Theorem C16_fuel_irrelevant : forall f1 f2 t w,
  depth t <= f1 -> depth t <= f2 -> render f1 t w = render f2 t w.
Proof. exact render_fuel_irrelevant. Qed.

(* whatever the history (renders at any widths, additions anywhere in the tree, renders of other
   trees), a render at w shows the render of the current tree at w *)
Theorem C16_history_irrelevant : forall ops t w,
  run_ops t (ops ++ [ORender w]) = run_ops t ops ++ [render_tree (final_tree t ops) w].
Proof. exact history_irrelevant. Qed.

(* the current tree is the initial tree plus the additions: renders do not count *)
Theorem C16_renders_leave_tree : forall ops t, final_tree t ops = final_tree t (filter is_add ops).
Proof. exact final_tree_adds_only. Qed.

(* rendering again after any history without additions gives the same lines as the first time *)
Theorem C16_render_again : forall ops t w,
  (forall o, In o ops -> is_add o = false) ->
  run_ops t (ORender w :: ops ++ [ORender w]) = render_tree t w :: run_ops t ops ++ [render_tree t w].
Proof. exact render_again. Qed.

(* trivial corollaries (see the header) *)
Theorem C16_idempotent : forall t w, run_ops t [ORender w; ORender w] = [render_tree t w; render_tree t w].
Proof. reflexivity. Qed.

Theorem C16_width_roundtrip : forall t w w',
  run_ops t [ORender w; ORender w'; ORender w] = [render_tree t w; render_tree t w'; render_tree t w].
Proof. reflexivity. Qed.

(* adding after a render gives the render of the larger container built from scratch *)
Theorem C16_add_after_render : forall t p x w,
  run_ops t [ORender w; OAdd p x; ORender w] = [render_tree t w; render_tree (add_at p t x) w].
Proof. reflexivity. Qed.

Theorem C16_add_is_append : forall k c items f s kp xs,
  fold_left add_item xs (WList k c items f s kp) = WList k c (items ++ xs) f s kp.
Proof. exact add_items_list. Qed.

(* rendering one widget never changes how another renders *)
Theorem C16_other_widget : forall t t' w w',
  run_ops t [ORender w; OOther t' w'; ORender w] = [render_tree t w; render_tree t' w'; render_tree t w].
Proof. reflexivity. Qed.

(* what fix b8b32a9 removed *)
Local Open Scope N_scope.
Definition tA := simple_text [97;97;97;32;98;98;98;32;99;99;99].   (* "aaa bbb ccc" *)
Definition tB := simple_text [100;100].                              (* "dd" *)
Definition tC := simple_text [99].                                   (* "c" *)

(* ListRowContainer(2, ["aaa bbb ccc", "dd"]): render(40) then render(20) keeps the column width
   of the first render and draws a 26 character line at width 20; a fresh object does not *)
Example C16_legacy_refuted_width :
  let o := legacy_new KRow 2%Z [tA; tB] None 3%Z (Some default_pattern) in
  let after40 := fst (legacy_render o 40%Z) in
  snd (legacy_render after40 20%Z) <> snd (legacy_render o 20%Z) /\
  snd (legacy_render after40 20%Z) =
    ROk [[49;41;32;97;97;97;32;98;98;98;32;99;99;99;32;32;32;32;32;32;32;50;41;32;100;100]] /\
  (* on a fresh object the legacy code and the current model agree *)
  snd (legacy_render o 20%Z) = render_tree (WList KRow 2%Z [WText tA; WText tB] None 3%Z (Some default_pattern)) 20%Z.
Proof. vm_compute. repeat split. discriminate. Qed.

(* ListRowContainer(1, [..2 items..]): render, add a third item, render: the third item is
   labelled "1)" (the label list of the first render was kept and indexed from 0) *)
Example C16_legacy_refuted_labels :
  let o := legacy_new KRow 1%Z [tA; tB] None 3%Z (Some default_pattern) in
  let o' := legacy_add (fst (legacy_render o 30%Z)) tC in
  snd (legacy_render o' 30%Z) =
    ROk [[49;41;32;97;97;97;32;98;98;98;32;99;99;99]; [50;41;32;100;100]; [49;41;32;99]] /\
  render_tree (WList KRow 1%Z [WText tA; WText tB; WText tC] None 3%Z (Some default_pattern)) 30%Z =
    ROk [[49;41;32;97;97;97;32;98;98;98;32;99;99;99]; [50;41;32;100;100]; [51;41;32;99]].
Proof. vm_compute. repeat split. Qed.

(* non-vacuity of the history theorems: a nested tree, renders at two widths around an addition
   into the inner list, and another tree rendered in between *)
Example C16_example :
  let inner := WList KCol 2%Z [WText tA; WText tB] None 1%Z (Some default_pattern) in
  let t := WWindow None [WText tC; inner] in
  let ops := [ORender 30%Z; ORender 12%Z; OOther inner 20%Z; OAdd [1%nat] (WText tC); ORender 30%Z] in
  final_tree t ops = WWindow None [WText tC; WList KCol 2%Z [WText tA; WText tB; WText tC] None 1%Z (Some default_pattern)] /\
  length (run_ops t ops) = 4%nat /\
  nth 3 (run_ops t ops) RValueError <> nth 0 (run_ops t ops) RValueError /\
  nth 3 (run_ops t ops) RValueError = render_tree (final_tree t ops) 30%Z.
Proof. vm_compute. repeat split. discriminate. Qed.

Print Assumptions C16_fuel_irrelevant.
Print Assumptions C16_history_irrelevant.
Print Assumptions C16_renders_leave_tree.
Print Assumptions C16_render_again.
Print Assumptions C16_idempotent.
Print Assumptions C16_width_roundtrip.
Print Assumptions C16_add_after_render.
Print Assumptions C16_add_is_append.
Print Assumptions C16_other_widget.

(* C09 — the application stops exactly when told to, completely, and says so once.
   Theorem statements: every proof is [exact] of a lemma of proofs/C09Proofs.v; the examples are computed.
   Scope: the event loop (simpleline/event_loop).  The clauses about screens ("the last screen closes",
   "run() refuses to start with nothing scheduled") belong to the screen layer and are not stated here. *)
From Coq Require Import ZArith NArith List Bool.
From RecordUpdate Require Import RecordUpdate.
From SL Require Import LoopSem LoopProg Monitors.
From SL Require Import proofs.C09Exec proofs.C09Base proofs.C09Passes proofs.C09Acc proofs.C09Proofs.
Import ListNotations.

(* For every program of handlers ([code]: any [prog] per handler, signal and data), every session of top-level
   calls (run() or any program executed outside handlers), every fuel and initial user state: the whole event
   trace is accepted by the C09 monitor [Monitors.chk_C09], i.e. at every point of the trace
   (a) while force-quit is in effect no handler is invoked, nothing is enqueued, no signal is dispatched and no
       nested loop is entered;
   (b) once an ExitMainLoop is in flight inside run() (a handler raised it, or the outermost loop was closed)
       nothing happens but the unwinding of the open handler frames, the quit callback and run()'s return;
   (c) the quit callback is invoked only inside run(), at most once per run(), with the registered argument;
   (d) run() returns only inside run(), after the quit callback when one is registered, and - when entered with
       exactly one open level - only if since its entry an exit was raised, the last level was closed, or
       force-quit was called: nothing else ends the loop. *)
Theorem C09_stops : forall U (code : nat -> signal -> nat -> prog U) fuel acts (u : U),
  ok_C09 (rev (trace (snd (run_session code fuel acts (init_state u))))) = true.
Proof. exact @stops. Qed.

(* the counting argument behind (d), as a statement about the interpreter: a main loop (run()'s or a nested
   one) returns normally only after force-quit, or after the potential "open levels + (stop flag raised)" has
   dropped by one: a close_loop was spent on it *)
Theorem C09_mainloop_returns_only_when_told : forall U (code : nat -> signal -> nat -> prog U) f s s',
  exec code f CMainloop s = (ONormal, s') ->
  force_quit s' = true \/
  length (levels s') + (if run_loop s' then 0 else 1) + 1 <= length (levels s) + (if run_loop s then 0 else 1).
Proof. exact @mainloop_return. Qed.

(* ... and no call other than run() that ends normally or with an ordinary exception, without force-quit,
   increases that potential or empties the list of levels *)
Theorem C09_call_potential : forall U (code : nat -> signal -> nat -> prog U) f c s o s',
  c <> CRun -> exec code f c s = (o, s') -> o = ONormal \/ o = OThrow XError -> force_quit s' = false ->
  force_quit s = false /\
  length (levels s') + (if run_loop s' then 0 else 1) <= length (levels s) + (if run_loop s then 0 else 1) /\
  (levels s <> [] -> levels s' <> []).
Proof. exact @call_potential. Qed.

(* after a force-quit a newly enqueued signal is created and discarded: no queue changes *)
Theorem C09_force_quit_discards : forall U (code : nat -> signal -> nat -> prog U) f sp s,
  force_quit s = true ->
  exists s', exec code (S f) (CApi (AEnqueue sp)) s = (ONormal, s') /\
             qstore s' = qstore s /\ levels s' = levels s /\
             trace s' = EDropped (next_sig s) :: ESigNew (next_sig s) (sp_cls sp) (sp_prio sp) (sp_src sp) :: trace s.
Proof. exact @fq_enqueue. Qed.

(* ... execute_new_loop returns at once: the signal object is created, no level is opened, no loop runs *)
Theorem C09_force_quit_no_new_loop : forall U (code : nat -> signal -> nat -> prog U) f sp s,
  force_quit s = true ->
  exec code (S f) (CApi (ANewLoop sp)) s =
  (ONormal, emit (ESigNew (next_sig s) (sp_cls sp) (sp_prio sp) (sp_src sp)) (s <| next_sig := S (next_sig s) |>)).
Proof. exact @fq_new_loop. Qed.

(* ... and the dispatch of a signal calls no handler (from any handler index: the remaining ones are skipped) *)
Theorem C09_force_quit_no_handler : forall U (code : nat -> signal -> nat -> prog U) f sg idx s o s',
  force_quit s = true -> exec code (S f) (CProcessSignal sg idx) s = (o, s') ->
  trace s' = EDispatchEnd (sg_id sg) :: trace s \/ trace s' = EKill :: trace s.
Proof. exact @fq_no_handler. Qed.

(* a failing handler ends neither the dispatch, nor the loop, nor run(): an ordinary exception never comes out *)
Theorem C09_failing_handler_does_not_stop : forall U (code : nat -> signal -> nat -> prog U) f s o s',
  (forall sg idx, exec code f (CProcessSignal sg idx) s = (o, s') -> o <> OThrow XError) /\
  (exec code f CProcLoop s = (o, s') -> o <> OThrow XError) /\
  (exec code f CMainloop s = (o, s') -> o <> OThrow XError) /\
  (exec code f CRun s = (o, s') -> o <> OThrow XError).
Proof. exact @failing_handler. Qed.

(* ... the dispatch goes on with the next handler, after enqueueing one ExceptionSignal *)
Theorem C09_failing_handler_continues : forall U (code : nat -> signal -> nat -> prog U) f sg idx s hs hid data s2,
  handlers_of (ps_mark sg idx s) (sg_cls sg) = Some hs -> force_quit s = false ->
  nth_error hs idx = Some (hid, data) ->
  exec code f (CProg (code hid sg data)) (emit (EHandler hid (sg_id sg) data) (ps_mark sg idx s)) = (OThrow XError, s2) ->
  let s3 := emit (EHandlerEnd hid (sg_id sg) (Some XError)) s2 in
  exec code (S f) (CProcessSignal sg idx) s =
  exec code f (CProcessSignal sg (S idx)) (do_enqueue (snd (new_signal s3 exception_spec)) (fst (new_signal s3 exception_spec))).
Proof. exact @failing_handler_continues. Qed.

(* an empty queue is a wait (the outcome OBlocked, state unchanged), never a return *)
Theorem C09_empty_queue_blocks_not_stops : forall U (code : nat -> signal -> nat -> prog U) f s,
  q_empty (get_q s (active s)) = true -> ext s = [] -> run_loop s = true ->
  exec code (S f) CProcLoop s = (OBlocked, s) /\
  exec code (S (S f)) CMainloop s = (OBlocked, s).
Proof. exact @empty_queue_blocks. Qed.

Local Open Scope Z_scope.

(* exit requested at depth 2 (handler 1, inside the loop opened by handler 0), one signal pending at each
   level, quit callback registered with argument 7: both handler frames unwind, the callback is called once
   with 7, run() returns; the pending signals stay where they are *)
Example C09_example_exit_at_depth_2 :
  let bodies := [ [CmEnqueue 3 0 None; CmNewLoop 2 0 None; CmMark 99];
                  [CmEnqueue 3 0 None; CmExit; CmMark 98];
                  [CmMark 97] ] in
  let acts := [ TProg (compile_cmds 0 [CmRegHandler 1 0 0; CmRegHandler 2 1 0; CmRegHandler 3 2 0;
                                       CmSetQuitCb 7; CmEnqueue 1 0 None]); TRun ] in
  let r := run_session (handler_prog bodies) 50 acts (init_state []) in
  fst r = [ONormal; ONormal] /\
  rev (trace (snd r)) =
    [ETop; ERegHandler 1 0 0; ERegHandler 2 1 0; ERegHandler 3 2 0; ESetQuitCb 7; ESigNew 0 1 0 None; EEnq 0 0;
     ETop; ERunEnter; EDispatch 0 0 1; EHandler 0 0 0; ESigNew 1 3 0 None; EEnq 1 0; ESigNew 2 2 0 None;
     ENewLoopEnter 1; EEnq 2 1; EDispatch 2 1 2; EHandler 1 2 0; ESigNew 3 3 0 None; EEnq 3 1;
     EHandlerEnd 1 2 (Some XExit); EHandlerEnd 0 0 (Some XExit); EQuitCb 7; ERunReturn]%nat /\
  map (fun q => length (eq_entries q)) (qstore (snd r)) = [1; 1]%nat /\
  ok_C09 (rev (trace (snd r))) = true.
Proof. vm_compute. repeat split. Qed.

(* force-quit at depth 1 by the first of two handlers of class 1: the second handler is not called, the
   enqueue is dropped, execute_new_loop opens nothing, the pending class-2 signal is never dispatched, the
   callback is called with 5 and run() returns; an enqueue after run() is still dropped *)
Example C09_example_force_quit :
  let bodies := [ [CmForceQuit; CmEnqueue 2 0 None; CmNewLoop 2 0 None; CmMark 99]; [CmMark 98] ] in
  let acts := [ TProg (compile_cmds 0 [CmRegHandler 1 0 0; CmRegHandler 1 1 0; CmRegHandler 2 1 0; CmSetQuitCb 5;
                                       CmEnqueue 1 0 None; CmEnqueue 2 0 None]); TRun;
                TProg (compile_cmds 0 [CmEnqueue 2 0 None]) ] in
  let r := run_session (handler_prog bodies) 50 acts (init_state []) in
  fst r = [ONormal; ONormal; ONormal] /\
  rev (trace (snd r)) =
    [ETop; ERegHandler 1 0 0; ERegHandler 1 1 0; ERegHandler 2 1 0; ESetQuitCb 5; ESigNew 0 1 0 None; EEnq 0 0;
     ESigNew 1 2 0 None; EEnq 1 0; ETop; ERunEnter; EDispatch 0 0 1; EHandler 0 0 0; EForceQuit;
     ESigNew 2 2 0 None; EDropped 2; ESigNew 3 2 0 None; EMark 99; EHandlerEnd 0 0 None; EDispatchEnd 0;
     EQuitCb 5; ERunReturn; ETop; ESigNew 4 2 0 None; EDropped 4]%nat /\
  map (fun q => length (eq_entries q)) (qstore (snd r)) = [1]%nat /\
  ok_C09 (rev (trace (snd r))) = true.
Proof. vm_compute. repeat split. Qed.

(* the monitor is not vacuous: a second quit callback, a return without cause, a handler after force-quit,
   or activity after an exit are all rejected *)
Example C09_monitor_rejects :
  ok_C09 [ESetQuitCb 1; ERunEnter; EForceQuit; EQuitCb 1; EQuitCb 1; ERunReturn]%nat = false /\
  ok_C09 [ERunEnter; ERunReturn] = false /\
  ok_C09 [ERunEnter; EForceQuit; EHandler 0 0 0; ERunReturn]%nat = false /\
  ok_C09 [ERunEnter; EHandlerEnd 0 0 (Some XExit); EEnq 0 0; ERunReturn]%nat = false /\
  ok_C09 [ESetQuitCb 1; ERunEnter; EForceQuit; ERunReturn]%nat = false /\
  ok_C09 [ESetQuitCb 1; ERunEnter; EForceQuit; EQuitCb 2; ERunReturn]%nat = false /\
  ok_C09 [ESetQuitCb 1; ERunEnter; EForceQuit; EQuitCb 1; ERunReturn]%nat = true.
Proof. vm_compute. repeat split. Qed.

Print Assumptions C09_stops.
Print Assumptions C09_mainloop_returns_only_when_told.
Print Assumptions C09_call_potential.
Print Assumptions C09_force_quit_discards.
Print Assumptions C09_force_quit_no_new_loop.
Print Assumptions C09_force_quit_no_handler.
Print Assumptions C09_failing_handler_does_not_stop.
Print Assumptions C09_failing_handler_continues.
Print Assumptions C09_empty_queue_blocks_not_stops.

(* C03 — a nested (modal) loop is isolated: outer work is held, not lost, then resumed.
   Theorem statements; the proofs are lemmas of proofs/C03Proofs.v; the examples are evaluated. *)
From Coq Require Import ZArith NArith List Bool.
From SL Require Import LoopSem LoopProg Monitors proofs.LoopLink proofs.C01Proofs proofs.C03Proofs.
Import ListNotations.

(* Every trace of every session is accepted by the monitor [chk_C03_partial]:
   - every enqueue goes to [route_target]: the innermost open level that owns the signal's source, else the
     active (innermost) level;
   - every dispatch and every partial-batch re-queue reads the ACTIVE level's queue, at depth = number of open levels;
   - close_loop pops the top level;
   - execute_new_loop returns only once its level has left the stack — except for a level opened while a stop
     request was pending (finding F13: see C03_strict_refuted), which is exempt. *)
Theorem C03_isolation : forall U (code : nat -> signal -> nat -> prog U) fuel acts (u : U),
  ok_C03_partial (rev (trace (snd (run_session code fuel acts (init_state u))))) = true.
Proof. exact @isolation. Qed.

(* The exemption is needed: a handler that closes its loop and then opens a new one gets the new loop back at
   once, its level still open.  The strict monitor (the property as stated) rejects this session, the
   non-strict one accepts it. *)
Definition C03_f13_bodies : list (list cmd) :=
  [ [CmNewLoop 2 0 None; CmExit]; [CmCloseLoop; CmNewLoop 3 0 None; CmMark 5]; [CmCloseLoop] ].
Definition C03_f13_acts : list (top counters) :=
  [ TProg (compile_cmds 0 [CmRegHandler 1 0 0; CmRegHandler 2 1 0; CmRegHandler 3 2 0; CmEnqueue 1 0 None]); TRun ].
Example C03_strict_refuted : exists bodies acts,
  let t := rev (trace (snd (run_session (handler_prog bodies) 200 acts (init_state [])))) in
  ok_C03 t = false /\ ok_C03_partial t = true.
Proof. exists C03_f13_bodies, C03_f13_acts. vm_compute. split; reflexivity. Qed.

(* Held, not lost (a fact about accepted traces alone): while a level is not the active one, an accepted event
   changes its pending content only by stably inserting a signal routed to it ... *)
Theorem C03_held_not_lost : forall w e, chk_C03_partial w e = true -> forall q, q <> w_active w ->
  pend (world_step w e) q = pend w q \/
  exists p sid, e = EEnq sid q /\ pend (world_step w e) q = stable_insert p sid (pend w q).
Proof. intros w e C q N. destruct (held_not_lost w e C q N) as [H|(sid & H)]; eauto. Qed.

(* ... and anything that leaves any queue is its head, taken by a dispatch from the active level at full depth. *)
Theorem C03_only_active_dispatched : forall w e q, chk_C03_partial w e = true ->
  pend (world_step w e) q = tl (pend w q) -> pend (world_step w e) q <> pend w q ->
  exists sid d, e = EDispatch sid q d /\ q = w_active w /\ d = length (w_levels w).
Proof. exact only_active_dispatched. Qed.

(* Closing resumes the enclosing loop where it stopped: the level below becomes the active one, with its
   held content and its sources untouched (which C01 then dispatches in order). *)
Theorem C03_close_resumes : forall w q, let w' := world_step w (EClosePop q) in
  w_levels w' = removelast (w_levels w) /\
  (forall a, last_opt (removelast (w_levels w)) = Some a -> w_active w' = a) /\
  (forall q0, pend w' q0 = pend w q0) /\ (forall q0, sources w' q0 = sources w q0).
Proof. exact closepop_resumes. Qed.

(* The model's state is what the observer reconstructs (the link), so the statements about worlds are
   statements about the loop: levels, active queue, sources and sorted pending content agree. *)
Theorem C03_world_is_state : forall U (code : nat -> signal -> nat -> prog U) fuel acts (u : U),
  let s := snd (run_session code fuel acts (init_state u)) in
  w_levels (W s) = levels s /\ w_active (W s) = active s /\
  (forall q, sources (W s) q = eq_sources (get_q s q)) /\ (forall q, pend (W s) q = abs (get_q s q)).
Proof. exact @world_is_state. Qed.

(* execute_new_loop does not return to its caller before its loop was stopped: on a normal return the stack is
   no deeper than before the call (one deeper only if a stop request was already pending: F13), or everything
   was force-quit. *)
Theorem C03_newloop_blocks_until_closed : forall U (code : nat -> signal -> nat -> prog U) fuel sp s s',
  link s -> exec code fuel (CApi (ANewLoop sp)) s = (ONormal, s') ->
  length (levels s') <= length (levels s) + (if run_loop s then 0 else 1) \/ force_quit s' = true.
Proof. exact @newloop_blocks_until_closed. Qed.

(* non-vacuity: depth-3 nesting, source 10 registered at level 0 and source 11 at level 1; from level 2 signals
   are enqueued for 10 (-> queue 0), for 11 (-> queue 1, twice) and for nobody (-> queue 2); the loops are
   closed in order; the held signals are dispatched afterwards by their own levels.  Accepted by the STRICT monitor. *)
Definition C03_bodies : list (list cmd) :=
  [ [CmNewLoop 2 0 None; CmMark 1];
    [CmRegSource 11; CmNewLoop 3 0 None; CmMark 2; CmCloseLoop];
    [CmEnqueue 4 0 (Some 10); CmEnqueue 5 0 (Some 11); CmEnqueue 4 0 None; CmEnqueue 5 0 (Some 11); CmCloseLoop];
    [CmIfCount 1 [CmMark 7] [CmMark 8; CmExit]];
    [CmMark 9] ].
Definition C03_acts : list (top counters) :=
  [ TProg (compile_cmds 0 [CmRegHandler 1 0 0; CmRegHandler 2 1 0; CmRegHandler 3 2 0; CmRegHandler 4 3 0;
                           CmRegHandler 5 4 0; CmRegSource 10; CmEnqueue 1 0 None]); TRun ].
Definition C03_trace : list event :=
  rev (trace (snd (run_session (handler_prog C03_bodies) 300 C03_acts (init_state [])))).
Example C03_example :
  ok_C03 C03_trace = true /\
  flat_map (fun e => match e with EEnq sid q => [(sid, q)] | _ => [] end) C03_trace
    = [(0, 0); (1, 1); (2, 2); (3, 0); (4, 1); (5, 2); (6, 1)] /\
  flat_map (fun e => match e with EDispatch sid q d => [(sid, q, d)] | _ => [] end) C03_trace
    = [(0, 0, 1); (1, 1, 2); (2, 2, 3); (5, 2, 3); (4, 1, 2); (6, 1, 2); (3, 0, 1)].
Proof. vm_compute. repeat split. Qed.

Print Assumptions C03_isolation.
Print Assumptions C03_held_not_lost.
Print Assumptions C03_only_active_dispatched.
Print Assumptions C03_close_resumes.
Print Assumptions C03_world_is_state.
Print Assumptions C03_newloop_blocks_until_closed.

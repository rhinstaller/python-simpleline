(* C06 — each typed line reaches exactly the screen that asked - once, in order, intact.
   "Every line the user types in answer to a screen's prompt is delivered exactly once, unmodified, to the input
    method of that same screen together with the arguments the screen was scheduled with, and lines are delivered in
    the order typed.  No line is dropped, duplicated, altered or handed to a different screen, across redraws,
    pushes, replaces, closes and nested modal screens; a line that ends the input (end-of-file) is delivered as an
    empty line."
   The theorems are [exact] of lemmas of proofs/C06Proofs.v, proofs/C18Proofs.v (answered_once), proofs/InputOrder.v and
   proofs/InputOrderSyn.v, all resting on proofs/InputLink.v, or compose two of them here
   (C06_input_only_for_a_delivered_line, C06_lines_intact, C06_inputs_in_order_partial); the examples are computed.

   Model: ScreenSem.v — [get_input] (T_REQ [scr; args; n]: screen scr asks, request = handler n), the reader thread
   ([start_thread]: takes the next typed line, EOF -> ""), the hand-off [input_received_handler], the ready signal
   reaching its handler ([input_ready_handler]: T_READY [n; ok] text) and the one-shot callback
   [process_input] -> [call_input] (T_INPUT [scr; args] text: the screen's input(args, text) is called).
   Property: the acceptor [chk_C06] of ScreenMon.v:
     - every T_READY [n; ok] text is one of the ready signals announced by a hand-off (the most recent outstanding
       requester gets (true, the line the reader took), every earlier one (false, "")), each consumed by its delivery;
     - when a successful ready signal reaches a SCREEN request n (recorded by T_REQ [scr; args; n]) whose callback
       has not fired, the very next screen-layer event is T_INPUT [scr; args] text with that same text and the
       arguments OF THAT REQUEST, and the handler does not end before it;
     - T_INPUT occurs only then.
   It holds for EVERY well-formed session ([wf_session]: screen ids in range, SConnect callbacks k < 7), whatever the
   screens' setup() methods do themselves
   (a setup() that pushes screens, asks for input, raises ...: [sc_setup_cmds], event T_SETUP_BEGIN; [wf_session] ranges
   over those commands too - C06_setup_commands_example).  Finding F15 (fixed): InputManager._input_args was one slot
   per screen, read at delivery time, and the comparison of the arguments failed; in the repaired code the callback
   of a request carries that request's arguments.  The refutation is stated on the legacy model
   (C06_args_overwritten_refuted_legacy; proofs/C06Proofs.v [legacy_input_ready_handler]).
   "In the order typed" is FALSE in general, for the model and the implementation (finding F18,
   corpus/screen/order_modal_overtakes.json, C06_order_refuted: with a line typed ahead, the ready signal of a screen
   of an outer event queue waits while a modal screen pushed meanwhile asks, reads the next line and gets it first).
   PARTIAL: it holds for every session in which no nested event loop is ever opened (C06_lines_in_order_partial; no
   well-formedness needed): the texts of the successful ready signals - every delivery of a typed line, to a screen's
   input() or to a blocking / handler-object request - are, in trace order, typed lines in typed order ([Subseq], an
   order-preserving embedding: force_quit or a kill can lose a taken line, so it is not a prefix); the texts handed to
   input() are a sub-sequence of those (C06_inputs_among_deliveries).  Definitions and the invariant:
   proofs/InputOrder.v.  For every well-formed session: every delivered line IS a typed line, unmodified, and each
   hand-off entry is consumed by exactly one ready signal. *)
From Coq Require Import ZArith NArith List Bool.
From SL Require Import PyInt LoopSem ScreenSem ScreenMon proofs.InputLink proofs.C06Proofs proofs.C18Proofs proofs.InputOrder proofs.InputOrderSyn.
Import ListNotations.

(* 1. every well-formed session: the line goes to the screen that asked, at once, unmodified, with the arguments of that request *)
Theorem C06_lines_delivered : forall specs specl typed quit run_empty fuel acts,
  (forall n, specs n = nth n specl default_spec) -> wf_session specl quit acts = true ->
  sok chk_C06 typed (rev (trace (snd (app_run_all specs specl typed quit run_empty fuel acts)))) = true.
Proof. exact lines_delivered. Qed.

(* "exactly once": no request is answered twice.  Without InputHandler objects of the application's own every handler
   carries ONE request and gets at most one ready signal ([chk_once], proofs/InputLink.v; see C18_no_second_ready);
   with re-used handler objects "once" is per REQUEST: see C18_ready_consumes_its_entry.  chk_C06 allows input()
   only for a request whose callback has not fired *)
Theorem C06_no_duplicate_delivery : forall specs specl typed quit run_empty fuel acts,
  (forall n, specs n = nth n specl default_spec) -> wf_session specl quit acts = true ->
  no_handler_objects specl acts = true ->
  sok chk_once typed (rev (trace (snd (app_run_all specs specl typed quit run_empty fuel acts)))) = true.
Proof. exact answered_once. Qed.

Theorem C06_delivered_at_once : forall w scr args text e,
  sw_must_input w = Some (scr, args, text) -> chk_C06 w e = true ->
  match e with
  | EUser tag a t => tag = T_INPUT /\ nth0 a 0 = scr /\ nth0 a 1 = args /\ streq t text = true
  | EHandlerEnd _ _ _ => False
  | _ => True
  end.
Proof. exact C06_must_input_meaning. Qed.

Theorem C06_input_only_for_a_delivered_line : forall w a t,
  chk_C06 w (EUser T_INPUT a t) = true -> sw_must_input w <> None.
Proof. intros w a t. intros H. apply (C06_input_only_when_due w a t), chk_C06_stronger, H. Qed.

(* 2. pure corollary of acceptance: a line delivered as a successful result is one of the typed lines (the empty
      line for end of file, or when no line was ever taken), character for character *)
Theorem C06_lines_intact : forall typed t1 n text t2,
  sok chk_C06 typed (t1 ++ EUser T_READY [n; 1] text :: t2) = true ->
  streq [] text = true \/ exists l, In l typed /\ streq (line_of l) text = true.
Proof.
  intros typed t1 n text t2.
  intros H. apply (delivered_lines_intact typed t1 n text t2). eapply sok_weaken; [apply chk_C06_stronger|exact H].
Qed.

(* a session with 3 screens - screen 1 pushed with arguments 3, screen 2 pushed modally - and 7 typed lines,
   one empty, the last the end of file: each line reaches the screen whose prompt was showing, with the
   arguments that screen was scheduled with; the full acceptor accepts it; and the monitor is not vacuous *)
Example C06_example :
  wf_session ex06_specl None ex06_acts = true /\
  fst ex06_run = [ONormal; OBlocked] /\
  sok chk_C06 ex06_typed ex06_trace = true /\
  user_events T_INPUT ex06_trace =
    [([0; 0], [49%N]); ([1; 3], []); ([1; 3], [104%N; 101%N; 108%N; 108%N; 111%N]); ([1; 3], [99%N]);
     ([0; 0], [50%N]); ([2; 0], [32%N; 120%N; 32%N]); ([2; 0], [])] /\
  (* the line is handed to another screen *)
  sok chk_C06 [Some [49%N]] [EUser T_REQ [0; 0; 0] []; EUser T_PROMPT [0; 0] []; EHandler H_RECEIVED 0 0;
                             EUser T_READY [0; 1] [49%N]; EUser T_INPUT [1; 0] [49%N]] = false /\
  (* the line is altered *)
  sok chk_C06 [Some [49%N]] [EUser T_REQ [0; 0; 0] []; EUser T_PROMPT [0; 0] []; EHandler H_RECEIVED 0 0;
                             EUser T_READY [0; 1] [50%N]] = false /\
  (* the line is dropped: the handler ends without calling input() *)
  sok chk_C06 [Some [49%N]] [EUser T_REQ [0; 0; 0] []; EUser T_PROMPT [0; 0] []; EHandler H_RECEIVED 0 0;
                             EUser T_READY [0; 1] [49%N]; EHandlerEnd 10 0 None] = false /\
  (* the line is delivered twice *)
  sok chk_C06 [Some [49%N]] [EUser T_REQ [0; 0; 0] []; EUser T_PROMPT [0; 0] []; EHandler H_RECEIVED 0 0;
                             EUser T_READY [0; 1] [49%N]; EUser T_INPUT [0; 0] [49%N]; EUser T_INPUT [0; 0] [49%N]] = false /\
  (* other arguments than the screen was scheduled with *)
  sok chk_C06 [Some [49%N]] [EUser T_REQ [0; 7; 0] []; EUser T_PROMPT [0; 0] []; EHandler H_RECEIVED 0 0;
                             EUser T_READY [0; 1] [49%N]; EUser T_INPUT [0; 0] [49%N]] = false.
Proof. vm_compute. repeat split. Qed.

(* a setup() that runs commands (no hypothesis on setup() in the theorems above): screen 0's setup() pushes screen 1
   modally with arguments 5; inside that setup() call the modal screen is set up, asks, gets the FIRST typed line with ITS
   arguments and closes; then setup() of screen 0 reports success, screen 0 asks and gets the second line and the end of file *)
Example C06_setup_commands_example :
  wf_session su06_specl None su06_acts = true /\
  fst su06_run = [ONormal; OBlocked] /\
  sok chk_C06 su06_typed su06_trace = true /\
  user_events T_SETUP_BEGIN su06_trace = [([0; 0; 0], [])] /\
  user_events T_SETUP su06_trace = [([1; 1; 5; 1], []); ([0; 0; 0; 1], [])] /\
  user_events T_INPUT su06_trace = [([1; 5], [49%N]); ([0; 0], [50%N]); ([0; 0], [])] /\
  (* the decidable hypothesis of part 4 looks into the setup commands as well *)
  no_modal_syntax su06_specl None su06_acts = false.
Proof. vm_compute. repeat split. Qed.

(* finding F15, fixed (corpus/screen/regression_F15_args_overwritten.json): run() twice after force_quit; the refused second request
   of the same screen (scheduled a second time with arguments 2) wrote InputManager._input_args and the error was
   dropped by force_quit.  LEGACY model (arguments read from the manager at delivery time): the line typed for the
   first request (arguments 1) is delivered with arguments 2 and chk_C06 rejects the trace.  Current model (the
   request's callback carries its arguments): delivered with arguments 1, accepted. *)
Example C06_args_overwritten_refuted_legacy :
  wf_session [f15_spec] None f15_acts = true /\
  sok chk_C06 f15_typed f15_legacy_trace = false /\
  user_events T_REQ f15_legacy_trace = [([0; 1; 0], []); ([0; 2; 1], [])] /\
  user_events T_INPUT f15_legacy_trace = [([0; 2], [49%N])] /\
  sok chk_C06 f15_typed f15_trace = true /\
  user_events T_REQ f15_trace = [([0; 1; 0], []); ([0; 2; 1], [])] /\
  user_events T_INPUT f15_trace = [([0; 1], [49%N])].
Proof. vm_compute. repeat split. Qed.

(* 3. "in the order typed", for sessions with a single event queue.
   [no_nested_loop t]: no ENewLoopEnter in t (execute_new_loop never ran: no modal screen was shown, no quit dialog);
   [ready_texts t]: the texts of the events T_READY [n; 1] text of t, in order; [input_texts t]: those of T_INPUT;
   [Subseq a b]: a embeds into b, order preserved (sub_nil / sub_skip / sub_take) *)
Theorem C06_lines_in_order_partial : forall specs specl typed quit run_empty fuel acts,
  let t := rev (trace (snd (app_run_all specs specl typed quit run_empty fuel acts))) in
  no_nested_loop t = true -> Subseq (ready_texts t) (map line_of typed).
Proof. exact lines_in_order. Qed.

(* pure corollary of acceptance: the lines handed to input() are among the delivered ones, in the same order *)
Theorem C06_inputs_among_deliveries : forall typed t,
  sok chk_C06 typed t = true -> Subseq (input_texts t) (ready_texts t).
Proof. exact inputs_among_deliveries. Qed.

(* hence, for well-formed sessions with a single event queue: input() gets typed lines in typed order *)
Theorem C06_inputs_in_order_partial : forall specs specl typed quit run_empty fuel acts,
  (forall n, specs n = nth n specl default_spec) -> wf_session specl quit acts = true ->
  let t := rev (trace (snd (app_run_all specs specl typed quit run_empty fuel acts))) in
  no_nested_loop t = true -> Subseq (input_texts t) (map line_of typed).
Proof.
  intros specs specl typed quit run_empty fuel acts HS WF t NN.
  eapply Subseq_trans; [apply (inputs_among_deliveries typed), (lines_delivered specs specl typed quit run_empty fuel acts HS WF)|].
  apply (lines_in_order specs specl typed quit run_empty fuel acts NN).
Qed.

(* the hypothesis is needed (finding F18): a modal screen pushed between the hand-off of line "1" and its delivery gets
   line "2" first; the session is well-formed, accepted by chk_C06, and a nested loop was opened *)
Example C06_order_refuted :
  wf_session f18_specl None f18_acts = true /\
  sok chk_C06 f18_typed f18_trace = true /\
  no_nested_loop f18_trace = false /\
  map line_of f18_typed = [[49%N]; [50%N]] /\
  ready_texts f18_trace = [[50%N]; [49%N]] /\
  input_texts f18_trace = [[50%N]; [49%N]] /\
  user_events T_INPUT f18_trace = [([1; 0], [50%N]); ([0; 0], [49%N])] /\
  ~ Subseq (ready_texts f18_trace) (map line_of f18_typed).
Proof.
  assert (E : ready_texts f18_trace = [[50%N]; [49%N]]) by (vm_compute; reflexivity).
  repeat split; try (vm_compute; reflexivity).
  rewrite E. apply (Subseq_swap_refuted [49%N] [50%N]). discriminate.
Qed.

(* 4. the same under a decidable hypothesis on the SESSION: [no_modal_syntax specl quit acts] (proofs/InputOrderSyn.v) =
   no SPushModal in any command list (setup / refresh / show_all / closed / input / signal callbacks, SIfCount branches, the
   application's own actions) and no quit dialog (quit = None).  Such a session never calls execute_new_loop ... *)
Theorem C06_no_modal_no_nested_loop : forall specs specl typed quit run_empty fuel acts,
  (forall n, specs n = nth n specl default_spec) -> no_modal_syntax specl quit acts = true ->
  no_nested_loop (rev (trace (snd (app_run_all specs specl typed quit run_empty fuel acts)))) = true.
Proof. exact no_modal_no_nested. Qed.

(* ... hence its typed lines are delivered in the order typed *)
Theorem C06_lines_in_order_syntactic : forall specs specl typed quit run_empty fuel acts,
  (forall n, specs n = nth n specl default_spec) -> no_modal_syntax specl quit acts = true ->
  Subseq (ready_texts (rev (trace (snd (app_run_all specs specl typed quit run_empty fuel acts))))) (map line_of typed).
Proof. exact lines_in_order_syn. Qed.

(* the hypothesis holds for the F15 session, not for the F18 session (screen 0 pushes screen 1 modally) nor for C06_example *)
Example C06_no_modal_example :
  no_modal_syntax [f15_spec] None f15_acts = true /\
  no_modal_syntax f18_specl None f18_acts = false /\
  no_modal_syntax ex06_specl None ex06_acts = false /\
  no_modal_syntax [f15_spec] (Some 0) f15_acts = false.
Proof. vm_compute. repeat split. Qed.

Print Assumptions C06_lines_delivered.
Print Assumptions C06_no_duplicate_delivery.
Print Assumptions C06_delivered_at_once.
Print Assumptions C06_input_only_for_a_delivered_line.
Print Assumptions C06_lines_intact.
Print Assumptions C06_lines_in_order_partial.
Print Assumptions C06_inputs_among_deliveries.
Print Assumptions C06_inputs_in_order_partial.
Print Assumptions C06_no_modal_no_nested_loop.
Print Assumptions C06_lines_in_order_syntactic.

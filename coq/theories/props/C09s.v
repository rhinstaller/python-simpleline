(* C09s — the screen-level part of C09: "... or the last screen closes ... run() returns ...; run() refuses
   to start with nothing scheduled unless configured otherwise".
   Theorem statements and one computed example; every proof of a theorem is a lemma of proofs/C09sProofs.v or a
   [*_abort] lemma of proofs/ExecEqs.v, or one step of [exec] (an equation of proofs/ExecEqs.v) followed by the
   hypotheses. *)
From Coq Require Import ZArith NArith List Bool.
From RecordUpdate Require Import RecordUpdate.
From SL Require Import PyInt LoopSem ScreenSem ScreenMon proofs.ExecEqs proofs.C02Proofs proofs.C04Proofs proofs.C09sProofs.
Import ListNotations.

(* 1. App.run() with an empty stack and should_run_with_empty_stack = False: NothingScheduledError; the
      only event of the action is ETop (no ERunEnter, no dispatch), and the session goes on with the rest.
      [continue_session specs fuel r (o, s1)] = "the session ends here if o is blocked / out of fuel /
      SystemExit, otherwise o is followed by the session r from s1" *)
Theorem C09s_run_refuses_empty : forall specs fuel r s,
  st_stack (ust s) = [] -> st_run_empty (ust s) = false ->
  app_session specs fuel (SARun :: r) s = continue_session specs fuel r (OThrow XError, emit ETop s).
Proof. exact run_refuses_empty. Qed.

Theorem C09s_run_refuses_empty_outcomes : forall specs fuel r s,
  st_stack (ust s) = [] -> st_run_empty (ust s) = false ->
  app_session specs fuel (SARun :: r) s =
  (OThrow XError :: fst (app_session specs fuel r (emit ETop s)), snd (app_session specs fuel r (emit ETop s))).
Proof. exact run_refuses_empty_events. Qed.

(* conversely: with something scheduled, or configured to run with an empty stack, the action is the loop's run() *)
Theorem C09s_run_starts : forall specs fuel r s,
  st_stack (ust s) <> [] \/ st_run_empty (ust s) = true ->
  app_session specs fuel (SARun :: r) s =
  continue_session specs fuel r (exec (screen_code specs) fuel CRun (emit ETop s)).
Proof. exact run_starts. Qed.

(* 2. close_screen never returns normally with an empty stack: when the close leaves the stack empty the
      outcome is not a normal return (in the Python: ExitMainLoop, or an earlier exception of closed(), the
      foreign-close check, close_loop) *)
Theorem C09s_last_screen_closes_exits : forall specs f cf s o s',
  exec (screen_code specs) f (CProg (close_screen specs cf)) s = (o, s') ->
  o = ONormal -> st_stack (ust s') <> [].
Proof. exact close_normal_nonempty. Qed.

Theorem C09s_close_empties_not_normal : forall specs f cf s o s',
  exec (screen_code specs) f (CProg (close_screen specs cf)) s = (o, s') ->
  st_stack (ust s') = [] -> o <> ONormal.
Proof. exact close_empties_not_normal. Qed.

(* the positive form: the only screen, not modal, closed by the scheduler, closed() does nothing:
   exactly ExitMainLoop after T_OP, the pop, closed() — no redraw is scheduled *)
Theorem C09s_close_last_exits : forall specs f s top,
  st_stack (ust s) = [top] -> sd_modal top = false -> sc_closed (specs (sd_scr top)) = [] ->
  exists s', exec (screen_code specs) (30 + f) (CProg (close_screen specs None)) s = (OThrow XExit, s') /\
    trace s' = [EUser T_CLOSED [sd_id top; sd_scr top] [];
                EUser T_STACK [K_POP; sd_id top; sd_scr top; sd_args top; 0] [];
                EUser T_OP [O_CLOSE; 0; 0] []] ++ trace s /\
    st_stack (ust s') = [].
Proof. exact close_last_exits. Qed.

(* 3. with an empty stack _process_screen and process_input_result raise ExitMainLoop at once (_get_last_screen) *)
Theorem C09s_process_screen_empty_exits : forall specs f s,
  st_stack (ust s) = [] -> exec (screen_code specs) (S (S f)) (CProg (process_screen specs)) s = (OThrow XExit, s).
Proof. exact process_screen_empty_exits. Qed.

Theorem C09s_process_input_result_empty_exits : forall specs f act sr s,
  st_stack (ust s) = [] ->
  exec (screen_code specs) (S (S f)) (CProg (process_input_result specs act sr)) s = (OThrow XExit, s).
Proof. exact process_input_result_empty_exits. Qed.

(* 4. every construct between a handler's statement and run() hands ExitMainLoop on unchanged, one theorem per
      construct (the theorems are not composed into one statement about a whole run) ...
      ';' and try/except Exception *)
Theorem C09s_exit_through_seq : forall U (code : nat -> signal -> nat -> prog U) f p q s s1,
  exec code f (CProg p) s = (OThrow XExit, s1) -> exec code (S f) (CProg (PSeq p q)) s = (OThrow XExit, s1).
Proof. intros * E. apply (seq_abort code f p q s _ s1 E). discriminate. Qed.

Theorem C09s_exit_through_try : forall U (code : nat -> signal -> nat -> prog U) f p h s s1,
  exec code f (CProg p) s = (OThrow XExit, s1) -> exec code (S f) (CProg (PTry p h)) s = (OThrow XExit, s1).
Proof. intros * E. apply (try_abort code f p h s _ s1 E). discriminate. Qed.

(* ... out of _process_signal (the handler's end is recorded; no ExceptionSignal; later handlers do not run) *)
Theorem C09s_exit_through_dispatch : forall U (code : nat -> signal -> nat -> prog U) f sg idx s hs hid data s2,
  handlers_of (ps_state sg idx s) (sg_cls sg) = Some hs -> force_quit (ps_state sg idx s) = false ->
  nth_error hs idx = Some (hid, data) ->
  exec code f (CProg (code hid sg data)) (emit (EHandler hid (sg_id sg) data) (ps_state sg idx s)) = (OThrow XExit, s2) ->
  exec code (S f) (CProcessSignal sg idx) s = (OThrow XExit, emit (EHandlerEnd hid (sg_id sg) (Some XExit)) s2).
Proof. intros * Hh Hf Hn E. apply (dispatch_abort code f sg idx s hs hid data XExit s2 Hh Hf Hn E). discriminate. Qed.

Theorem C09s_exit_through_dispatch_next : forall U (code : nat -> signal -> nat -> prog U) f sg idx s hs hid data s2 s3,
  handlers_of (ps_state sg idx s) (sg_cls sg) = Some hs -> force_quit (ps_state sg idx s) = false ->
  nth_error hs idx = Some (hid, data) ->
  exec code f (CProg (code hid sg data)) (emit (EHandler hid (sg_id sg) data) (ps_state sg idx s)) = (ONormal, s2) ->
  exec code f (CProcessSignal sg (S idx)) (emit (EHandlerEnd hid (sg_id sg) None) s2) = (OThrow XExit, s3) ->
  exec code (S f) (CProcessSignal sg idx) s = (OThrow XExit, s3).
Proof.
  intros * Hh Hf Hn E1 E2. rewrite (exec_handler code f sg idx s (ps_state sg idx s) hs hid data eq_refl Hh Hf Hn).
  rewrite E1. exact E2.
Qed.

(* ... out of _process_signals_loop and _mainloop (at the first or a later iteration) *)
Theorem C09s_exit_through_procloop : forall U (code : nat -> signal -> nat -> prog U) f s sg s1 s3,
  run_loop s = true -> do_get s = inl (Some (sg, s1)) ->
  exec code f (CProcessSignal sg 0) (emit (EDispatch (sg_id sg) (active s) (length (levels s))) s1) = (OThrow XExit, s3) ->
  exec code (S f) CProcLoop s = (OThrow XExit, s3).
Proof. intros * Hr Hg E. apply (procloop_abort code f s sg s1 _ s3 Hr Hg E). discriminate. Qed.

Theorem C09s_exit_through_procloop_next : forall U (code : nat -> signal -> nat -> prog U) f s sg s1 s3 s4,
  run_loop s = true -> do_get s = inl (Some (sg, s1)) ->
  exec code f (CProcessSignal sg 0) (emit (EDispatch (sg_id sg) (active s) (length (levels s))) s1) = (ONormal, s3) ->
  exec code f CProcLoop s3 = (OThrow XExit, s4) ->
  exec code (S f) CProcLoop s = (OThrow XExit, s4).
Proof. intros * Hr Hg E1 E2. rewrite (exec_procloop code f s sg s1 Hr Hg), E1. exact E2. Qed.

Theorem C09s_exit_through_mainloop : forall U (code : nat -> signal -> nat -> prog U) f s s1,
  run_loop s = true -> exec code f CProcLoop s = (OThrow XExit, s1) -> exec code (S f) CMainloop s = (OThrow XExit, s1).
Proof. intros * Hr E. apply (mainloop_abort code f s _ s1 Hr E). discriminate. Qed.

Theorem C09s_exit_through_mainloop_next : forall U (code : nat -> signal -> nat -> prog U) f s s1 s2,
  run_loop s = true -> exec code f CProcLoop s = (ONormal, s1) -> exec code f CMainloop s1 = (OThrow XExit, s2) ->
  exec code (S f) CMainloop s = (OThrow XExit, s2).
Proof. intros * Hr E1 E2. rewrite (exec_mainloop code f s Hr), E1. exact E2. Qed.

(* ... out of a nested loop (a modal screen's execute_new_loop): no ENewLoopReturn, the caller does not resume *)
Theorem C09s_exit_through_newloop : forall U (code : nat -> signal -> nat -> prog U) f s sp s4,
  force_quit s = false ->
  exec code f CMainloop (newloop_entry s sp) = (OThrow XExit, s4) ->
  exec code (S f) (CApi (ANewLoop sp)) s = (OThrow XExit, s4).
Proof. intros * Hf E. apply (newloop_abort code f s sp _ s4 Hf E). discriminate. Qed.

(* ... and run() swallows it: the quit callback (if registered), ERunReturn, a normal return *)
Theorem C09s_exit_reaches_run : forall U (code : nat -> signal -> nat -> prog U) f s s1,
  exec code f CMainloop (run_entry s) = (OThrow XExit, s1) ->
  exec code (S f) CRun s = (ONormal, run_exit s1) /\
  trace (run_exit s1) = ERunReturn :: match quit_cb s1 with Some a => [EQuitCb a] | None => [] end ++ trace s1.
Proof. exact @exit_ends_run. Qed.

(* non-vacuity: the hub session of C04 (the last screen is closed by 'q'): run() returns normally, the last two
   events are the end of the handler with ExitMainLoop and ERunReturn, the stack is empty; and App.run() on a
   fresh application raises *)
Example C09s_example :
  fst (app_run_all ex_specs ex_specl ex_typed1 None false 400 ex_acts1) = [ONormal; ONormal] /\
  firstn 2 (trace (snd (app_run_all ex_specs ex_specl ex_typed1 None false 400 ex_acts1))) =
    [ERunReturn; EHandlerEnd (H_READY 3) 11 (Some XExit)] /\
  st_stack (ust (snd (app_run_all ex_specs ex_specl ex_typed1 None false 400 ex_acts1))) = [] /\
  fst (app_run_all ex_specs ex_specl [] None false 400 [SARun; SARun]) = [OThrow XError; OThrow XError] /\
  trace (snd (app_run_all ex_specs ex_specl [] None false 400 [SARun])) =
    [ETop; ERegHandler CLS_RECEIVED H_RECEIVED 0; ERegHandler CLS_CLOSE H_CLOSE 0; ERegHandler CLS_RENDER H_RENDER 0].
Proof. vm_compute. repeat split. Qed.

Print Assumptions C09s_run_refuses_empty.
Print Assumptions C09s_run_refuses_empty_outcomes.
Print Assumptions C09s_run_starts.
Print Assumptions C09s_last_screen_closes_exits.
Print Assumptions C09s_close_empties_not_normal.
Print Assumptions C09s_close_last_exits.
Print Assumptions C09s_process_screen_empty_exits.
Print Assumptions C09s_process_input_result_empty_exits.
Print Assumptions C09s_exit_through_seq.
Print Assumptions C09s_exit_through_try.
Print Assumptions C09s_exit_through_dispatch.
Print Assumptions C09s_exit_through_dispatch_next.
Print Assumptions C09s_exit_through_procloop.
Print Assumptions C09s_exit_through_procloop_next.
Print Assumptions C09s_exit_through_mainloop.
Print Assumptions C09s_exit_through_mainloop_next.
Print Assumptions C09s_exit_through_newloop.
Print Assumptions C09s_exit_reaches_run.

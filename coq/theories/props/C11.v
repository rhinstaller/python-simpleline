(* C11 — Text never exceeds its width and nothing but whitespace is lost in wrapping.
   "Rendering text at a width of w >= 1 yields lines of at most w characters in which every non-blank
    character of the source appears exactly once and in order, each line break of the source starts a new
    line, and words longer than w are split rather than overflowing.  The result is exactly the greedy
    word-wrap of each source line - no spurious blank lines, no dropped or repeated words - for every text
    and every width."
   Theorem statements; the proofs are lemmas of proofs/TextWrapProofs.v, TextWrapRender.v and
   TextWrapWrite.v; the vocabulary remarks hold by [reflexivity], the examples by computation.

   Model: TextWrap.v ([render_text] = TextWidget.render, [wrap_chunks] = TextWrapper._wrap_chunks,
   [wrap_step] = one iteration of its outer loop, [take_fitting] = its inner loop, [break_point] =
   _handle_long_word, [munge] = _munge_whitespace), Widget.v ([typewriter] = Widget.write).
   The chunker (one regex) is an oracle: a [text] carries per source line the chunks CPython produced;
   [chunks_ok] is the contract (concatenation of a line's chunks = munge of the line; no empty chunk).
   Theorems that need the contract say so; the others hold for ARBITRARY chunk lists. *)
From Coq Require Import ZArith NArith List Bool.
From SL Require Import PyInt Widget TextWrap TextWrite proofs.WidgetProofs proofs.TextWrapProofs proofs.TextWrapRender
  proofs.TextWrapWrite.
Import ListNotations.

(* ---- vocabulary (defined in proofs/, restated here; each restatement is checked by reflexivity) ---- *)
Remark C11_def_nonblank s : nonblank s = filter (fun c => negb (is_py_space c)) s.      (* drop str.isspace() chars *)
Proof. reflexivity. Qed.
Remark C11_def_wrap_chunks' cs w :                                                       (* textwrap.wrap, total *)
  wrap_chunks' cs w = match wrap_chunks cs w with Some ls => ls | None => [] end.
Proof. reflexivity. Qed.
Remark C11_def_or_blank ls : or_blank ls = match ls with [] => [[]] | _ => ls end.       (* '\n'.join([]) is one empty line *)
Proof. reflexivity. Qed.
Remark C11_def_drop_lone_empty ls : drop_lone_empty ls = match ls with [[]] => [] | _ => ls end.   (* typing '' types nothing *)
Proof. reflexivity. Qed.
Remark C11_def_drop_lead chunks first :                                    (* a blank chunk at the start of a later line *)
  drop_lead chunks first = match chunks with c :: r => if all_blank c && negb first then r else chunks | [] => [] end.
Proof. reflexivity. Qed.
Remark C11_def_trim_last cur :                                                      (* a blank chunk at the end of a line *)
  trim_last cur = match rev cur with lastc :: before => if all_blank lastc then rev before else cur | [] => cur end.
Proof. reflexivity. Qed.
Remark C11_def_line_of cur : line_of cur = match cur with [] => None | _ => Some (concat cur) end.
Proof. reflexivity. Qed.
Remark C11_def_nonempty (c : str) : nonempty c = (c <> []).
Proof. reflexivity. Qed.
Remark C11_def_no_nl l : no_nl l = Forall (fun c => c <> NL) l.
Proof. reflexivity. Qed.

(* ---- 1. termination: the loop of _wrap_chunks ends; the model's fuel suffices -------------------------
   Measure: (total length of the chunks) + (number of chunks) strictly decreases in every iteration.
   No hypothesis is needed: empty chunks and width 0 included (space_left is forced to 1 then). *)
Theorem C11_step_progress : forall chunks w first,
  chunks <> [] -> measure (snd (wrap_step chunks w first)) < measure chunks.
Proof. exact wrap_step_decreases. Qed.

Theorem C11_fuel_enough : forall cs w, wrap_chunks cs w <> None.
Proof. exact wrap_chunks_fuel_enough. Qed.

Theorem C11_never_out_of_model : forall t w, render_text t w <> ROutOfModel.
Proof. exact render_never_out_of_model. Qed.

(* ---- 2. width: no rendered line is longer than w (any chunk oracle, even a wrong one) ---------------- *)
Theorem C11_width : forall t w b,
  render_text t w = ROk b -> Forall (fun l => (Z.of_nat (length l) <= w)%Z) b.
Proof. exact render_width. Qed.

(* the typewriter, run without a width on '\n'.join(ls), reproduces exactly the lines ls (no line when ls = [""]) *)
Theorem C11_typewriter_reproduces_lines : forall ls,
  Forall no_nl ls -> fst (typewriter (join_nl ls) [] 0 0 0 None false) = drop_lone_empty ls.
Proof. exact typewriter_join. Qed.

(* ---- 3. conservation: every non-blank character exactly once and in order ----------------------------- *)
Theorem C11_conservation : forall t w b,
  chunks_ok t = true -> render_text t w = ROk b -> nonblank (concat b) = nonblank (t_text t).
Proof. exact render_conservation. Qed.

(* ---- 4. line structure ----------------------------------------------------------------------------------
   The rendered lines are the wrapped lines of the 1st source line, then those of the 2nd, ...; a source
   line that wraps to nothing contributes exactly one empty line.  Single exception: when all of that is
   the single empty line (one source line, wrapping to nothing, e.g. " ") nothing is typed: no line. *)
Theorem C11_line_structure : forall t w b,
  chunks_ok t = true -> render_text t w = ROk b ->
  b = drop_lone_empty (concat (map (fun cs => or_blank (wrap_chunks' cs (Z.to_nat w))) (t_chunks t))).
Proof. exact render_structure. Qed.

(* wrapping never produces an empty line ... *)
Theorem C11_wrapped_lines_nonempty : forall t w,
  chunks_ok t = true -> (1 <= w)%Z ->
  Forall (fun cs => Forall nonempty (wrap_chunks' cs (Z.to_nat w))) (t_chunks t).
Proof. exact wrapped_lines_nonempty. Qed.

(* ... so an empty line in the output stands for a source line without any non-blank character *)
Theorem C11_blank_line_only_from_blank_source : forall t w,
  chunks_ok t = true ->
  Forall2 (fun line cs => wrap_chunks' cs w = [] -> nonblank line = []) (split_lines (t_text t)) (t_chunks t).
Proof. exact blank_only_from_blank. Qed.

(* conversely: ONE blank chunk, or no chunk (what the splitter makes of a source line of whitespace only: a fact
   about the oracle, not proved here) wraps to nothing for every width, however long the run *)
Theorem C11_blank_run_wraps_to_nothing : forall c w,
  all_blank c = true -> wrap_chunks' [c] w = [] /\ wrap_chunks' [] w = [].
Proof. intros c w. intros H. split; [|reflexivity]. apply (wrap_chunks_blank c w _ H). apply wrap_chunks_total. Qed.

(* each line break of the source starts a new line: here only the count (which lines: C11_line_structure) *)
Theorem C11_every_source_line_starts_a_line : forall t w b,
  chunks_ok t = true -> render_text t w = ROk b ->
  b = [] \/ length (split_lines (t_text t)) <= length b.
Proof. exact render_line_count. Qed.

(* ---- 5. greediness ---------------------------------------------------------------------------------------
   the inner loop takes the longest prefix of the chunks that fits: the next chunk would overflow *)
Theorem C11_greedy_inner : forall chunks w cur cl rest,
  take_fitting chunks [] 0 w = (cur, cl, rest) ->
  chunks = cur ++ rest /\ cl = total_len cur /\ cl <= w /\
  (forall c r, rest = c :: r -> cl + length c > w).
Proof. exact take_fitting_greedy. Qed.

(* one line: after the optional removal of a leading blank chunk, chunks = cur ++ rest with cur the longest
   fitting prefix; the line is cur (extended, if the next chunk fits on no line at all, by its piece up to
   the break point in the space left), minus one trailing blank chunk; nothing else is touched *)
Theorem C11_greedy : forall chunks w first,
  1 <= w ->
  exists cur rest,
    drop_lead chunks first = cur ++ rest /\ total_len cur <= w /\
    match rest with
    | [] => wrap_step chunks w first = (line_of (trim_last cur), [])
    | c :: r =>
        total_len cur + length c > w /\
        wrap_step chunks w first =
          if w <? length c then
            let e := break_point c (w - total_len cur) in
            (line_of (trim_last (cur ++ [firstn e c])), skipn e c :: r)
          else (line_of (trim_last cur), c :: r)
    end.
Proof. exact wrap_step_greedy. Qed.

(* ---- 6. words longer than the width are split, never overflowing, always progressing ------------------- *)
Theorem C11_break_point_bounds : forall c w, 1 <= w -> 1 <= break_point c w <= w.
Proof. intros c w. intros H. split; [apply break_point_pos; exact H|apply break_point_le]. Qed.

Theorem C11_long_words_split : forall c r w first,
  1 <= w -> w < length c -> (first = true \/ all_blank c = false) ->
  wrap_step (c :: r) w first =
    ((if all_blank (firstn (break_point c w) c) then None else Some (firstn (break_point c w) c)),
     skipn (break_point c w) c :: r).
Proof. exact wrap_step_long_word. Qed.

(* ---- 7. widths <= 0 are rejected; the empty text renders to nothing ---------------------------------------- *)
Theorem C11_nonpositive_width_rejected : forall t w,
  t_text t <> [] -> (w <= 0)%Z -> render_text t w = RValueError.
Proof. exact render_nonpositive. Qed.

Theorem C11_empty_text : forall t w, t_text t = [] -> render_text t w = ROk [].
Proof. exact render_empty. Qed.

(* ---- 8. non-vacuity ---------------------------------------------------------------------------------------
   the oracle-free chunker meets the contract for every text: the hypotheses above are satisfiable *)
Theorem C11_simple_text_ok : forall s, chunks_ok (simple_text s) = true.
Proof. exact simple_text_ok. Qed.

(* "aaaa bb\n\n cccccccccc d" at widths 1, 4, 5 (the values TextWidget.render gives) and at 0 *)
Definition ex_s : str := [97; 97; 97; 97; 32; 98; 98; 10; 10; 32; 99; 99; 99; 99; 99; 99; 99; 99; 99; 99; 32; 100]%N.

Example C11_example :
  chunks_ok (simple_text ex_s) = true /\
  render_text (simple_text ex_s) 1 =
    ROk [[97]; [97]; [97]; [97]; [98]; [98]; []; [32]; [99]; [99]; [99]; [99]; [99]; [99]; [99]; [99]; [99]; [99]; [100]]%N /\
  render_text (simple_text ex_s) 4 =
    ROk [[97; 97; 97; 97]; [98; 98]; []; [32; 99; 99; 99]; [99; 99; 99; 99]; [99; 99; 99]; [100]]%N /\
  render_text (simple_text ex_s) 5 =
    ROk [[97; 97; 97; 97]; [98; 98]; []; [32; 99; 99; 99; 99]; [99; 99; 99; 99; 99]; [99; 32; 100]]%N /\
  render_text (simple_text ex_s) 0 = RValueError /\
  render_text (simple_text [32]%N) 3 = ROk [].
Proof. vm_compute. repeat split. Qed.

(* ==== 9. Widget.write(text, row, col, width, block, wordwrap=True) on ANY widget state =========================
   Model: TextWrite.write_wrapped b cur maxw t row col width block, the widget being (buffer b, cursor cur,
   max_width maxw); row / col = None means "not given: take it from the cursor" -- an explicit 0 is 0;
   width None is defaulted to max_width - col when max_width is truthy ([eff_width]).
   [cell b i j] (proofs/WidgetProofs.v) is the character at row i, column j, None when there is no such cell. *)
Remark C11_def_wrapped_lines t w :              (* the greedy wrap of every source line, "" for one that wraps to nothing *)
  wrapped_lines t w = concat (map (fun cs => or_blank (wrap_chunks' cs w)) (t_chunks t)).
Proof. reflexivity. Qed.
Remark C11_def_line_start col block k :         (* first line at col, the others at col (block) or at column 0 *)
  line_start col block k = match k with O => col | S _ => if block then col else 0 end.
Proof. reflexivity. Qed.
Remark C11_def_covered L row col block i j :    (* cell (i, j) receives a character of line k *)
  covered L row col block i j =
  exists k l, nth_error L k = Some l /\ i = row + k /\ line_start col block k <= j < line_start col block k + length l.
Proof. reflexivity. Qed.
Remark C11_def_opt_or o d : opt_or o d = match o with Some v => v | None => d end.
Proof. reflexivity. Qed.
Remark C11_def_eff_width maxw col width :
  eff_width maxw col width =
  match width with
  | Some w => Some w
  | None => match maxw with Some m => if (m =? 0)%Z then None else Some (m - Z.of_nat col)%Z | None => None end
  end.
Proof. reflexivity. Qed.

(* TextWidget.render is the special case: empty buffer, cursor (0, 0), row and col not given, not block *)
Theorem C11_render_is_write : forall t w maxw,
  render_text t w = rres_of_wres (write_wrapped [] (0, 0) maxw t None None (Some w) false).
Proof. exact render_text_is_write. Qed.

(* the text typed is '\n'.join of the wrapped lines, from (row, col), without a width: a function of the GIVEN
   row / col (cursor only when not given), never of anything else in the widget *)
Theorem C11_write_is_typing_the_wrap : forall b cur maxw t row col width block w,
  t_text t <> [] -> eff_width maxw (opt_or col (snd cur)) width = Some w -> (1 <= w)%Z ->
  write_wrapped b cur maxw t row col width block =
  WOk (fst (typewriter (join_nl (wrapped_lines t (Z.to_nat w))) b (opt_or row (fst cur)) (opt_or col (snd cur))
                       (opt_or col (snd cur)) None block))
      (snd (typewriter (join_nl (wrapped_lines t (Z.to_nat w))) b (opt_or row (fst cur)) (opt_or col (snd cur))
                       (opt_or col (snd cur)) None block)).
Proof. exact write_wrapped_ok. Qed.

(* every wrapped line is at most w long (they are the lines of C11_line_structure / C11_greedy) *)
Theorem C11_write_lines_width : forall t w,
  (1 <= w)%Z -> Forall (fun l => (Z.of_nat (length l) <= w)%Z) (wrapped_lines t (Z.to_nat w)).
Proof. exact wrapped_lines_width_z. Qed.

(* line k of the wrap is found at row + k, from column line_start col block k on *)
Theorem C11_write_lines_placed : forall b cur maxw t row col width block w b' cur',
  t_text t <> [] -> chunks_ok t = true ->
  eff_width maxw (opt_or col (snd cur)) width = Some w -> (1 <= w)%Z ->
  write_wrapped b cur maxw t row col width block = WOk b' cur' ->
  forall k l j ch,
    nth_error (wrapped_lines t (Z.to_nat w)) k = Some l -> nth_error l j = Some ch ->
    cell b' (opt_or row (fst cur) + k) (line_start (opt_or col (snd cur)) block k + j) = Some ch.
Proof. exact placed_written. Qed.

(* every other cell of the buffer keeps its character *)
Theorem C11_write_other_cells_kept : forall b cur maxw t row col width block w b' cur',
  t_text t <> [] -> chunks_ok t = true ->
  eff_width maxw (opt_or col (snd cur)) width = Some w -> (1 <= w)%Z ->
  write_wrapped b cur maxw t row col width block = WOk b' cur' ->
  forall i j v,
    cell b i j = Some v ->
    ~ covered (wrapped_lines t (Z.to_nat w)) (opt_or row (fst cur)) (opt_or col (snd cur)) block i j ->
    cell b' i j = Some v.
Proof. exact placed_kept. Qed.

(* a cell that did not exist becomes a blank iff it lies left of a written cell of its row ... *)
Theorem C11_write_padding : forall b cur maxw t row col width block w b' cur',
  t_text t <> [] -> chunks_ok t = true ->
  eff_width maxw (opt_or col (snd cur)) width = Some w -> (1 <= w)%Z ->
  write_wrapped b cur maxw t row col width block = WOk b' cur' ->
  forall i j j',
    cell b i j = None ->
    ~ covered (wrapped_lines t (Z.to_nat w)) (opt_or row (fst cur)) (opt_or col (snd cur)) block i j ->
    covered (wrapped_lines t (Z.to_nat w)) (opt_or row (fst cur)) (opt_or col (snd cur)) block i j' -> j < j' ->
    cell b' i j = Some SP.
Proof. exact placed_padding. Qed.

(* ... and still does not exist otherwise *)
Theorem C11_write_no_other_cell : forall b cur maxw t row col width block w b' cur',
  t_text t <> [] -> chunks_ok t = true ->
  eff_width maxw (opt_or col (snd cur)) width = Some w -> (1 <= w)%Z ->
  write_wrapped b cur maxw t row col width block = WOk b' cur' ->
  forall i j,
    cell b i j = None ->
    ~ covered (wrapped_lines t (Z.to_nat w)) (opt_or row (fst cur)) (opt_or col (snd cur)) block i j ->
    (forall j', covered (wrapped_lines t (Z.to_nat w)) (opt_or row (fst cur)) (opt_or col (snd cur)) block i j' -> j' < j) ->
    cell b' i j = None.
Proof. exact placed_absent. Qed.

(* number of rows afterwards: rows row .. row + #lines - 1 exist; nothing is created when the wrap is one empty line *)
Theorem C11_write_height : forall b cur maxw t row col width block w b' cur',
  t_text t <> [] -> chunks_ok t = true ->
  eff_width maxw (opt_or col (snd cur)) width = Some w -> (1 <= w)%Z ->
  write_wrapped b cur maxw t row col width block = WOk b' cur' ->
  length b' = Nat.max (length b)
                (match wrapped_lines t (Z.to_nat w) with
                 | [[]] => 0
                 | _ => opt_or row (fst cur) + length (wrapped_lines t (Z.to_nat w))
                 end).
Proof. exact placed_height. Qed.

(* the cursor is left right behind the last line *)
Theorem C11_write_cursor : forall b cur maxw t row col width block w b' cur',
  t_text t <> [] -> chunks_ok t = true ->
  eff_width maxw (opt_or col (snd cur)) width = Some w -> (1 <= w)%Z ->
  write_wrapped b cur maxw t row col width block = WOk b' cur' ->
  cur' = (opt_or row (fst cur) + (length (wrapped_lines t (Z.to_nat w)) - 1),
          line_start (opt_or col (snd cur)) block (length (wrapped_lines t (Z.to_nat w)) - 1)
          + length (last (wrapped_lines t (Z.to_nat w)) [])).
Proof. exact placed_cursor. Qed.

(* the other outcomes: nothing for the empty text; ValueError for a width <= 0 (given, or max_width - col);
   TypeError when there is no width at all; the model never runs out of fuel *)
Theorem C11_write_empty_text : forall b cur maxw t row col width block,
  t_text t = [] -> write_wrapped b cur maxw t row col width block = WOk b cur.
Proof. exact write_wrapped_empty. Qed.

Theorem C11_write_nonpositive_width : forall b cur maxw t row col width block w,
  t_text t <> [] -> eff_width maxw (opt_or col (snd cur)) width = Some w -> (w <= 0)%Z ->
  write_wrapped b cur maxw t row col width block = WValueError.
Proof. exact write_wrapped_nonpositive. Qed.

Theorem C11_write_no_width : forall b cur maxw t row col width block,
  t_text t <> [] -> eff_width maxw (opt_or col (snd cur)) width = None ->
  write_wrapped b cur maxw t row col width block = WTypeError.
Proof. exact write_wrapped_no_width. Qed.

Theorem C11_write_never_out_of_model : forall b cur maxw t row col width block,
  write_wrapped b cur maxw t row col width block <> WOutOfModel.
Proof. exact write_wrapped_never_out_of_model. Qed.

(* a heading "H" (cursor left at (0, 1)), then "alpha beta" word-wrapped at width 7:
   row 1 / col 0 given; col not given (taken from the cursor: 1); nothing given; block mode at col 2; " " at (3, 2) *)
Example C11_write_example :
  let ab := simple_text [97; 108; 112; 104; 97; 32; 98; 101; 116; 97]%N in
  write_wrapped [[72]]%N (0, 1) None ab (Some 1) (Some 0) (Some 7%Z) false
    = WOk [[72]; [97; 108; 112; 104; 97]; [98; 101; 116; 97]]%N (2, 4) /\
  write_wrapped [[72]]%N (0, 1) None ab (Some 1) None (Some 7%Z) false
    = WOk [[72]; [32; 97; 108; 112; 104; 97]; [98; 101; 116; 97]]%N (2, 4) /\
  write_wrapped [[72]]%N (0, 1) None ab None None (Some 7%Z) false
    = WOk [[72; 97; 108; 112; 104; 97]; [98; 101; 116; 97]]%N (1, 4) /\
  write_wrapped [[72]]%N (0, 1) None ab (Some 1) (Some 2) (Some 7%Z) true
    = WOk [[72]; [32; 32; 97; 108; 112; 104; 97]; [32; 32; 98; 101; 116; 97]]%N (2, 6) /\
  write_wrapped [[72]]%N (0, 1) None (simple_text [32]%N) (Some 3) (Some 2) (Some 7%Z) false = WOk [[72]]%N (3, 2) /\
  write_wrapped [[72]]%N (0, 1) None ab None None None false = WTypeError /\
  write_wrapped [[72; 120; 121; 122]]%N (0, 4) (Some 3%Z) ab None None None false = WValueError.
Proof. vm_compute. repeat split. Qed.

(* the defect repaired by commit 628ec11 (F3), on the model of the old code: "abcd\nef" at width 4 *)
Example C11_legacy_refuted :
  legacy_render_text (simple_text [97; 98; 99; 100; 10; 101; 102]%N) 4 = [[97; 98; 99; 100]; []; [101; 102]]%N /\
  render_text (simple_text [97; 98; 99; 100; 10; 101; 102]%N) 4 = ROk [[97; 98; 99; 100]; [101; 102]]%N.
Proof. vm_compute. split; reflexivity. Qed.

Print Assumptions C11_step_progress.
Print Assumptions C11_fuel_enough.
Print Assumptions C11_never_out_of_model.
Print Assumptions C11_width.
Print Assumptions C11_typewriter_reproduces_lines.
Print Assumptions C11_conservation.
Print Assumptions C11_line_structure.
Print Assumptions C11_wrapped_lines_nonempty.
Print Assumptions C11_blank_line_only_from_blank_source.
Print Assumptions C11_blank_run_wraps_to_nothing.
Print Assumptions C11_every_source_line_starts_a_line.
Print Assumptions C11_greedy_inner.
Print Assumptions C11_greedy.
Print Assumptions C11_break_point_bounds.
Print Assumptions C11_long_words_split.
Print Assumptions C11_nonpositive_width_rejected.
Print Assumptions C11_empty_text.
Print Assumptions C11_simple_text_ok.
Print Assumptions C11_render_is_write.
Print Assumptions C11_write_is_typing_the_wrap.
Print Assumptions C11_write_lines_width.
Print Assumptions C11_write_lines_placed.
Print Assumptions C11_write_other_cells_kept.
Print Assumptions C11_write_padding.
Print Assumptions C11_write_no_other_cell.
Print Assumptions C11_write_height.
Print Assumptions C11_write_cursor.
Print Assumptions C11_write_empty_text.
Print Assumptions C11_write_nonpositive_width.
Print Assumptions C11_write_no_width.
Print Assumptions C11_write_never_out_of_model.

(* C01 — signals are dispatched by priority, first-in first-out within a priority.
   Theorem statements; the proofs are lemmas of proofs/C01Proofs.v and proofs/LoopLink.v; the examples are evaluated. *)
From Coq Require Import ZArith NArith List Bool Sorted.
From SL Require Import LoopSem LoopProg Monitors LegacyHeapq proofs.LoopLink proofs.C01Proofs.
Import ListNotations.

(* Every trace of every session (any handlers, any calls from outside or from inside handlers, any number of
   pending signals) is accepted by the monitor: each signal taken from a queue — for dispatch, or looked at
   and put back by a partial batch — is the head of that queue's reference stable priority queue. *)
Theorem C01_dispatch_order : forall U (code : nat -> signal -> nat -> prog U) fuel acts (u : U),
  ok_C01 (rev (trace (snd (run_session code fuel acts (init_state u))))) = true.
Proof. exact @dispatch_order. Qed.

(* The reference queue is "most urgent first, FIFO within a priority": the new element goes after every
   element of priority <= its own and before the first element of greater priority ... *)
Theorem C01_stable_insert_spec : forall p sid q,
  exists l1 l2, q = l1 ++ l2 /\ stable_insert p sid q = l1 ++ (p, sid) :: l2 /\
                Forall (fun x => (fst x <= p)%Z) l1 /\
                match l2 with [] => True | x :: _ => (p < fst x)%Z end.
Proof. exact stable_insert_spec. Qed.

(* ... it stays sorted by priority ... *)
Theorem C01_stable_insert_sorted : forall p sid q,
  StronglySorted (fun a b => (fst a <= fst b)%Z) q ->
  StronglySorted (fun a b => (fst a <= fst b)%Z) (stable_insert p sid q).
Proof. exact stable_insert_sorted. Qed.

(* ... and the reference content of every queue is sorted by priority along ANY trace: its head is a most
   urgent pending signal. *)
Theorem C01_pend_sorted : forall (t : list event) q,
  StronglySorted (fun a b => (fst a <= fst b)%Z) (pend (world_of t) q).
Proof. intros t q. apply pend_sorted_world. intros q0. constructor. Qed.

(* Queue level, no traces: what EventQueue.get() returns is strictly below every remaining entry in
   (priority, arrival counter) order. *)
Theorem C01_pop_is_most_urgent : forall q p c sg q',
  qwf q -> q_pop q = Some ((p, c, sg), q') ->
  forall p' c' sg', In (p', c', sg') (eq_entries q') -> (p < p')%Z \/ (p = p' /\ c < c').
Proof. exact pop_is_most_urgent. Qed.

(* Queue level: the sorted content after a put is the stable insertion (used by the link lemma) *)
Theorem C01_put_is_stable_insert : forall q sg,
  qwf q -> abs (q_put q sg) = stable_insert (sg_prio sg) (sg_id sg) (abs q).
Proof. exact q_put_abs. Qed.

(* FIFO within a priority: two enqueues of equal priority sit next to each other in put order ... *)
Theorem C01_fifo_within_priority : forall p a b q,
  exists l1 l2, stable_insert p b (stable_insert p a q) = l1 ++ (p, a) :: (p, b) :: l2 /\ q = l1 ++ l2.
Proof. exact fifo_two_inserts. Qed.

Theorem C01_fifo_two_puts : forall q sa sb, qwf q -> sg_prio sa = sg_prio sb ->
  exists l1 l2, abs (q_put (q_put q sa) sb) = l1 ++ (sg_prio sa, sg_id sa) :: (sg_prio sa, sg_id sb) :: l2 /\
                abs q = l1 ++ l2.
Proof.
  intros q sa sb.
  intros Wq E. rewrite q_put_abs by (apply q_put_qwf, Wq). rewrite q_put_abs by exact Wq. rewrite <- E. apply fifo_two_inserts.
Qed.

(* ... whatever happens in between: an equal-priority element enqueued later goes after one already pending,
   later enqueues of any priority and dispatches of other signals never reorder two pending signals. *)
Theorem C01_fifo_later_enqueue : forall p a b q,
  StronglySorted (fun a b => (fst a <= fst b)%Z) q -> In (p, a) q -> before (p, a) (p, b) (stable_insert p b q).
Proof. exact fifo_insert_sorted. Qed.
Theorem C01_order_kept_by_enqueue : forall x y p sid q, before x y q -> before x y (stable_insert p sid q).
Proof. exact before_stable_insert. Qed.
Theorem C01_order_kept_by_dispatch : forall x y q, before x y q -> hd x q <> x -> before x y (tl q).
Proof. exact before_tl. Qed.

(* non-vacuity: a handler enqueues three ties (priority 5) and a less urgent signal, then calls
   process_signals(); the first tie's handler enqueues another tie and a MORE urgent signal (priority 3), which
   ends the batch: ERequeue.  Then 7 (priority 3), the ties 3,5,6 in enqueue order, then priority 7. *)
Definition C01_bodies : list (list cmd) :=
  [ [CmEnqueue 2 5 None; CmEnqueue 2 5 None; CmEnqueue 3 7 None; CmEnqueue 2 5 None; CmProcess None; CmMark 9];
    [CmIfCount 1 [CmEnqueue 2 5 None; CmEnqueue 4 3 None] [CmMark 1]];
    [CmExit];
    [CmMark 4] ].
Definition C01_acts : list (top counters) :=
  [ TProg (compile_cmds 0 [CmRegHandler 1 0 0; CmRegHandler 2 1 0; CmRegHandler 3 2 0; CmRegHandler 4 3 0;
                           CmEnqueue 3 7 None; CmEnqueue 1 0 None]);
    TRun ].
Definition C01_trace : list event :=
  rev (trace (snd (run_session (handler_prog C01_bodies) 200 C01_acts (init_state [])))).
Definition dispatched (t : list event) : list nat :=
  flat_map (fun e => match e with EDispatch sid _ _ => [sid] | _ => [] end) t.
Example C01_example :
  ok_C01 C01_trace = true /\ dispatched C01_trace = [1; 2; 7; 3; 5; 6; 0] /\
  existsb (fun e => match e with ERequeue 7 0 => true | _ => false end) C01_trace = true.
Proof. vm_compute. repeat split. Qed.

(* the defect fixed by commit 5bf8464: CPython's heapq over signals compared by priority only is not stable *)
Example C01_legacy_refuted :
  map snd (pop_n 4 (push_all [] [(0%Z, 0); (0%Z, 1); (0%Z, 2); (0%Z, 3)])) = [0; 2; 1; 3].
Proof. vm_compute. reflexivity. Qed.

Print Assumptions C01_dispatch_order.
Print Assumptions C01_stable_insert_spec.
Print Assumptions C01_stable_insert_sorted.
Print Assumptions C01_pend_sorted.
Print Assumptions C01_pop_is_most_urgent.
Print Assumptions C01_put_is_stable_insert.
Print Assumptions C01_fifo_within_priority.
Print Assumptions C01_fifo_two_puts.
Print Assumptions C01_fifo_later_enqueue.
Print Assumptions C01_order_kept_by_enqueue.
Print Assumptions C01_order_kept_by_dispatch.

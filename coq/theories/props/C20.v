(* C20 — both event loops drive an application identically.
   "An application run on the GLib-based loop shows the same screens in the same order, delivers the same input
   lines to the same screens and invokes the same handlers in the same order as when run on the default loop,
   for every application and every user session, up to the moment the application quits."

   Models: LoopSem.exec (MainLoop, verified against /repo by C01/C02/C03/C09/C10 and by this check) and
   GLibSem.gexec (GLibEventLoop on a model of libglib's main context — that part models an external C library:
   NOT verified, validated against the real library by corpus/glib/glib_experiments.py and by the
   correspondence run of checks/C20.py).  Observable: [main_obs] / [glib_obs] = outcomes of the top-level calls
   and the EHandler/EMark sequence up to the first ERunReturn.

   The full statement is FALSE of the code as it is (C20_refuted, one witness per class of difference: the
   known findings F9(a)-(e) and the classes of C20_refuted_more; each witness is replayed on the two real loops by the
   check).
   It HOLDS on a decidable fragment of sessions (C20_agree_partial).
   Theorem statements: every proof is [exact] of lemmas of proofs/C20Proofs.v (refutations, scenarios) or of
   proofs/C20Sim.v (agreement on the fragment, applications, the fragment's examples). *)
From Coq Require Import ZArith NArith List Bool.
From SL Require Import PyInt LoopSem LoopProg ScreenSem GLibSem GLibFrag GLibApp drv.Drv_loop proofs.C20Proofs proofs.C20Sim.
Import ListNotations.

(* the universally quantified statement of C20, on the handler/mark sequence alone, does not hold *)
Theorem C20_refuted :
  ~ (forall bodies acts fuel,
        no_fuel (fst (main_obs bodies acts fuel)) = true -> no_fuel (fst (glib_obs bodies acts fuel)) = true ->
        snd (main_obs bodies acts fuel) = snd (glib_obs bodies acts fuel)).
Proof. exact not_identical. Qed.

(* F9(a)  key glib-raise-skips-handlers: handlers 0 (raises) and 1 on one class *)
Theorem C20_refuted_raise_skips_handlers : differ_handlers w_a_bodies w_a_acts 200 /\
  main_obs w_a_bodies w_a_acts 200 = ([ONormal; OThrow XSysExit], [EHandler 0 0 0; EHandler 1 0 0; EMark 1]) /\
  glib_obs w_a_bodies w_a_acts 200 = ([ONormal; OThrow XSysExit], [EHandler 0 0 0]).
Proof. exact refuted_raise_skips_handlers. Qed.

(* F9(b)  key glib-exception-not-overtaking: the ExceptionSignal (handled by handler 2) waits for the batch *)
Theorem C20_refuted_exception_not_overtaking : differ_handlers w_b_bodies w_b_acts 200 /\
  snd (main_obs w_b_bodies w_b_acts 200) = [EHandler 0 0 0; EHandler 2 3 0; EMark 2; EHandler 1 1 0; EMark 1] /\
  snd (glib_obs w_b_bodies w_b_acts 200) = [EHandler 0 0 0; EHandler 1 1 0; EMark 1; EHandler 2 3 0; EMark 2].
Proof. exact refuted_exception_not_overtaking. Qed.

(* F9(c)  key glib-exit-batch-continues *)
Theorem C20_refuted_exit_batch_continues : differ_handlers w_c_bodies w_c_acts 200 /\
  main_obs w_c_bodies w_c_acts 200 = ([ONormal; ONormal], [EHandler 0 0 0]) /\
  glib_obs w_c_bodies w_c_acts 200 = ([ONormal; ONormal], [EHandler 0 0 0; EHandler 1 1 0; EMark 1]).
Proof. exact refuted_exit_batch_continues. Qed.

(* F9(d)  key glib-close-no-drain *)
Theorem C20_refuted_close_no_drain : differ_handlers w_d_bodies w_d_acts 200 /\
  snd (main_obs w_d_bodies w_d_acts 200) = [EHandler 0 0 0; EHandler 1 1 0; EHandler 2 2 0; EMark 2; EMark 1; EMark 9] /\
  snd (glib_obs w_d_bodies w_d_acts 200) = [EHandler 0 0 0; EHandler 1 1 0; EMark 1; EMark 9].
Proof. exact refuted_close_no_drain. Qed.

(* F9(e)  key glib-mark-after-handlers: observable only once the level stack is empty (see proofs/C20Proofs.v) *)
Theorem C20_refuted_mark_after_handlers :
  glib_obs w_e_bodies w_e_acts 200 = ([ONormal; OBlocked], [EHandler 2 1 0; EHandler 0 0 0; EHandler 1 0 0]) /\
  glib_obs_gen true w_e_bodies w_e_acts 200 =
    ([ONormal; ONormal; OThrow XError], [EHandler 2 1 0; EHandler 0 0 0; EHandler 1 0 0; EMark 1]) /\
  differ_handlers w_e_bodies w_e_acts 200.
Proof. exact refuted_mark_after_handlers. Qed.

(* further classes (keys: glib-urgent-not-overtaking, glib-exit-not-unwinding,
   glib-handler-after-force-quit, glib-after-force-quit, glib-process-one-batch, glib-wait-not-stopped,
   glib-wait-finishes-batch, glib-handlers-bound-at-enqueue, glib-close-last-level) *)
Theorem C20_refuted_more :
  differ_handlers w_b2_bodies w_b2_acts 200 /\ differ_handlers w_c2_bodies w_c2_acts 200 /\
  differ_handlers w_f_bodies w_f_acts 200 /\ differ w_f2_bodies w_f2_acts 200 /\
  differ_handlers w_g_bodies w_g_acts 200 /\ differ_handlers w_h_bodies w_h_acts 200 /\
  differ_handlers w_h2_bodies w_h2_acts 200 /\ differ_handlers w_i_bodies w_i_acts 200 /\
  differ_handlers w_j_bodies w_j_acts 200.
Proof.
  exact (conj refuted_urgent_not_overtaking (conj refuted_exit_not_unwinding (conj refuted_handler_after_force_quit
        (conj refuted_after_force_quit (conj refuted_process_one_batch (conj refuted_wait_not_stopped
        (conj refuted_wait_finishes_batch (conj refuted_handlers_bound_at_enqueue refuted_close_last_level)))))))).
Qed.

(* Agreement on a fragment (partial).
   [in_fragment] (GLibFrag.v) is decidable: it runs the session on the MainLoop model with state checks at the points
   where the two loops are known to part: one signal pending per level at a time, its class has a handler when it is
   enqueued, no handler ends with an ordinary exception, ExitMainLoop only with no nested loop open, close_loop only
   inside a nested loop with nothing left to drain and once per dispatch, no execute_new_loop after a close_loop in
   the same dispatch, no force_quit / process_signals, run() only with no nested loop open, no top-level call ends
   with an exception or out of fuel; a submission from another thread arrives when the loop is idle, into an empty
   queue, for a handled class.
   For every handler code over every user state, every fuel and every list of top-level calls in the fragment, the
   GLibEventLoop model (given enough fuel, and any larger amount) ends every top-level call with the same outcome and
   produces the same user-visible sequence [vseq] (EHandler, EMark, EUser) up to the quit.  Proved by a simulation relation between lstate (queues)
   and gstate (contexts), proofs/C20Sim.v. *)
Theorem C20_agree_partial : forall U (code : nat -> signal -> nat -> prog U) fuel acts u,
  in_fragment code fuel acts u = true ->
  exists fuel', forall fuel'', fuel' <= fuel'' ->
    fst (grun_session false code fuel'' acts (ginit_state u)) = fst (run_session code fuel acts (init_state u)) /\
    vseq (gtrace (snd (grun_session false code fuel'' acts (ginit_state u)))) =
    vseq (trace (snd (run_session code fuel acts (init_state u)))).
Proof. exact (@agree_partial_gen). Qed.

(* [vseq] = EHandler, EMark and EUser events (everything the layers above the loop show: screens set up / refreshed /
   shown, prompts, input lines delivered to screens, screens closed, modal returns) up to the quit; the sequences of
   handler invocations alone ([hseq]) and of user-level events alone ([useq]) are projections of it *)
Theorem C20_vseq_projections : forall t, hseq t = filter is_hm (vseq t) /\ useq t = filter is_user (vseq t).
Proof. exact (fun t => conj (hseq_vseq t) (useq_vseq t)). Qed.

(* APPLICATIONS: for every table of screens (what their callbacks do), typed lines, quit dialog, configuration, fuel and
   application actions whose run on the MainLoop model stays in the fragment ([in_app_fragment], GLibApp.v: the
   checked run of App.initialize + the session), the same application on the GLibEventLoop model ends every top-level
   call in the same way and shows the same screens in the same order, delivers the same input lines to the same screens
   and invokes the same handlers in the same order, up to the quit.  Typed input is inside the fragment: the reader
   thread's submission arrives when the loop is idle (the timing the models have). *)
Theorem C20_applications_agree_partial : forall specs specl typed quit run_empty fuel acts,
  in_app_fragment specs specl typed quit run_empty fuel acts = true ->
  exists fuel', forall fuel'', fuel' <= fuel'' ->
    fst (gapp_run_all specs specl typed quit run_empty fuel'' acts) = fst (app_run_all specs specl typed quit run_empty fuel acts) /\
    vseq (gtrace (snd (gapp_run_all specs specl typed quit run_empty fuel'' acts))) =
    vseq (trace (snd (app_run_all specs specl typed quit run_empty fuel acts))).
Proof. exact applications_agree_partial. Qed.

(* the same for sessions written in the command language of the harness *)
Theorem C20_agree_partial_sessions : forall bodies acts fuel,
  in_fragment (handler_prog bodies) fuel (map top_of acts) [] = true ->
  exists fuel', forall fuel'', fuel' <= fuel'' -> glib_obs bodies acts fuel'' = main_obs bodies acts fuel.
Proof. exact agree_partial. Qed.

(* non-vacuity at application level: a session with two screens, a modal push and two typed lines is in the fragment;
   on both models: screen 1 (modal) shown, "1" delivered to it, it is closed, push_screen_modal returns, screen 0 shown,
   "3" delivered to it, it is closed, the application quits normally *)
Example C20_application_in_fragment :
  in_app_fragment ex_specs ex_specl ex_typed None false 300 ex_acts = true /\
  (let '(os, st) := app_run_all ex_specs ex_specl ex_typed None false 300 ex_acts in (os, key_events (trace st)))
    = ([ONormal; ONormal], ex_expected) /\
  (let '(os, st) := gapp_run_all ex_specs ex_specl ex_typed None false 600 ex_acts in (os, key_events (gtrace st)))
    = ([ONormal; ONormal], ex_expected).
Proof. exact example_application. Qed.

(* [fexec], the checked interpreter behind [in_fragment], only adds checks: where it answers, it answers as [exec] *)
Theorem C20_fragment_is_mainloop : forall U (code : nat -> signal -> nat -> prog U) f c s o s',
  fexec code f c s = Some (o, s') -> exec code f c s = (o, s').
Proof. exact (@fexec_is_exec). Qed.

(* non-vacuity: the six scheduler scenarios are in the fragment, the witnesses of F9(a)-(d) are not *)
Example C20_fragment_nonempty :
  in_fragment (handler_prog s_replace_screen_bodies) 200 (map top_of s_acts) [] = true /\
  in_fragment (handler_prog s_switch_screen_bodies) 200 (map top_of s_acts) [] = true /\
  in_fragment (handler_prog s_modal_in_render_bodies) 200 (map top_of s_acts) [] = true /\
  in_fragment (handler_prog s_modal_in_refresh_bodies) 200 (map top_of s_acts) [] = true /\
  in_fragment (handler_prog s_modal_refresh_and_render_bodies) 200 (map top_of s_acts) [] = true /\
  in_fragment (handler_prog s_modal_render_recursive_bodies) 200 (map top_of s_acts) [] = true /\
  in_fragment (handler_prog w_a_bodies) 200 (map top_of w_a_acts) [] = false /\
  in_fragment (handler_prog w_b_bodies) 200 (map top_of w_b_acts) [] = false /\
  in_fragment (handler_prog w_c_bodies) 200 (map top_of w_c_acts) [] = false /\
  in_fragment (handler_prog w_d_bodies) 200 (map top_of w_d_acts) [] = false.
Proof. exact example_fragment. Qed.

(* agreement on the six scenarios of tests/units/main/screen_scheduler_test.py translated to the loop API *)
Example C20_scenario_replace_screen : agree s_replace_screen_bodies s_acts 200.
Proof. exact example_agree_replace_screen. Qed.
Example C20_scenario_switch_screen : agree s_switch_screen_bodies s_acts 200.
Proof. exact example_agree_switch_screen. Qed.
Example C20_scenario_modal_in_render : agree s_modal_in_render_bodies s_acts 200 /\
  snd (main_obs s_modal_in_render_bodies s_acts 200) =
  [EHandler 0 0 0; EMark 3; EHandler 0 1 0; EHandler 1 2 0; EMark 4; EHandler 1 3 0].
Proof. exact example_agree_modal_in_render. Qed.
Example C20_scenario_modal_in_refresh : agree s_modal_in_refresh_bodies s_acts 200.
Proof. exact example_agree_modal_in_refresh. Qed.
Example C20_scenario_modal_refresh_and_render : agree s_modal_refresh_and_render_bodies s_acts 200.
Proof. exact example_agree_modal_refresh_and_render. Qed.
Example C20_scenario_modal_render_recursive : agree s_modal_render_recursive_bodies s_acts 200 /\
  length (snd (main_obs s_modal_render_recursive_bodies s_acts 200)) = 10%nat.
Proof. exact example_agree_modal_render_recursive. Qed.

Print Assumptions C20_refuted.
Print Assumptions C20_refuted_raise_skips_handlers.
Print Assumptions C20_refuted_exception_not_overtaking.
Print Assumptions C20_refuted_exit_batch_continues.
Print Assumptions C20_refuted_close_no_drain.
Print Assumptions C20_refuted_mark_after_handlers.
Print Assumptions C20_refuted_more.
Print Assumptions C20_agree_partial.
Print Assumptions C20_vseq_projections.
Print Assumptions C20_applications_agree_partial.
Print Assumptions C20_agree_partial_sessions.
Print Assumptions C20_fragment_is_mainloop.

(* C04 — the screen shown is always the top of an honest stack.
   "Screens behave as a stack: pushing puts a screen on top, scheduling puts it at the bottom (so it is shown
    last), replacing substitutes the top screen and inherits its modality, closing removes the top and reveals
    the screen beneath, and when the stack becomes empty the application ends.  For every sequence of such
    operations the sequence of screens drawn equals the one an ideal stack would produce; a screen is never
    drawn while another is above it, and the order of the screens beneath the top never changes."
   Theorem statements: the proofs are one step from lemmas of proofs/C04Proofs.v, proofs/ScreenLink.v and ([sok_event])
   proofs/ScreenFacts.v; the closed [Example]s are evaluated by [vm_compute] here or in C04Proofs.v.
   The property is the trace acceptor [chk_C04] of ScreenMon.v (the same function, extracted, judges the
   traces recorded from the implementation).  [sworld] rebuilds the IDEAL stack [sw_stack] from the
   T_STACK events alone; [chk_C04] accepts
     - a stack primitive only if it is the one announced by the scheduler operation in progress (T_OP):
       same screen, same arguments, announced modality (a replace inherits the modality of the entry it
       has just popped), for an append a fresh entry id; or the discard of the entry whose setup has just failed;
     - a pop only of the ideal top;
     - T_SETUP / T_REFRESH / T_SHOW only for the ideal top entry (id and screen), T_SEPARATOR only for the ideal top's
       screen; T_SETUP_BEGIN (a setup() that runs commands of its own is entered) is held to the top entry too; the T_SETUP that reports the return of such a setup() and
       the T_REFRESH that follows it concern the entry the setup() was entered for ([in_setup_of]) even when that setup()
       changed the stack (nothing is drawn then: the scheduler compares the top with the entry).
   Hypothesis [failing_setup_plain specs] of the session theorems: a screen whose setup() can report failure
   (sc_setup contains false) has no setup commands.  Without it the statement is false
   ([C04_failed_setup_after_push_refuted]); [plain_setup specs] (no setup() runs commands) implies it. *)
From Coq Require Import ZArith NArith List Bool.
From RecordUpdate Require Import RecordUpdate.
From SL Require Import PyInt LoopSem ScreenSem ScreenMon proofs.ScreenLink proofs.C04Proofs.
Import ListNotations.

(* 1. every session of every application — any screens (callbacks are arbitrary command lists, setup() included as
      long as a setup() that can fail does nothing else), any typed lines, any top-level actions, any fuel — produces a
      trace the monitor accepts *)
Theorem C04_plain_setup_suffices : forall specs, plain_setup specs -> failing_setup_plain specs.
Proof. intros specs. intros H s _. apply H. Qed.

Theorem C04_honest_stack : forall specs specl typed quit run_empty fuel acts,
  failing_setup_plain specs ->
  (forall n, specs n = nth n specl default_spec) ->
  sok chk_C04 typed (rev (trace (snd (app_run_all specs specl typed quit run_empty fuel acts)))) = true.
Proof. exact C04_honest_stack_proof. Qed.

(* 2. the ideal stack is a stack: append = cons on top, add_first = append at the bottom, pop = tail;
      no other event touches it *)
Theorem C04_ideal_stack_ops : forall w i scr args m t,
  sw_stack (sworld_step w (EUser T_STACK [K_APPEND; i; scr; args; m] t)) = mk_entry i scr args m :: sw_stack w /\
  sw_stack (sworld_step w (EUser T_STACK [K_ADD_FIRST; i; scr; args; m] t)) = sw_stack w ++ [mk_entry i scr args m] /\
  sw_stack (sworld_step w (EUser T_STACK [K_POP; i; scr; args; m] t)) = tl (sw_stack w).
Proof.
  intros w i scr args m t.
  exact (conj (ideal_append w i scr args m t) (conj (ideal_add_first w i scr args m t) (ideal_pop w i scr args m t))).
Qed.

Theorem C04_ideal_stack_other : forall w e,
  match e with EUser tag _ _ => tag <> T_STACK | _ => True end -> sw_stack (sworld_step w e) = sw_stack w.
Proof. exact ideal_other. Qed.

(* hence the entries beneath the top keep their order: a push leaves the whole old stack beneath the new
   top, a schedule adds at the very bottom and keeps the top, a pop reveals the entry beneath *)
Theorem C04_beneath_push : forall w i scr args m t,
  tl (sw_stack (sworld_step w (EUser T_STACK [K_APPEND; i; scr; args; m] t))) = sw_stack w.
Proof. intros w i scr args m t. rewrite ideal_append. reflexivity. Qed.

Theorem C04_beneath_schedule : forall w i scr args m t, sw_stack w <> [] ->
  tl (sw_stack (sworld_step w (EUser T_STACK [K_ADD_FIRST; i; scr; args; m] t))) = tl (sw_stack w) ++ [mk_entry i scr args m] /\
  top_entry (sworld_step w (EUser T_STACK [K_ADD_FIRST; i; scr; args; m] t)) = top_entry w.
Proof.
  intros w i scr args m t.
  intros H. exact (conj (beneath_add_first w i scr args m t H) (top_add_first w i scr args m t H)).
Qed.

(* 3. what acceptance means: every draw in an accepted trace is of the entry on top of the ideal stack at
      that moment (so never of a screen with another one above it), every pop removes the ideal top *)
Theorem C04_drawn_is_top : forall typed t1 i scr tx t2,
  sok chk_C04 typed (t1 ++ EUser T_SHOW [i; scr] tx :: t2) = true ->
  exists e rest, sw_stack (fold_left sworld_step t1 (sworld0 typed)) = e :: rest /\ en_id e = i /\ en_scr e = scr.
Proof. intros * H. exact (chk04_show _ _ _ (ScreenFacts.sok_event _ _ _ _ _ H)). Qed.

Theorem C04_pop_is_top : forall typed t1 i scr args m tx t2,
  sok chk_C04 typed (t1 ++ EUser T_STACK [K_POP; i; scr; args; m] tx :: t2) = true ->
  exists e rest, sw_stack (fold_left sworld_step t1 (sworld0 typed)) = e :: rest /\ en_id e = i.
Proof. intros * H. exact (chk04_pop _ _ _ _ _ _ (ScreenFacts.sok_event _ _ _ _ _ H)). Qed.

(* 4. the link behind it: after every session that ran to its end the ideal stack IS the concrete
      ScreenStack (same entries, same order), entry ids are pairwise distinct and below the allocation
      counter, and no announced primitive is outstanding *)
Theorem C04_stack_link : forall specs specl typed quit run_empty fuel acts,
  failing_setup_plain specs ->
  Forall finished (fst (app_run_all specs specl typed quit run_empty fuel acts)) ->
  slink typed (snd (app_run_all specs specl typed quit run_empty fuel acts)).
Proof. exact stack_link. Qed.

(* the same, through every loop-level call of the model (Hoare style): from a linked state whose open
   _process_screen frames are [pf], a call that comes back leaves a linked state with the same frames *)
Theorem C04_exec_link : forall typed specs Ps pf f c s o s',
  failing_setup_plain specs ->
  is_prog c = false -> Inv typed false 0 Ps pf s ->
  exec (screen_code specs) f c s = (o, s') ->
  match o with
  | OFuel | OBlocked => acc_tr (chkb false) typed (trace s')
  | _ => Inv typed false 0 Ps pf s'
  end.
Proof. exact exec_link. Qed.

(* non-vacuity: a hub pushes a modal dialog ('p'), the dialog replaces itself ('r'), the replacement is
   closed ('c'), the hub is drawn again and closed ('q'): the draws are hub, dialog, replacement, hub *)
Example C04_example_modal_replace :
  sok chk_C04 ex_typed1 ex_trace1 = true /\
  shows ex_trace1 = [(0, 0); (1, 1); (2, 2); (0, 0)] /\
  fst (app_run_all ex_specs ex_specl ex_typed1 None false 400 ex_acts1) = [ONormal; ONormal] /\
  map sd_id (st_stack (ust (snd (app_run_all ex_specs ex_specl ex_typed1 None false 400 ex_acts1)))) = [].
Proof. vm_compute. repeat split. Qed.

(* a screen scheduled on top whose setup fails is discarded and the hub beneath is drawn; pushed again
   ('s') its setup succeeds and it is drawn; closed ('c'), the hub again *)
Example C04_example_failed_setup :
  sok chk_C04 ex_typed2 ex_trace2 = true /\
  shows ex_trace2 = [(1, 0); (2, 3); (1, 0)].
Proof. vm_compute. repeat split. Qed.

(* the monitor is not vacuous: drawing the entry beneath the top, a stack primitive nobody announced,
   a replace that changes the modality are rejected; drawing the top is accepted *)
Example C04_monitor_rejects :
  sok chk_C04 [] bad_show_beneath = false /\
  sok chk_C04 [] good_show_top = true /\
  sok chk_C04 [] bad_unannounced_pop = false /\
  sok chk_C04 [] bad_replace_modality = false.
Proof. vm_compute. repeat split. Qed.

(* setup() with commands.  A setup() that pushes a screen and then reports FAILURE: the scheduler's discard
   (`self._screen_stack.pop()`) removes the screen that setup() pushed, not the entry whose setup failed — a pop the
   honest stack does not allow (the failed entry stays and is set up again on every redraw).  The model's own trace is
   rejected: [C04_honest_stack] needs its hypothesis about setups *)
Example C04_failed_setup_after_push_refuted :
  sok chk_C04 fs_typed (rev (trace (snd (app_run_all (fs_specs [false]) (fs_specl [false]) fs_typed None false fs_fuel fs_acts)))) = false.
Proof. exact C04Proofs.C04_failed_setup_after_push_refuted. Qed.

(* the same session with a setup() that succeeds is accepted: the pushed screen is drawn, closed, then the screen
   whose setup() pushed it *)
Example C04_setup_push_accepted :
  sok chk_C04 fs_typed (rev (trace (snd (app_run_all (fs_specs []) (fs_specl []) fs_typed None false fs_fuel fs_acts)))) = true /\
  fst (app_run_all (fs_specs []) (fs_specl []) fs_typed None false fs_fuel fs_acts) = [ONormal; ONormal] /\
  shows (rev (trace (snd (app_run_all (fs_specs []) (fs_specl []) fs_typed None false fs_fuel fs_acts)))) = [(1, 1); (0, 0)].
Proof. exact C04Proofs.C04_setup_push_accepted. Qed.

Print Assumptions C04_plain_setup_suffices.
Print Assumptions C04_honest_stack.
Print Assumptions C04_ideal_stack_ops.
Print Assumptions C04_ideal_stack_other.
Print Assumptions C04_beneath_push.
Print Assumptions C04_beneath_schedule.
Print Assumptions C04_drawn_is_top.
Print Assumptions C04_pop_is_top.
Print Assumptions C04_stack_link.
Print Assumptions C04_exec_link.

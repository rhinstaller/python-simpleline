(* C05 — "A modal screen blocks its caller and shields everything beneath it".
   Theorem statements: a proof here is a lemma of proofs/C05Proofs.v, C05Hyp.v or C05Input.v, or a projection of one; the
   [Example]s (sessions defined in the modules [C05Ex] of C05Proofs.v and [C05InEx] of C05Input.v) are evaluated by
   [vm_compute].
   Model: ScreenSem.v (the screen layer as programs over the event loop LoopSem.v); the property is the
   acceptor [chk_C05_gen] of ScreenMon.v evaluated on the ghost trace.  [chk_C05_gen strict] is the
   conjunction of
     - [chk_C05_shield_gen strict] (proofs/C05Proofs.v): T_SETUP / T_REFRESH / T_SHOW never concern an entry
       strictly beneath the current entry of a modal frame that is still open; T_MODAL_RETURN [id; _] only
       for a frame with [mf_orig = id] which (strict) is already closed;
     - [chk_C05_input]: T_INPUT never goes to a screen that is on the stack and all of whose entries are shielded.
   The first conjunct is PROVED for every session (the strict form under the trace hypothesis [no_f13]:
   no force_quit and no nested loop entered while the stop flag is cleared — finding F13), together with
   [chk_C05_below]: what lies beneath an open modal frame stays in place.
   The second conjunct is REFUTED in general (finding F16, six sessions below, each reproduced event-for-event
   on the real implementation) and PROVED under three conditions decided on the trace (section 3), each of
   which is needed.
   setup() with commands of its own (sc_setup_cmds, section 6): the theorems of sections 1 and 3 that speak of the
   T_SETUP / T_REFRESH clauses are stated for [plain_setup specs] (no setup() runs commands); the stack theorem
   [C05_beneath_untouched] and the T_INPUT clause [C05_input_shield_partial] hold under the weaker
   [setup_cmds_ok specs] (a setup() that runs commands never reports failure), and so do the shield acceptors
   without their clauses for the RETURN of such a setup() and the refresh() of its screen ([relax_setup]).
   Without [setup_cmds_ok] the strict form is false even under [no_f13] (session su1 of section 6). *)
From Coq Require Import ZArith NArith List Bool.
From RecordUpdate Require Import RecordUpdate.
From SL Require Import PyInt LoopSem ScreenSem ScreenMon proofs.C05Proofs proofs.C05Hyp proofs.C05Input.
From SL Require Monitors.
Import ListNotations.

(* 0. what is proved of the acceptor *)
Theorem C05_acceptor_split : forall strict w e,
  chk_C05_gen strict w e = chk_C05_shield_gen strict w e && chk_C05_input w e.
Proof. exact chk_C05_gen_split. Qed.

(* 1. every session *)
(* For every application whose setup() callbacks run no commands ([plain_setup specs]; section 6 for the others) — every
   table of screens [specs], whatever the screens' other callbacks do: push, push
   modal, replace, schedule, close, redraw, raise, exit, force_quit, blocking input, at any depth —, every
   sequence of typed lines, every fuel and every list of top-level actions (commands outside callbacks,
   App.run() any number of times): no screen entry strictly beneath the current entry of an open modal
   frame is ever set up, refreshed or drawn, and every return of a modal push matches a frame opened by
   exactly that push and not yet returned.  (No hypothesis relating [specs] and [specl] is needed.)
   PARTIAL with respect to [chk_C05_partial] of ScreenMon.v: its T_INPUT clause is false in general, see section 3. *)
Theorem C05_modal_shield_partial :
  forall specs specl typed quit run_empty fuel acts,
    plain_setup specs ->
    sok chk_C05_shield_partial typed
        (rev (trace (snd (app_run_all specs specl typed quit run_empty fuel acts)))) = true.
Proof. intros specs specl typed quit run_empty fuel acts Hplain. exact (proj1 (C05_input_session specs Hplain specl typed quit run_empty fuel acts)). Qed.

(* "returns to the caller only after that screen (or whatever replaced it) has been closed": when the
   trace shows no force_quit and no execute_new_loop entered while the loops had been told to stop
   ([no_f13], decided on the trace: the pattern of finding F13), every T_MODAL_RETURN finds its frame
   closed.  Without the hypothesis the statement is false: section 2. *)
Theorem C05_returns_only_after_close_partial :
  forall specs specl typed quit run_empty fuel acts,
    plain_setup specs ->
    let t := rev (trace (snd (app_run_all specs specl typed quit run_empty fuel acts))) in
    no_f13 t = true -> sok chk_C05_shield typed t = true.
Proof. intros specs specl typed quit run_empty fuel acts Hplain. exact (proj1 (proj2 (C05_input_session specs Hplain specl typed quit run_empty fuel acts))). Qed.

(* the hypothesis in the vocabulary of the event-loop monitors (Monitors.v): no EForceQuit event, and the
   world rebuilt from the trace records no level "opened while the loops were already told to stop" *)
Theorem C05_hypothesis_meaning : forall t,
  no_f13 t = no_force_quit t && isnil (Monitors.w_stillborn (loop_world t)).
Proof. exact no_f13_spec. Qed.

(* consequently the monitors of ScreenMon.v accept a session trace iff its T_INPUT events are accepted (the strict
   [chk_C05]: when [no_f13] holds of the trace) *)
Theorem C05_modulo_input :
  forall specs specl typed quit run_empty fuel acts,
    plain_setup specs ->
    let t := rev (trace (snd (app_run_all specs specl typed quit run_empty fuel acts))) in
    sok chk_C05_partial typed t = sok chk_C05_input typed t /\
    (no_f13 t = true -> sok chk_C05 typed t = sok chk_C05_input typed t).
Proof. intros specs specl typed quit run_empty fuel acts Hplain. exact (C05_session_modulo_input specs Hplain specl typed quit run_empty fuel acts). Qed.

(* 2. the strict form is false (F13) *)
(* input() of a modal screen closes it and pushes another modal screen: the second push returns at once,
   its screen still open on the stack *)
Example C05_strict_refuted :
  fst C05Ex.f13 = [ONormal; ONormal] /\
  sok chk_C05 C05Ex.f13_typed (snd C05Ex.f13) = false /\
  sok chk_C05_shield C05Ex.f13_typed (snd C05Ex.f13) = false /\
  sok chk_C05_partial C05Ex.f13_typed (snd C05Ex.f13) = true /\
  sok chk_C04 C05Ex.f13_typed (snd C05Ex.f13) = true /\
  no_f13 (snd C05Ex.f13) = false.
Proof. vm_compute. repeat split. Qed.

(* 3. the T_INPUT clause *)
(* "no screen beneath it is given input": input() is never called on a screen that is on the stack and all of whose
   entries lie beneath an open modal frame, PROVIDED (conditions decided on the trace, proofs/C05Input.v; "unanswered"
   = a request T_REQ [screen; args; handler] not yet answered by a typed line T_READY [handler; 1]):
     no_stale_prompt         every prompt is issued on behalf of the screen of the TOP entry,
     no_orphan_prompt        no entry of a screen is popped (closed, replaced, discarded) while a request of
                             that screen is unanswered,
     no_modal_during_prompt  no modal screen is pushed while a request is unanswered.
   Behind it: while a request of screen S is unanswered, S has a stack entry with no modal entry above it.
   Neither no_f13 nor any condition on force_quit is needed for this clause. *)
Theorem C05_input_shield_partial :
  forall specs specl typed quit run_empty fuel acts,
    setup_cmds_ok specs ->
    let t := rev (trace (snd (app_run_all specs specl typed quit run_empty fuel acts))) in
    no_stale_prompt t = true -> no_orphan_prompt t = true -> no_modal_during_prompt t = true ->
    sok chk_C05_input typed t = true.
Proof. intros specs specl typed quit run_empty fuel acts Hcok. exact (proj2 (proj2 (proj2 (C05_input_session_cmds specs Hcok specl typed quit run_empty fuel acts)))). Qed.

(* the whole acceptor of ScreenMon.v: chk_C05_partial under the three conditions, the strict chk_C05 under
   no_f13 in addition *)
Theorem C05_full_partial :
  forall specs specl typed quit run_empty fuel acts,
    plain_setup specs ->
    let t := rev (trace (snd (app_run_all specs specl typed quit run_empty fuel acts))) in
    no_stale_prompt t = true -> no_orphan_prompt t = true -> no_modal_during_prompt t = true ->
    sok chk_C05_partial typed t = true /\ (no_f13 t = true -> sok chk_C05 typed t = true).
Proof. intros specs specl typed quit run_empty fuel acts Hplain. exact (C05_full_session specs Hplain specl typed quit run_empty fuel acts). Qed.

(* Without the conditions the clause is false (finding F16).  Six sessions; in each the stack discipline
   (chk_C04) is respected, the shield of setup/refresh/show holds, and input() is given to a screen whose
   every stack entry is beneath an open modal frame.  Each violates exactly ONE of the three conditions, so
   each condition is needed:
     cx1  the same screen twice on the stack, the upper (asking) entry closes          -> orphan
     cx3  the asking entry closes, its screen is scheduled again at the bottom         -> orphan
     cx5  _process_screen prompts for a screen whose entry was replaced in show_all    -> stale
     cx2  force_quit, second App.run(), modal pushed from refresh while prompting      -> modal during prompt
     cx4  re-prompt of a never drawn (unregistered) top screen, then a modal push      -> modal during prompt
     cx6  the asking screen's only registration level is closed, then a modal push     -> modal during prompt *)
Definition C05_row (ty : list (option str)) (x : list outcome * list event) :=
  (no_stale_prompt (snd x), no_orphan_prompt (snd x), no_modal_during_prompt (snd x),
   sok chk_C05_input ty (snd x), sok chk_C05_partial ty (snd x), sok chk_C05_shield_partial ty (snd x), sok chk_C04 ty (snd x)).
Example C05_input_beneath_modal_refuted :
  C05_row C05Ex.cx1_typed C05Ex.cx1     = (true, false, true, false, false, true, true) /\
  C05_row C05InEx.cx3_typed C05InEx.cx3 = (true, false, true, false, false, true, true) /\
  C05_row C05InEx.cx5_typed C05InEx.cx5 = (false, true, true, false, false, true, true) /\
  C05_row C05Ex.cx2_typed C05Ex.cx2     = (true, true, false, false, false, true, true) /\
  C05_row C05InEx.cx4_typed C05InEx.cx4 = (true, true, false, false, false, true, true) /\
  C05_row C05InEx.cx6_typed C05InEx.cx6 = (true, true, false, false, false, true, true).
Proof. vm_compute. repeat split. Qed.
(* no_f13: cx2 contains a force_quit; the five others satisfy it, the F13 session of section 2 violates only it *)
Example C05_conditions_independent :
  no_f13 (snd C05Ex.cx1) = true /\ no_f13 (snd C05InEx.cx3) = true /\ no_f13 (snd C05InEx.cx4) = true /\
  no_f13 (snd C05InEx.cx5) = true /\ no_f13 (snd C05InEx.cx6) = true /\ no_f13 (snd C05Ex.cx2) = false /\
  C05_row C05Ex.f13_typed C05Ex.f13 = (true, true, true, true, true, true, true) /\ no_f13 (snd C05Ex.f13) = false /\
  sok chk_C05 C05Ex.f13_typed (snd C05Ex.f13) = false.
Proof. vm_compute. repeat split. Qed.
(* the conditions are satisfiable together on non-trivial sessions (section 5: modal from input / depth 3) *)
Example C05_conditions_satisfiable :
  C05_row C05Ex.ex1_typed C05Ex.ex1 = (true, true, true, true, true, true, true) /\ no_f13 (snd C05Ex.ex1) = true /\
  C05_row C05Ex.ex4_typed C05Ex.ex4 = (true, true, true, true, true, true, true) /\ no_f13 (snd C05Ex.ex4) = true /\
  C05Ex.count_tag T_INPUT (snd C05Ex.ex4) = 9 /\ C05Ex.count_tag T_MODAL_RETURN (snd C05Ex.ex4) = 3.
Proof. vm_compute. repeat split. Qed.

(* 4. the caller resumes *)
(* push_screen_modal in the middle of a callback's command list: the nested loop is run; when it returns
   normally the very next step is T_MODAL_RETURN and then the REST of the caller's commands, from the state
   the nested loop left; any other outcome (ExitMainLoop, SystemExit, blocked) is passed on unchanged *)
Theorem C05_caller_resumes :
  forall specs f cn self cnt scr a rest (s : lstate sstate),
    let d := {| sd_id := st_next_sd (ust s); sd_scr := scr; sd_args := a; sd_modal := true |} in
    let s1 := emit (EUser T_STACK [K_APPEND; sd_id d; scr; a; 1] [])
                   ((emit (EUser T_OP [O_PUSH_MODAL; scr; a] []) s)
                      <| ust := (ust s) <| st_next_sd := S (st_next_sd (ust s)) |> <| st_stack := d :: st_stack (ust s) |> |>) in
    exec (screen_code specs) (8 + f) (CProg (do_scmds specs cn self cnt (SPushModal scr a :: rest))) s =
    let '(o, s2) := exec (screen_code specs) f (CApi (ANewLoop (render_spec None))) s1 in
    match o with
    | ONormal => exec (screen_code specs) (7 + f) (CProg (do_scmds specs cn self cnt rest))
                      (emit (EUser T_MODAL_RETURN [sd_id d; scr] []) s2)
    | _ => (o, s2)
    end.
Proof. exact caller_resumes_eq. Qed.

(* "When the call returns the caller's screen is still on the stack in its place": what the model guarantees.
   [below w f] = the entries strictly beneath the current entry of frame f (the pushed entry or what replaced
   it).  At every stack primitive (append, add_first, pop), for every frame open before it and still open
   after it, these entries are the same, in the same order; the only possible additions are further down, at
   the very bottom of the stack (add_first).  Nothing is said of a frame once it is closed: after a modal
   screen has closed itself its callback may go on closing the screens beneath it. *)
Theorem C05_beneath_untouched :
  forall specs specl typed quit run_empty fuel acts,
    setup_cmds_ok specs ->
    sok chk_C05_below typed (rev (trace (snd (app_run_all specs specl typed quit run_empty fuel acts)))) = true.
Proof. intros specs specl typed quit run_empty fuel acts Hcok. exact (proj1 (proj2 (proj2 (C05_input_session_cmds specs Hcok specl typed quit run_empty fuel acts)))). Qed.

(* ... and no other event touches the stack, the entry being replaced, or a frame's current entry: the frames
   are the same list, or (T_MODAL_RETURN) the same list without the returning frame *)
Theorem C05_only_stack_primitives_move : forall w e,
  match e with EUser tag _ _ => tag <> T_STACK | _ => True end ->
  sw_stack (sworld_step w e) = sw_stack w /\ sw_replaced (sworld_step w e) = sw_replaced w /\
  (sw_modal (sworld_step w e) = sw_modal w \/
   exists id, sw_modal (sworld_step w e) = remove_first (fun f => (mf_orig f =? id)%nat) (sw_modal w)).
Proof. exact step_not_stack. Qed.

(* 5. examples *)
(* modal pushed from input(), from refresh(), from show_all(), from another modal (depth 3), with pushes,
   replaces and closes inside: the full strict monitor accepts, every push returned *)
Example C05_example_from_input :
  sok chk_C05 C05Ex.ex1_typed (snd C05Ex.ex1) = true /\ no_f13 (snd C05Ex.ex1) = true /\
  sok chk_C05_below C05Ex.ex1_typed (snd C05Ex.ex1) = true /\
  C05Ex.count_tag T_MODAL_RETURN (snd C05Ex.ex1) = 1 /\ C05Ex.count_tag T_INPUT (snd C05Ex.ex1) = 5.
Proof. vm_compute. repeat split. Qed.
Example C05_example_from_refresh :
  sok chk_C05 C05Ex.ex2_typed (snd C05Ex.ex2) = true /\ C05Ex.count_tag T_MODAL_RETURN (snd C05Ex.ex2) = 1.
Proof. vm_compute. repeat split. Qed.
Example C05_example_from_show_all :
  sok chk_C05 C05Ex.ex3_typed (snd C05Ex.ex3) = true /\ C05Ex.count_tag T_MODAL_RETURN (snd C05Ex.ex3) = 1.
Proof. vm_compute. repeat split. Qed.
Example C05_example_depth3 :
  sok chk_C05 C05Ex.ex4_typed (snd C05Ex.ex4) = true /\ no_f13 (snd C05Ex.ex4) = true /\
  sok chk_C05_below C05Ex.ex4_typed (snd C05Ex.ex4) = true /\
  C05Ex.count_tag T_MODAL_RETURN (snd C05Ex.ex4) = 3.
Proof. vm_compute. repeat split. Qed.
(* a refresh of the entry beneath an open modal entry is rejected; so is the loss of the entry beneath a
   modal entry whose frame is open *)
Example C05_monitor_rejects :
  sok chk_C05_shield_partial [] C05Ex.bad_trace = false /\ sok chk_C05_partial [] C05Ex.bad_trace = false /\
  sok chk_C05_below [] C05Ex.bad_trace = true /\ sok chk_C05_below [] C05Ex.bad_below = false.
Proof. vm_compute. repeat split. Qed.

(* 6. setup() with commands of its own *)
(* [setup_cmds_ok specs]: every screen whose setup() runs commands (sc_setup_cmds <> []) reports success every time.
   It is weaker than [plain_setup] and, on a table of screens, follows from [setup_cmds_okb]. *)
Theorem C05_setup_cmds_hypothesis :
  (forall specs, plain_setup specs -> setup_cmds_ok specs) /\
  (forall l, setup_cmds_okb l = true -> setup_cmds_ok (fun n => nth n l default_spec)).
Proof. split; [exact plain_setup_cmds_ok|exact setup_cmds_okb_ok]. Qed.

(* [relax_setup specs chk]: [chk] except that T_SETUP [id; scr; ..] (the return of setup()) and T_REFRESH [id; scr; ..]
   are not examined when screen scr has a setup() with commands; it is implied by [chk], and is [chk] itself when no
   setup() runs commands *)
Theorem C05_relaxed_acceptor_meaning : forall specs chk,
  (forall w e, relax_setup specs chk w e =
     match e with
     | EUser tag a _ => if ((tag =? T_SETUP)%nat || (tag =? T_REFRESH)%nat) && has_cmds (specs (nth0 a 1)) then true else chk w e
     | _ => chk w e
     end) /\
  (forall w e, chk w e = true -> relax_setup specs chk w e = true) /\
  (plain_setup specs -> forall w e, relax_setup specs chk w e = chk w e).
Proof.
  intros specs chk. split; [reflexivity|]. split; [intros w e; apply relax_setup_of|apply relax_setup_plain].
Qed.

(* every session whose setups with commands never fail: the entry of such a setup() (T_SETUP_BEGIN), every show_all(),
   every setup()/refresh() of the other screens never concern an entry beneath an open modal frame, every return of a
   modal push matches its frame, and (no_f13) finds it closed.  PARTIAL: that the entry is not beneath an open modal
   frame when a setup() with commands RETURNS and when its screen is refreshed is not proved (the commands may have
   changed the stack; the entry is then not the top entry any more). *)
Theorem C05_modal_shield_setup_cmds_partial :
  forall specs specl typed quit run_empty fuel acts,
    setup_cmds_ok specs ->
    let t := rev (trace (snd (app_run_all specs specl typed quit run_empty fuel acts))) in
    sok (relax_setup specs chk_C05_shield_partial) typed t = true /\
    (no_f13 t = true -> sok (relax_setup specs chk_C05_shield) typed t = true).
Proof.
  intros specs specl typed quit run_empty fuel acts Hcok t.
  destruct (C05_input_session_cmds specs Hcok specl typed quit run_empty fuel acts) as (H1 & H2 & _). split; assumption.
Qed.

(* without [setup_cmds_ok] the strict form is false although no_f13 holds: setup() of a modal screen pushes a screen
   and reports failure; the scheduler discards the pushed screen and stops the modal screen's loop: the modal push
   returns while its screen is still on the stack (su1).  With setups that succeed the full strict monitor accepts (su2:
   setup() opens a modal dialog, which opens another one, then pushes a screen) *)
Example C05_failing_setup_with_commands_refuted :
  fst C05InEx.su1 = [ONormal; ONormal] /\ setup_cmds_okb C05InEx.su1_specs = false /\ no_f13 (snd C05InEx.su1) = true /\
  sok chk_C05_shield C05InEx.su1_typed (snd C05InEx.su1) = false /\
  sok (relax_setup (C05InEx.fspecs C05InEx.su1_specs) chk_C05_shield) C05InEx.su1_typed (snd C05InEx.su1) = false /\
  sok chk_C05_shield_partial C05InEx.su1_typed (snd C05InEx.su1) = true /\
  sok chk_C05_below C05InEx.su1_typed (snd C05InEx.su1) = true.
Proof. vm_compute. repeat split. Qed.
Example C05_example_setup_with_commands :
  fst C05InEx.su2 = [ONormal; ONormal] /\ setup_cmds_okb C05InEx.su2_specs = true /\ no_f13 (snd C05InEx.su2) = true /\
  sok chk_C05 C05InEx.su2_typed (snd C05InEx.su2) = true /\ sok chk_C05_below C05InEx.su2_typed (snd C05InEx.su2) = true /\
  C05Ex.count_tag T_SETUP_BEGIN (snd C05InEx.su2) = 1 /\ C05Ex.count_tag T_MODAL_RETURN (snd C05InEx.su2) = 2.
Proof. vm_compute. repeat split. Qed.

Print Assumptions C05_acceptor_split.
Print Assumptions C05_modal_shield_partial.
Print Assumptions C05_returns_only_after_close_partial.
Print Assumptions C05_hypothesis_meaning.
Print Assumptions C05_modulo_input.
Print Assumptions C05_input_shield_partial.
Print Assumptions C05_full_partial.
Print Assumptions C05_caller_resumes.
Print Assumptions C05_beneath_untouched.
Print Assumptions C05_only_stack_primitives_move.
Print Assumptions C05_setup_cmds_hypothesis.
Print Assumptions C05_relaxed_acceptor_meaning.
Print Assumptions C05_modal_shield_setup_cmds_partial.

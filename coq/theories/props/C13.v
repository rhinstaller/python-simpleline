(* C13 — list containers show every item once, in order, without overlap, within width.
   Theorem statements; the proofs are lemmas of proofs/Containers*.v (C13_buffer_ext: proofs/WidgetProofs.v),
   from section 7 on applied to what plain items guarantee (plain_items_width).  The _def theorems (but
   C13_in_stamp_def and C13_pads_def, lemmas of ContainersBlank.v), the two item_height theorems and the
   examples hold by computation.
   Model: Containers.v (ordered_map_row/col, lines_per_every_row, render_all_items,
   draw_list_col(s), render), mirroring ListRowContainer / ListColumnContainer line by line. *)
From Coq Require Import ZArith NArith List Bool Permutation Sorted.
From SL Require Import PyInt Widget TextWrap KeyPattern Containers
     proofs.WidgetProofs proofs.ContainersProofs proofs.ContainersLayout proofs.ContainersGeom proofs.ContainersCells proofs.ContainersBlank proofs.ContainersFinal.
Import ListNotations.

(* 1. row container: row-major *)
(* one list per column *)
Theorem C13_order_row_columns : forall n c, length (ordered_map_row n c) = c.
Proof. exact omap_row_length. Qed.

(* item i is found in column i mod c at row i / c *)
Theorem C13_order_row : forall n c i, 0 < c -> i < n ->
  nth_error (nth (i mod c) (ordered_map_row n c) []) (i / c) = Some i.
Proof. exact order_row_position. Qed.

(* and a grid position holds nothing else: (column k, row r) shows item r*c + k or nothing *)
Theorem C13_order_row_only : forall n c k r i, k < c ->
  nth_error (nth k (ordered_map_row n c) []) r = Some i -> i < n /\ i mod c = k /\ i / c = r.
Proof. exact order_row_position_inv. Qed.

(* every column lists its items in increasing order *)
Theorem C13_order_row_increasing : forall n c k, StronglySorted lt (nth k (ordered_map_row n c) []).
Proof. intros n c k. apply (nth_filter_seq_sorted (fun k i => i mod c =? k)). Qed.

(* the columns together hold exactly the items 0..n-1, each once *)
Theorem C13_order_row_partition : forall n c, 0 < c -> Permutation (concat (ordered_map_row n c)) (seq 0 n).
Proof. exact order_row_partition. Qed.

Theorem C13_order_row_once : forall n c i, 0 < c -> i < n ->
  count_occ Nat.eq_dec (concat (ordered_map_row n c)) i = 1.
Proof. intros n c i Hc Hi. exact (perm_seq_count _ n i (order_row_partition n c Hc) Hi). Qed.

(* 2. column container: column-major *)
Theorem C13_order_col_columns : forall n c, length (ordered_map_col n c) = c.
Proof. exact omap_col_length. Qed.

(* with p = ceil(n / c) items per column, item i is found in column i / p at row i mod p *)
Theorem C13_order_col : forall n c i, 0 < c -> i < n ->
  let p := ceil_div n c in
  nth_error (nth (i / p) (ordered_map_col n c) []) (i mod p) = Some i.
Proof. exact order_col_position. Qed.

Theorem C13_order_col_only : forall n c k r i, k < c ->
  let p := ceil_div n c in
  nth_error (nth k (ordered_map_col n c) []) r = Some i -> i < n /\ i / p = k /\ i mod p = r.
Proof. exact order_col_position_inv. Qed.

Theorem C13_order_col_increasing : forall n c k, StronglySorted lt (nth k (ordered_map_col n c) []).
Proof. intros n c k. apply (nth_filter_seq_sorted (fun k i => i / ceil_div n c =? k)). Qed.

(* column-major: reading column after column gives 0, 1, ..., n-1 (hence a partition) *)
Theorem C13_order_col_major : forall n c, 0 < c -> concat (ordered_map_col n c) = seq 0 n.
Proof. exact order_col_concat. Qed.

Theorem C13_order_col_partition : forall n c, 0 < c -> Permutation (concat (ordered_map_col n c)) (seq 0 n).
Proof. intros n c. intros Hc. rewrite order_col_concat by exact Hc. apply Permutation_refl. Qed.

(* 3. refusal *)
(* the column width render() computes: the forced one, or int((width - (columns-1)*spacing) / columns) *)
Theorem C13_columns_width_def : forall columns forced spacing width,
  list_columns_width columns forced spacing width =
  match forced with Some cw => cw | None => Z.quot (width - (columns - 1) * spacing) columns end.
Proof. reflexivity. Qed.

(* a list that is drawn had at least one character column for every item, next to its label *)
Theorem C13_refusal : forall kind columns items forced spacing kp w b,
  render_tree (WList kind columns items forced spacing kp) w = ROk b ->
  items = [] \/
  ((0 < list_columns_width columns forced spacing w)%Z /\
   forall i kp', i < length items -> kp = Some kp' ->
     (0 < list_columns_width columns forced spacing w - Z.of_nat (length (get_widget_label kp' i)))%Z).
Proof. exact list_ok_room. Qed.

(* conversely: items but no room for a column => ValueError *)
Theorem C13_refused_narrow : forall kind columns items forced spacing kp w,
  (0 < columns)%Z -> items <> [] -> (list_columns_width columns forced spacing w <= 0)%Z ->
  render_tree (WList kind columns items forced spacing kp) w = RValueError.
Proof. exact list_refused_narrow. Qed.

(* numbering on and some label leaves no room for its item => ValueError, provided the labels
   render (they are one-line texts rendered at their own length) and the items before it render *)
Theorem C13_refused_label : forall kind columns items forced spacing kp' w i,
  (0 < columns)%Z -> i < length items ->
  let cw := list_columns_width columns forced spacing w in
  (cw - Z.of_nat (length (get_widget_label kp' i)) <= 0)%Z ->
  (forall j, j <= i -> exists lb, label_buffer kp' j = ROk lb) ->
  (forall j it, j < i -> nth_error items j = Some it ->
     exists b, render_tree it (cw - Z.of_nat (length (get_widget_label kp' j)))%Z = ROk b) ->
  render_tree (WList kind columns items forced spacing (Some kp')) w = RValueError.
Proof. exact list_refused_label. Qed.

(* 4. row heights *)
(* the height of row r is the maximum height of the items that sit in row r ... *)
Theorem C13_row_heights : forall omap heights r,
  nth r (lines_per_every_row omap heights) 0 =
  list_max (map (fun i => nth i heights 0) (row_items omap r)).
Proof. exact row_heights_max. Qed.

(* ... where the items of row r are, for the two containers: *)
Theorem C13_row_items_row : forall n c r i, 0 < c ->
  In i (row_items (ordered_map_row n c) r) <-> i < n /\ i / c = r.
Proof. exact row_items_row. Qed.

Theorem C13_row_items_col : forall n c r i, 0 < c ->
  In i (row_items (ordered_map_col n c) r) <-> i < n /\ i mod ceil_div n c = r.
Proof. exact row_items_col. Qed.

(* every item fits in its row; the row is no higher than its tallest item; the number of rows *)
Theorem C13_row_height_fits : forall omap heights r i,
  In i (row_items omap r) -> nth i heights 0 <= nth r (lines_per_every_row omap heights) 0.
Proof. exact row_height_bounds_item. Qed.

Theorem C13_row_height_attained : forall omap heights r,
  row_items omap r <> [] ->
  exists i, In i (row_items omap r) /\ nth r (lines_per_every_row omap heights) 0 = nth i heights 0.
Proof. exact row_height_attained. Qed.

Theorem C13_row_count : forall omap heights,
  length (lines_per_every_row omap heights) = list_max (map (@length nat) omap).
Proof. exact row_heights_count. Qed.

(* the height of a numbered item counts its label (fix e6103fb): an empty item keeps its row *)
Theorem C13_item_height_numbered : forall ib lb lw,
  item_height (ib, Some (lb, lw)) = Nat.max (length ib) (length lb).
Proof. reflexivity. Qed.

Theorem C13_item_height_plain : forall ib, item_height (ib, None) = length ib.
Proof. reflexivity. Qed.

(* 5. within the requested width *)
(* one level, hypotheses on what the items and labels render to: every line is at most w long.
   _partial: the two hypotheses are C11-type facts about the sub-widgets (an item rendered at w'
   is at most w' wide; a label is at most as wide as its text).  The second holds for every
   pattern (ContainersLayout.label_width) and is not used, the first for plain items (section 7). *)
Theorem C13_within_width_partial : forall kind columns items spacing kp w b,
  (0 <= spacing)%Z ->
  (forall it w' b', In it items -> (0 < w')%Z -> render_tree it w' = ROk b' -> (Z.of_nat (buf_width b') <= w')%Z) ->
  (forall kp' i lb, kp = Some kp' -> label_buffer kp' i = ROk lb -> buf_width lb <= length (get_widget_label kp' i)) ->
  render_tree (WList kind columns items None spacing kp) w = ROk b ->
  Forall (fun l : line => (Z.of_nat (length l) <= w)%Z) b.
Proof. intros kind columns items spacing kp w b Hs Hitems _. now apply list_within_width. Qed.

(* with a forced column width the bound is columns * columns_width + (columns - 1) * spacing *)
Theorem C13_width_bound_partial : forall kind columns items forced spacing kp w b,
  (0 <= spacing)%Z ->
  (forall it w' b', In it items -> (0 < w')%Z -> render_tree it w' = ROk b' -> (Z.of_nat (buf_width b') <= w')%Z) ->
  (forall kp' i lb, kp = Some kp' -> label_buffer kp' i = ROk lb -> buf_width lb <= length (get_widget_label kp' i)) ->
  render_tree (WList kind columns items forced spacing kp) w = ROk b ->
  b = [] \/
  ((0 < list_columns_width columns forced spacing w)%Z /\
   (Z.of_nat (buf_width b) <= columns * list_columns_width columns forced spacing w + (columns - 1) * spacing)%Z).
Proof. intros kind columns items forced spacing kp w b Hs Hitems _. now apply list_width_bound. Qed.

(* nested containers: for any tree built from texts, separators, centred widgets, list containers
   without forced width and with spacing >= 0, and windows — nested in any way — every line is at
   most w long.  _partial: relative to a class [text_ok] of texts for which TextWidget.render is
   known to respect its width; by the C11 theorem every text is in such a class (section 7). *)
Theorem C13_within_width_nested_partial : forall (text_ok : text -> Prop),
  (forall t w b, text_ok t -> (0 < w)%Z -> render_text t w = ROk b -> (Z.of_nat (buf_width b) <= w)%Z) ->
  forall t w b, fit_tree text_ok t -> (0 <= w)%Z -> render_tree t w = ROk b ->
  Forall (fun l : line => (Z.of_nat (length l) <= w)%Z) b.
Proof. intros text_ok _ t w b Hf. exact (fitting_tree_within_width t w b (fit_fitting text_ok t Hf)). Qed.

(* 6. no overlap (geometry) *)
(* closed form of the drawing loops: under the same hypotheses the buffer of a non-empty list is
   the fold of [draw_item] over the placements (item, first row, first column), where the item at
   (column k, row r) is placed at row [rowstart r] = sum of the heights of the rows above and at
   column k * (columns_width + spacing) *)
Theorem C13_layout_partial : forall kind columns items forced spacing kp w b,
  (0 <= spacing)%Z ->
  (forall it w' b', In it items -> (0 < w')%Z -> render_tree it w' = ROk b' -> (Z.of_nat (buf_width b') <= w')%Z) ->
  (forall kp' i lb, kp = Some kp' -> label_buffer kp' i = ROk lb -> buf_width lb <= length (get_widget_label kp' i)) ->
  render_tree (WList kind columns items forced spacing kp) w = ROk b ->
  items <> [] ->
  let cw := list_columns_width columns forced spacing w in
  let omap := ordered_map kind (length items) (Z.to_nat columns) in
  exists rendered,
    render_all_items render_tree items 0 cw kp = ROk rendered /\
    Forall (item_fits (Z.to_nat cw)) rendered /\
    b = fold_left (draw_item rendered)
          (all_placements omap (lines_per_every_row omap (map item_height rendered)) 0 (Z.to_nat (cw + spacing))) [].
Proof.
  intros kind columns items forced spacing kp w b Hs Hitems _ H _. apply (list_rendered _ _ _ _ _ _ _ _ _ H).
  intros rendered. now apply render_list_closed_form.
Qed.

Theorem C13_placements : forall lpr pitch i rp cp omap k0,
  In (i, (rp, cp)) (all_placements omap lpr k0 pitch) <->
  exists k r, k < length omap /\ nth_error (nth k omap []) r = Some i /\
              rp = rowstart lpr r /\ cp = (k0 + k) * pitch.
Proof. exact in_all_placements. Qed.

Theorem C13_rowstart : forall lpr r, rowstart lpr 0 = 0 /\ rowstart lpr (S r) = rowstart lpr r + nth r lpr 0.
Proof. intros lpr r. split; [reflexivity|apply rowstart_S]. Qed.

(* the rectangles  rows [rowstart r, rowstart r + height_i) x columns [k*(cw+s), k*(cw+s)+cw)
   of the items at two different grid positions are disjoint *)
Theorem C13_no_overlap : forall omap heights cw s k r i k' r' i',
  k < length omap -> nth_error (nth k omap []) r = Some i ->
  k' < length omap -> nth_error (nth k' omap []) r' = Some i' ->
  (k, r) <> (k', r') ->
  let lpr := lines_per_every_row omap heights in
  let pitch := cw + s in
  k * pitch + cw <= k' * pitch \/ k' * pitch + cw <= k * pitch \/
  rowstart lpr r + nth i heights 0 <= rowstart lpr r' \/ rowstart lpr r' + nth i' heights 0 <= rowstart lpr r.
Proof. intros until 5. intros lpr pitch. apply rects_disjoint; try assumption. apply Nat.le_add_r. Qed.

(* what is drawn for an item (label at the left edge, the item right of it) stays inside its
   rectangle, and the label stays left of the item *)
Theorem C13_item_inside_rect : forall cw x,
  item_fits cw x ->
  length (fst x) <= item_height x /\
  match snd x with
  | Some (lb, lw) => length lb <= item_height x /\ buf_width lb <= lw /\ lw + buf_width (fst x) <= cw
  | None => buf_width (fst x) <= cw
  end.
Proof. exact item_inside_rect. Qed.

(* cell level: in the rendered list every label and every item can be read in full at its place
   (column k * (columns_width + spacing), row rowstart(r); the item right of its label): nothing
   that is drawn later overwrites it.  [shows b src r0 c0] says that every cell (y, x) of src is the
   cell (r0 + y, c0 + x) of b ([cell], [row_len]: proofs/WidgetProofs.v).  Same hypotheses as above. *)
Theorem C13_shows_def : forall b src r0 c0,
  shows b src r0 c0 <->
  forall y x, y < length src -> x < row_len src y -> cell b (r0 + y) (c0 + x) = cell src y x.
Proof. intros. reflexivity. Qed.

Theorem C13_item_shown_def : forall rendered b i rp cp,
  item_shown rendered b (i, (rp, cp)) <->
  match nth i rendered ([], None) with
  | (ib, Some (lb, lw)) => shows b lb rp cp /\ shows b ib rp (cp + lw)
  | (ib, None) => shows b ib rp cp
  end.
Proof. intros. reflexivity. Qed.

Theorem C13_cells_partial : forall kind columns items forced spacing kp w b,
  (0 <= spacing)%Z ->
  (forall it w' b', In it items -> (0 < w')%Z -> render_tree it w' = ROk b' -> (Z.of_nat (buf_width b') <= w')%Z) ->
  (forall kp' i lb, kp = Some kp' -> label_buffer kp' i = ROk lb -> buf_width lb <= length (get_widget_label kp' i)) ->
  render_tree (WList kind columns items forced spacing kp) w = ROk b ->
  let cw := list_columns_width columns forced spacing w in
  let omap := ordered_map kind (length items) (Z.to_nat columns) in
  exists rendered,
    render_all_items render_tree items 0 cw kp = ROk rendered /\
    forall k r i, k < length omap -> nth_error (nth k omap []) r = Some i ->
      item_shown rendered b
        (i, (rowstart (lines_per_every_row omap (map item_height rendered)) r, k * Z.to_nat (cw + spacing))).
Proof.
  intros kind columns items forced spacing kp w b Hs Hitems _ H. apply (list_rendered _ _ _ _ _ _ _ _ _ H).
  intros rendered. now apply render_list_cells.
Qed.

(* 7. the hypotheses discharged *)
(* With the width theorem of TextWidget.render (C11_width, proofs/TextWrapRender.v) the hypotheses of
   the _partial theorems hold for every "plain" tree: texts, separators, centred widgets, list
   containers without forced column width and with spacing >= 0, windows — nested in any way. *)
Theorem C13_plain_tree_def : forall t, plain_tree t <-> fit_tree (fun _ => True) t.
Proof. intros. reflexivity. Qed.

(* every line of a plain tree rendered at w is at most w long: containers nested in containers *)
Theorem C13_within_width : forall t w b,
  plain_tree t -> (0 <= w)%Z -> render_tree t w = ROk b -> Forall (fun l : line => (Z.of_nat (length l) <= w)%Z) b.
Proof. intros t w b Hp. exact (fitting_tree_within_width t w b (fit_fitting _ t Hp)). Qed.

(* a list container (forced width or not) of plain items: width bound, layout, cells *)
Theorem C13_width_bound : forall kind columns items forced spacing kp w b,
  (0 <= spacing)%Z -> Forall plain_tree items ->
  render_tree (WList kind columns items forced spacing kp) w = ROk b ->
  b = [] \/
  ((0 < list_columns_width columns forced spacing w)%Z /\
   (Z.of_nat (buf_width b) <= columns * list_columns_width columns forced spacing w + (columns - 1) * spacing)%Z).
Proof. intros until 2. apply list_width_bound; [assumption|now apply plain_items_width]. Qed.

Theorem C13_layout : forall kind columns items forced spacing kp w b,
  (0 <= spacing)%Z -> Forall plain_tree items ->
  render_tree (WList kind columns items forced spacing kp) w = ROk b ->
  items <> [] ->
  let cw := list_columns_width columns forced spacing w in
  let omap := ordered_map kind (length items) (Z.to_nat columns) in
  exists rendered,
    render_all_items render_tree items 0 cw kp = ROk rendered /\
    Forall (item_fits (Z.to_nat cw)) rendered /\
    b = fold_left (draw_item rendered)
          (all_placements omap (lines_per_every_row omap (map item_height rendered)) 0 (Z.to_nat (cw + spacing))) [].
Proof.
  intros kind columns items forced spacing kp w b Hs Hall H _. apply (list_rendered _ _ _ _ _ _ _ _ _ H).
  intros rendered. apply render_list_closed_form; [assumption|now apply plain_items_width|assumption].
Qed.

Theorem C13_cells : forall kind columns items forced spacing kp w b,
  (0 <= spacing)%Z -> Forall plain_tree items ->
  render_tree (WList kind columns items forced spacing kp) w = ROk b ->
  let cw := list_columns_width columns forced spacing w in
  let omap := ordered_map kind (length items) (Z.to_nat columns) in
  exists rendered,
    render_all_items render_tree items 0 cw kp = ROk rendered /\
    forall k r i, k < length omap -> nth_error (nth k omap []) r = Some i ->
      item_shown rendered b
        (i, (rowstart (lines_per_every_row omap (map item_height rendered)) r, k * Z.to_nat (cw + spacing))).
Proof.
  intros kind columns items forced spacing kp w b Hs Hall H. apply (list_rendered _ _ _ _ _ _ _ _ _ H).
  intros rendered. apply render_list_cells; [assumption|now apply plain_items_width|assumption].
Qed.

(* refusal, total for text items: numbering on and SOME label leaves no room => ValueError *)
Theorem C13_refused_label_texts : forall kind columns ts forced spacing kp' w i,
  (0 < columns)%Z -> i < length ts ->
  (list_columns_width columns forced spacing w - Z.of_nat (length (get_widget_label kp' i)) <= 0)%Z ->
  render_tree (WList kind columns (map WText ts) forced spacing (Some kp')) w = RValueError.
Proof. exact text_list_refused. Qed.

(* 8. blank elsewhere; the buffer is determined *)
(* The drawing of a list container is a sequence of stamps ((row, col), source buffer): for every
   grid position (column k, row r, item i) the label at (rowstart r, k*(cw+s)) and the item right of
   it at column k*(cw+s) + len(label text), or the item alone without numbering. *)
Theorem C13_stamps_of_def : forall rendered i rp cp,
  stamps_of rendered (i, (rp, cp)) =
  match nth i rendered ([], None) with
  | (ib, Some (lb, lw)) => [((rp, cp), lb); ((rp, cp + lw), ib)]
  | (ib, None) => [((rp, cp), ib)]
  end.
Proof. intros. reflexivity. Qed.

Theorem C13_list_stamps : forall rendered omap lpr pitch s,
  In s (list_stamps rendered (all_placements omap lpr 0 pitch)) <->
  exists k r i, k < length omap /\ nth_error (nth k omap []) r = Some i /\
                In s (stamps_of rendered (i, (rowstart lpr r, k * pitch))).
Proof. exact in_list_stamps_grid. Qed.

(* the cells a stamp covers (row y of the source covers len(row y) columns: the same cells as in
   [shows] of C13_cells) and the cells to its left on its rows *)
Theorem C13_in_stamp_def : forall s i j,
  in_stamp s i j = true <->
  st_row s <= i < st_row s + length (st_src s) /\
  st_col s <= j < st_col s + row_len (st_src s) (i - st_row s).
Proof. exact in_stamp_iff. Qed.

Theorem C13_pads_def : forall s i j,
  pads s i j = true <-> st_row s <= i < st_row s + length (st_src s) /\ j < st_col s.
Proof. exact pads_iff. Qed.

Theorem C13_item_covers_def : forall rendered p i j,
  item_covers rendered p i j = existsb (fun s => in_stamp s i j) (stamps_of rendered p).
Proof. intros. reflexivity. Qed.

(* what is covered lies in the rectangle of C13_no_overlap / C13_item_inside_rect *)
Theorem C13_covers_inside_rect : forall cw rendered p i j,
  item_fits cw (nth (fst p) rendered ([], None)) ->
  item_covers rendered p i j = true ->
  fst (snd p) <= i < fst (snd p) + item_height (nth (fst p) rendered ([], None)) /\
  snd (snd p) <= j < snd (snd p) + cw.
Proof. intros cw rendered [i [rp cp]]. apply covers_inside_rect. Qed.

(* C13_blank_elsewhere: every cell of the rendered list that lies in no label and no item is a
   blank: the padding between columns, the short last row, the lines of a row below a short item,
   the ragged right edge of an item.  _partial: hypotheses on the sub-widgets as before. *)
Theorem C13_blank_elsewhere_partial : forall kind columns items forced spacing kp w b,
  (0 <= spacing)%Z ->
  (forall it w' b', In it items -> (0 < w')%Z -> render_tree it w' = ROk b' -> (Z.of_nat (buf_width b') <= w')%Z) ->
  (forall kp' i lb, kp = Some kp' -> label_buffer kp' i = ROk lb -> buf_width lb <= length (get_widget_label kp' i)) ->
  render_tree (WList kind columns items forced spacing kp) w = ROk b ->
  let cw := list_columns_width columns forced spacing w in
  let omap := ordered_map kind (length items) (Z.to_nat columns) in
  exists rendered,
    render_all_items render_tree items 0 cw kp = ROk rendered /\
    let lpr := lines_per_every_row omap (map item_height rendered) in
    forall y x ch, cell b y x = Some ch ->
      (forall k r i, k < length omap -> nth_error (nth k omap []) r = Some i ->
         item_covers rendered (i, (rowstart lpr r, k * Z.to_nat (cw + spacing))) y x = false) ->
      ch = SP.
Proof.
  intros kind columns items forced spacing kp w b Hs Hitems _ H. apply (list_rendered _ _ _ _ _ _ _ _ _ H).
  intros rendered Hr. exact (rl_blank_elsewhere _ _ _ _ _ _ _ _ _ Hs Hitems H Hr).
Qed.

Theorem C13_blank_elsewhere : forall kind columns items forced spacing kp w b,
  (0 <= spacing)%Z -> Forall plain_tree items ->
  render_tree (WList kind columns items forced spacing kp) w = ROk b ->
  let cw := list_columns_width columns forced spacing w in
  let omap := ordered_map kind (length items) (Z.to_nat columns) in
  exists rendered,
    render_all_items render_tree items 0 cw kp = ROk rendered /\
    let lpr := lines_per_every_row omap (map item_height rendered) in
    forall y x ch, cell b y x = Some ch ->
      (forall k r i, k < length omap -> nth_error (nth k omap []) r = Some i ->
         item_covers rendered (i, (rowstart lpr r, k * Z.to_nat (cw + spacing))) y x = false) ->
      ch = SP.
Proof.
  intros kind columns items forced spacing kp w b Hs Hall H. apply (list_rendered _ _ _ _ _ _ _ _ _ H).
  intros rendered Hr. exact (rl_blank_elsewhere _ _ _ _ _ _ _ _ _ Hs (plain_items_width _ Hall) H Hr).
Qed.

(* the same with the rectangles  rows [rowstart r, rowstart r + item_height) x columns
   [k*(cw+s), k*(cw+s) + cw)  of C13_no_overlap: a cell outside every rectangle is a blank *)
Theorem C13_blank_outside_rects_partial : forall kind columns items forced spacing kp w b,
  (0 <= spacing)%Z ->
  (forall it w' b', In it items -> (0 < w')%Z -> render_tree it w' = ROk b' -> (Z.of_nat (buf_width b') <= w')%Z) ->
  (forall kp' i lb, kp = Some kp' -> label_buffer kp' i = ROk lb -> buf_width lb <= length (get_widget_label kp' i)) ->
  render_tree (WList kind columns items forced spacing kp) w = ROk b ->
  let cw := list_columns_width columns forced spacing w in
  let omap := ordered_map kind (length items) (Z.to_nat columns) in
  exists rendered,
    render_all_items render_tree items 0 cw kp = ROk rendered /\
    let lpr := lines_per_every_row omap (map item_height rendered) in
    forall y x ch, cell b y x = Some ch ->
      (forall k r i, k < length omap -> nth_error (nth k omap []) r = Some i ->
         ~ (rowstart lpr r <= y < rowstart lpr r + item_height (nth i rendered ([], None)) /\
            k * Z.to_nat (cw + spacing) <= x < k * Z.to_nat (cw + spacing) + Z.to_nat cw)) ->
      ch = SP.
Proof.
  intros kind columns items forced spacing kp w b Hs Hitems _ H. apply (list_rendered _ _ _ _ _ _ _ _ _ H).
  intros rendered Hr. exact (rl_blank_outside_rects _ _ _ _ _ _ _ _ _ Hs Hitems H Hr).
Qed.

Theorem C13_blank_outside_rects : forall kind columns items forced spacing kp w b,
  (0 <= spacing)%Z -> Forall plain_tree items ->
  render_tree (WList kind columns items forced spacing kp) w = ROk b ->
  let cw := list_columns_width columns forced spacing w in
  let omap := ordered_map kind (length items) (Z.to_nat columns) in
  exists rendered,
    render_all_items render_tree items 0 cw kp = ROk rendered /\
    let lpr := lines_per_every_row omap (map item_height rendered) in
    forall y x ch, cell b y x = Some ch ->
      (forall k r i, k < length omap -> nth_error (nth k omap []) r = Some i ->
         ~ (rowstart lpr r <= y < rowstart lpr r + item_height (nth i rendered ([], None)) /\
            k * Z.to_nat (cw + spacing) <= x < k * Z.to_nat (cw + spacing) + Z.to_nat cw)) ->
      ch = SP.
Proof.
  intros kind columns items forced spacing kp w b Hs Hall H. apply (list_rendered _ _ _ _ _ _ _ _ _ H).
  intros rendered Hr. exact (rl_blank_outside_rects _ _ _ _ _ _ _ _ _ Hs (plain_items_width _ Hall) H Hr).
Qed.

(* C13_render_determined: the rendered buffer is, cell for cell, the function [spec_cell] of its
   stamps — the content of the stamp that covers the cell (any stamp that covers it: third
   conjunct), a blank where some stamp on that row starts further right, no cell otherwise (fourth
   conjunct) — and its height is the lowest bottom edge of a stamp.  With C13_buffer_ext (height and
   cells determine a buffer) the layout theorems characterise the output completely. *)
Theorem C13_spec_cell_def : forall stamps i j,
  spec_cell stamps i j =
  match content stamps i j with
  | Some ch => Some ch
  | None => if existsb (fun s => pads s i j) stamps then Some SP else None
  end.
Proof. intros. reflexivity. Qed.

Theorem C13_content_def : forall s rest i j,
  content [] i j = None /\
  content (s :: rest) i j =
  match content rest i j with
  | Some ch => Some ch
  | None => if in_stamp s i j then cell (st_src s) (i - st_row s) (j - st_col s) else None
  end.
Proof. intros. split; reflexivity. Qed.

Theorem C13_buffer_ext : forall b1 b2 : buffer,
  length b1 = length b2 -> (forall i j, cell b1 i j = cell b2 i j) -> b1 = b2.
Proof. exact buffer_ext. Qed.

Theorem C13_render_determined_partial : forall kind columns items forced spacing kp w b,
  (0 <= spacing)%Z ->
  (forall it w' b', In it items -> (0 < w')%Z -> render_tree it w' = ROk b' -> (Z.of_nat (buf_width b') <= w')%Z) ->
  (forall kp' i lb, kp = Some kp' -> label_buffer kp' i = ROk lb -> buf_width lb <= length (get_widget_label kp' i)) ->
  render_tree (WList kind columns items forced spacing kp) w = ROk b ->
  let cw := list_columns_width columns forced spacing w in
  let omap := ordered_map kind (length items) (Z.to_nat columns) in
  exists rendered,
    render_all_items render_tree items 0 cw kp = ROk rendered /\
    Forall (item_fits (Z.to_nat cw)) rendered /\
    let ps := all_placements omap (lines_per_every_row omap (map item_height rendered)) 0 (Z.to_nat (cw + spacing)) in
    let stamps := list_stamps rendered ps in
    length b = spec_height stamps /\
    (forall i j, cell b i j = spec_cell stamps i j) /\
    (forall i j s, In s stamps -> in_stamp s i j = true ->
                   cell b i j = cell (st_src s) (i - st_row s) (j - st_col s)) /\
    (forall i j, (forall s, In s stamps -> in_stamp s i j = false) ->
                 cell b i j = if existsb (fun s => pads s i j) stamps then Some SP else None).
Proof.
  intros kind columns items forced spacing kp w b Hs Hitems _ H. apply (list_rendered _ _ _ _ _ _ _ _ _ H).
  intros rendered Hr. exact (render_list_determined _ _ _ _ _ _ _ _ _ Hs Hitems H Hr).
Qed.

Theorem C13_render_determined : forall kind columns items forced spacing kp w b,
  (0 <= spacing)%Z -> Forall plain_tree items ->
  render_tree (WList kind columns items forced spacing kp) w = ROk b ->
  let cw := list_columns_width columns forced spacing w in
  let omap := ordered_map kind (length items) (Z.to_nat columns) in
  exists rendered,
    render_all_items render_tree items 0 cw kp = ROk rendered /\
    Forall (item_fits (Z.to_nat cw)) rendered /\
    let ps := all_placements omap (lines_per_every_row omap (map item_height rendered)) 0 (Z.to_nat (cw + spacing)) in
    let stamps := list_stamps rendered ps in
    length b = spec_height stamps /\
    (forall i j, cell b i j = spec_cell stamps i j) /\
    (forall i j s, In s stamps -> in_stamp s i j = true ->
                   cell b i j = cell (st_src s) (i - st_row s) (j - st_col s)) /\
    (forall i j, (forall s, In s stamps -> in_stamp s i j = false) ->
                 cell b i j = if existsb (fun s => pads s i j) stamps then Some SP else None).
Proof.
  intros kind columns items forced spacing kp w b Hs Hall H. apply (list_rendered _ _ _ _ _ _ _ _ _ H).
  intros rendered Hr. exact (render_list_determined _ _ _ _ _ _ _ _ _ Hs (plain_items_width _ Hall) H Hr).
Qed.

(* non-vacuity *)
Local Open Scope N_scope.
Example C13_example :
  let t := fun s => WText (simple_text s) in
  let items := [t [97;97;97;32;98;98]; t []; t [99]; t [100;100;32;101;101;32;102;102]; t [103]] in
  ordered_map_row 5 2 = [[0;2;4]; [1;3]]%nat /\
  ordered_map_col 5 2 = [[0;1;2]; [3;4]]%nat /\
  (* "1) aaa  2)" / "   bb" / "3) c    4) dd" / "           ee" ... : the empty item 2 keeps its row *)
  render_tree (WList KRow 2%Z items None 2%Z (Some default_pattern)) 14%Z =
    ROk [[49;41;32;97;97;97;32;32;50;41];
         [32;32;32;98;98];
         [51;41;32;99;32;32;32;32;52;41;32;100;100];
         [32;32;32;32;32;32;32;32;32;32;32;101;101];
         [32;32;32;32;32;32;32;32;32;32;32;102;102];
         [53;41;32;103]] /\
  render_tree (WList KRow 2%Z items None 2%Z (Some default_pattern)) 9%Z = RValueError /\
  lines_per_every_row (ordered_map_row 5 2) [2;1;1;3;1]%nat = [2;3;1]%nat.
Proof. vm_compute. repeat split. Qed.

(* the hypotheses of C13_within_width are satisfiable: a list in a list in a window is a plain tree *)
Example C13_example_plain :
  let t := fun s => WText (simple_text s) in
  let inner := WList KCol 2%Z [t [97;97]; t [98]; t [99;99;99]] None 1%Z (Some default_pattern) in
  plain_tree (WWindow (Some (simple_text [84])) [WList KRow 2%Z [inner; t [100]] None 3%Z None; WCenter inner; WSep 1]).
Proof.
  unfold plain_tree. repeat (constructor; try exact I; try (intros; exact I); try (vm_compute; discriminate)).
Qed.

(* blank elsewhere / determined on a 2-column x 3-row container with a short last row and items of
   1, 0, 1, 3 and 1 lines ("aaa bb" wraps to 2):
     "1) aaa  2)" / "   bb" / "3) c    4) dd" / "           ee" / "           ff" / "5) g"
   10 stamps (5 labels, 5 items), height 6; on the 8 x 16 grid of positions the buffer equals
   spec_cell everywhere; of its 58 cells 23 are covered by a label or an item and the other 35
   (padding between the columns, left of "bb"/"ee"/"ff", between label and item) are blanks *)
Example C13_example_blank :
  let t := fun s => WText (simple_text s) in
  let items := [t [97;97;97;32;98;98]; t []; t [99]; t [100;100;32;101;101;32;102;102]; t [103]] in
  let omap := ordered_map KRow 5 2 in
  let opt_eqb := fun a b : option char =>
    match a, b with Some x, Some y => (x =? y)%N | None, None => true | _, _ => false end in
  match render_all_items render_tree items 0 6%Z (Some default_pattern),
        render_tree (WList KRow 2%Z items None 2%Z (Some default_pattern)) 14%Z with
  | ROk rendered, ROk b =>
    let stamps := list_stamps rendered (all_placements omap (lines_per_every_row omap (map item_height rendered)) 0 8) in
    let grid := list_prod (seq 0 8) (seq 0 16) in
    let covered := fun yx : nat * nat => existsb (fun s => in_stamp s (fst yx) (snd yx)) stamps in
    length stamps = 10%nat /\ length b = 6%nat /\ spec_height stamps = 6%nat /\
    forallb (fun yx => opt_eqb (cell b (fst yx) (snd yx)) (spec_cell stamps (fst yx) (snd yx))) grid = true /\
    length (filter (fun yx => match cell b (fst yx) (snd yx) with Some _ => true | None => false end) grid) = 58%nat /\
    length (filter covered grid) = 23%nat /\
    length (filter (fun yx => negb (covered yx) && opt_eqb (cell b (fst yx) (snd yx)) (Some SP)) grid) = 35%nat
  | _, _ => False
  end.
Proof. vm_compute. repeat split. Qed.

Print Assumptions C13_order_row_columns.
Print Assumptions C13_order_row.
Print Assumptions C13_order_row_only.
Print Assumptions C13_order_row_increasing.
Print Assumptions C13_order_row_partition.
Print Assumptions C13_order_row_once.
Print Assumptions C13_order_col_columns.
Print Assumptions C13_order_col.
Print Assumptions C13_order_col_only.
Print Assumptions C13_order_col_increasing.
Print Assumptions C13_order_col_major.
Print Assumptions C13_order_col_partition.
Print Assumptions C13_columns_width_def.
Print Assumptions C13_refusal.
Print Assumptions C13_refused_narrow.
Print Assumptions C13_refused_label.
Print Assumptions C13_row_heights.
Print Assumptions C13_row_items_row.
Print Assumptions C13_row_items_col.
Print Assumptions C13_row_height_fits.
Print Assumptions C13_row_height_attained.
Print Assumptions C13_row_count.
Print Assumptions C13_item_height_numbered.
Print Assumptions C13_item_height_plain.
Print Assumptions C13_within_width_partial.
Print Assumptions C13_width_bound_partial.
Print Assumptions C13_within_width_nested_partial.
Print Assumptions C13_layout_partial.
Print Assumptions C13_placements.
Print Assumptions C13_rowstart.
Print Assumptions C13_no_overlap.
Print Assumptions C13_item_inside_rect.
Print Assumptions C13_shows_def.
Print Assumptions C13_item_shown_def.
Print Assumptions C13_cells_partial.
Print Assumptions C13_plain_tree_def.
Print Assumptions C13_within_width.
Print Assumptions C13_width_bound.
Print Assumptions C13_layout.
Print Assumptions C13_cells.
Print Assumptions C13_refused_label_texts.
Print Assumptions C13_stamps_of_def.
Print Assumptions C13_list_stamps.
Print Assumptions C13_in_stamp_def.
Print Assumptions C13_pads_def.
Print Assumptions C13_item_covers_def.
Print Assumptions C13_covers_inside_rect.
Print Assumptions C13_blank_elsewhere_partial.
Print Assumptions C13_blank_elsewhere.
Print Assumptions C13_blank_outside_rects_partial.
Print Assumptions C13_blank_outside_rects.
Print Assumptions C13_spec_cell_def.
Print Assumptions C13_content_def.
Print Assumptions C13_buffer_ext.
Print Assumptions C13_render_determined_partial.
Print Assumptions C13_render_determined.

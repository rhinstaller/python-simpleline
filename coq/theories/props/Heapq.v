(* Heapq — auxiliary theorems (not a numbered property): CPython's heapq, as used by queue.PriorityQueue under
   simpleline's EventQueue, refines the abstract queue (q_put / q_pop of LoopSem.v) on which every event-loop
   property is proved.  This removes "PriorityQueue.get() returns the least entry" from what is taken on trust:
   what remains trusted is that Heapq.v transcribes Lib/heapq.py (checked by checks/heapq_corr.py against the
   real heapq, C and pure-Python versions, and queue.PriorityQueue) and that tuples whose (priority, counter)
   pairs differ compare by [entry_lt].
   The theorems are about the EXACT CPython algorithm: _siftup bubbles the smaller child up until a leaf is
   reached and then calls _siftdown (not the textbook early-exit variant).
   Theorem statements; the proofs are lemmas of proofs/HeapqProofs.v; the examples are evaluated or follow from
   those lemmas. *)
From Coq Require Import ZArith NArith List Bool Permutation.
Require Import SL.LoopSem SL.Heapq SL.proofs.LoopLink SL.proofs.HeapqProofs.
Import ListNotations.

(* the heap-shape invariant: no element is below its parent *)
Theorem Heapq_heap_inv_def : forall h,
  heap_inv h <->
  (forall i a b, 0 < i -> nth_error h i = Some a -> nth_error h ((i - 1) / 2) = Some b -> entry_lt a b = false).
Proof. intros h. reflexivity. Qed.

(* 1. the invariant holds for [] and is kept by heappush and heappop: it holds for every reachable list *)
Theorem Heapq_inv_nil : heap_inv [].
Proof. exact heap_inv_nil. Qed.
Theorem Heapq_inv_push : forall h e, heap_inv h -> heap_inv (heappush h e).
Proof. exact heappush_inv. Qed.
Theorem Heapq_inv_pop : forall h m h', heap_inv h -> heappop h = Some (m, h') -> heap_inv h'.
Proof. exact heappop_inv. Qed.
Theorem Heapq_inv_reachable : forall h, heap_reachable h -> heap_inv h.
Proof. exact heap_reachable_inv. Qed.

(* 2. nothing is lost, nothing is duplicated (no invariant needed) *)
Theorem Heapq_heappush_perm : forall h e, Permutation (heappush h e) (e :: h).
Proof. exact heappush_perm. Qed.
Theorem Heapq_heappop_perm : forall h m h', heappop h = Some (m, h') -> Permutation h (m :: h').
Proof. exact heappop_perm. Qed.

(* 3. heappop returns the root, and the root of a heap is a least element *)
Theorem Heapq_heappop_root : forall h m h', heappop h = Some (m, h') -> nth_error h 0 = Some m.
Proof. exact heappop_root. Qed.
Theorem Heapq_heappop_min : forall h m h', heap_inv h -> heappop h = Some (m, h') ->
  forall e, In e h' -> entry_lt e m = false.
Proof. exact heappop_min. Qed.

(* 4. the refinement: a heap whose content is that of a well-formed abstract queue (arrival counters pairwise
   distinct: [qwf]) pops exactly what q_pop pops and stays in correspondence; a put keeps the correspondence;
   heappop fails (IndexError: the real PriorityQueue.get() blocks) exactly when q_pop has nothing *)
Theorem Heapq_heap_refines : forall h q m h',
  heap_inv h -> Permutation h (eq_entries q) -> qwf q -> heappop h = Some (m, h') ->
  exists q', q_pop q = Some (m, q') /\ Permutation h' (eq_entries q').
Proof. exact heap_refines. Qed.
Theorem Heapq_heap_refines_none : forall h q,
  Permutation h (eq_entries q) -> (heappop h = None <-> q_pop q = None).
Proof. exact heap_refines_none. Qed.
Theorem Heapq_heap_refines_put : forall h q s,
  Permutation h (eq_entries q) ->
  Permutation (heappush h (sg_prio s, eq_counter q, s)) (eq_entries (q_put q s)).
Proof. exact heap_refines_put. Qed.

(* the general simulation, from any pair of corresponding states ... *)
Theorem Heapq_run_refines : forall ops h q,
  heap_inv h -> Permutation h (eq_entries q) -> qwf q -> run_heap ops h (eq_counter q) = run_abs ops q.
Proof. exact run_refines. Qed.
(* ... and from the empty queue: for every sequence of put(signal) / get() the concrete EventQueue (heapq list +
   itertools.count) and the abstract one return the same entries in the same order *)
Theorem Heapq_sequence_refines : forall ops, run_heap ops [] 0 = run_abs ops empty_queue.
Proof. intros ops. apply (run_refines ops [] empty_queue); [apply heap_inv_nil|constructor|apply qwf_empty]. Qed.

(* 5. termination and absence of IndexError: the fuel (= the length of the list) always suffices, every heap[i]
   is in range; so the fall-back branches in the definitions of heappush / heappop are never taken and
   [heappop h = None] means "pop from an empty list" *)
Theorem Heapq_siftdown_fuel_ok : forall h pos x, pos < length h ->
  siftdown_loop (length h) h 0 pos x <> OutOfFuel /\ siftdown_loop (length h) h 0 pos x <> IndexError.
Proof. exact siftdown_fuel_ok. Qed.
Theorem Heapq_siftup_fuel_ok : forall h, h <> [] ->
  siftup_loop (length h) h 0 (length h) <> OutOfFuel /\ siftup_loop (length h) h 0 (length h) <> IndexError /\
  siftup h 0 <> OutOfFuel /\ siftup h 0 <> IndexError.
Proof. exact siftup_fuel_ok. Qed.
Theorem Heapq_heappush_total : forall h e, heappush_res h e = Done (heappush h e).
Proof. exact heappush_res_ok. Qed.
Theorem Heapq_heappop_total : forall h, h <> [] ->
  exists m h', heappop_res h = Done (m, h') /\ heappop h = Some (m, h').
Proof. exact heappop_res_ok. Qed.
Theorem Heapq_heappop_none : forall h, heappop h = None <-> h = [].
Proof. exact heappop_none. Qed.

(* 6. examples.  Four signals of equal priority (ids 0..3) come out in arrival order: the counter is in the key
   (compare C01_legacy_refuted in props/C01.v: without it the same heap code gives 0,2,1,3) *)
Definition sig_ex (id : nat) (p : Z) : signal :=
  mk_signal id {| sp_cls := 1; sp_prio := p; sp_src := None; sp_a := 0; sp_b := false; sp_data := [] |}.
Definition popped_ids (l : list (option entry)) : list (option nat) :=
  map (option_map (fun e : entry => sg_id (snd e))) l.

Example Heapq_example_fifo :
  popped_ids (run_heap [QPut (sig_ex 0 0); QPut (sig_ex 1 0); QPut (sig_ex 2 0); QPut (sig_ex 3 0);
                        QGet; QGet; QGet; QGet; QGet] [] 0)
  = [Some 0; Some 1; Some 2; Some 3; None].
Proof. vm_compute. reflexivity. Qed.

(* mixed priorities, interleaved gets *)
Definition ops_ex : list qop :=
  [QPut (sig_ex 0 5); QPut (sig_ex 1 0); QPut (sig_ex 2 5); QPut (sig_ex 3 (-20)); QPut (sig_ex 4 0); QGet;
   QPut (sig_ex 5 0); QPut (sig_ex 6 (-20)); QGet; QGet; QGet; QGet; QGet; QGet; QGet].
Example Heapq_example_mixed :
  popped_ids (run_heap ops_ex [] 0) = [Some 3; Some 6; Some 1; Some 4; Some 5; Some 0; Some 2; None] /\
  run_heap ops_ex [] 0 = run_abs ops_ex empty_queue.
Proof. vm_compute. split; reflexivity. Qed.

(* the hypotheses of Heapq_heap_refines hold together on a non-trivial pair of states *)
Example Heapq_example_hyps :
  let q := q_put (q_put (q_put empty_queue (sig_ex 0 5)) (sig_ex 1 0)) (sig_ex 2 5) in
  let h := heappush (heappush (heappush [] (5%Z, 0, sig_ex 0 5)) (0%Z, 1, sig_ex 1 0)) (5%Z, 2, sig_ex 2 5) in
  heap_inv h /\ Permutation h (eq_entries q) /\ qwf q /\
  map (fun e : entry => sg_id (snd e)) h = [1; 0; 2] /\ map (fun e : entry => sg_id (snd e)) (eq_entries q) = [0; 1; 2] /\
  exists h', heappop h = Some ((0%Z, 1, sig_ex 1 0), h').
Proof.
  cbv zeta. split; [|split; [|split; [|split; [|split]]]].
  - repeat apply heappush_inv. apply heap_inv_nil.
  - apply (heap_refines_put _ (q_put (q_put empty_queue (sig_ex 0 5)) (sig_ex 1 0)) (sig_ex 2 5)).
    apply (heap_refines_put _ (q_put empty_queue (sig_ex 0 5)) (sig_ex 1 0)).
    apply (heap_refines_put _ empty_queue (sig_ex 0 5)). constructor.
  - repeat apply q_put_qwf. apply qwf_empty.
  - vm_compute. reflexivity.
  - vm_compute. reflexivity.
  - vm_compute. eexists. reflexivity.
Qed.

Example Heapq_example_shape :
  let h := fold_left (fun h k => heappush h (0%Z, k, sig_ex k 0)) [6; 5; 4; 3; 2; 1; 0] [] in
  map (fun e : entry => snd (fst e)) h = [0; 3; 1; 6; 4; 5; 2] /\
  (exists m h', heappop h = Some (m, h') /\ snd (fst m) = 0 /\ map (fun e : entry => snd (fst e)) h' = [1; 3; 2; 6; 4; 5]).
Proof. vm_compute. split; [reflexivity|]. eexists. eexists. split; [reflexivity|split; reflexivity]. Qed.

Print Assumptions Heapq_heap_inv_def.
Print Assumptions Heapq_inv_nil.
Print Assumptions Heapq_inv_push.
Print Assumptions Heapq_inv_pop.
Print Assumptions Heapq_inv_reachable.
Print Assumptions Heapq_heappush_perm.
Print Assumptions Heapq_heappop_perm.
Print Assumptions Heapq_heappop_root.
Print Assumptions Heapq_heappop_min.
Print Assumptions Heapq_heap_refines.
Print Assumptions Heapq_heap_refines_none.
Print Assumptions Heapq_heap_refines_put.
Print Assumptions Heapq_run_refines.
Print Assumptions Heapq_sequence_refines.
Print Assumptions Heapq_siftdown_fuel_ok.
Print Assumptions Heapq_siftup_fuel_ok.
Print Assumptions Heapq_heappush_total.
Print Assumptions Heapq_heappop_total.
Print Assumptions Heapq_heappop_none.

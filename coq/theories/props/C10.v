(* C10 — waiting for a signal wakes up for that signal, and only for it.
   Theorem statements: every proof is [exact] of a lemma (or an instance of one) of proofs/TicketProofs.v or
   proofs/C10Proofs.v; the examples are computed. *)
From Coq Require Import ZArith NArith List Bool.
From SL Require Import LoopSem LoopProg Monitors LegacyTicket proofs.TicketProofs proofs.C10Proofs.
Import ListNotations.

(* 1. every session, every handler code.
   The acceptor chk_C10 (Monitors.v) accepts every event of every trace the loop can produce:
   - process_signals(return_after=c) returns (EProcReturn (Some c) t) only for an outstanding waiter with
     that ticket and class, after a signal whose class is exactly c was dispatched since the call began
     (at any nesting depth), or after the loops were told to stop (close_loop / force_quit);
   - a waiter that has been released dispatches nothing more in its own frame;
   - inside process_signals() all own-depth dispatches have the priority of the first one.
   Quantified over the user state type, every handler code (arbitrary Gallina terms of type prog over the API, hence
   every nesting of waiting and non-waiting calls and every set of simultaneous waiters), every fuel, every
   list of top-level calls (hence every queue content). *)
Theorem C10_waiting :
  forall U (code : nat -> signal -> nat -> prog U) fuel acts (u : U),
    ok_C10 (rev (trace (snd (run_session code fuel acts (init_state u))))) = true.
Proof. exact @C10_waiting_proof. Qed.

(* at the end of a session: when the loop's own run flag is down, so is the one an observer reconstructs from
   the trace, and the force-quit flags agree (what makes "or the loop quited" observable) *)
Theorem C10_stop_flag_link :
  forall U (code : nat -> signal -> nat -> prog U) fuel acts (u : U),
    let s := snd (run_session code fuel acts (init_state u)) in
    let w := world_of (rev (trace s)) in
    force_quit s = w_fq w /\ (run_loop s = false -> w_runloop w = false).
Proof. exact @stop_flag_link. Qed.

(* 2. the ticket machine alone.
   For every sequence of operations: the check answers True exactly for a ticket taken on that line, whose
   line was marked after the take (first such mark), and not checked since that mark (a check after the
   mark is successful and removes the ticket) *)
Theorem C10_ticket_machine : forall ops line id,
  (exists tm', check_ticket (run_ops ops) line id = Some (true, tm')) <->
  (exists pre mid post,
      ops = pre ++ TkTake line :: mid ++ TkMark line :: post /\ takes pre = id /\
      ~ In (TkMark line) mid /\ ~ In (TkCheck line id) post).
Proof. exact ticket_machine_released. Qed.

(* ... and answers False, keeping the ticket, exactly for a ticket taken and not marked since *)
Theorem C10_ticket_machine_waiting : forall ops line id,
  check_ticket (run_ops ops) line id = Some (false, run_ops ops) <->
  (exists pre mid, ops = pre ++ TkTake line :: mid /\ takes pre = id /\ ~ In (TkMark line) mid).
Proof. exact ticket_machine_waiting. Qed.

(* one mark releases ALL tickets outstanding on the line (concurrent waiters on the same class) *)
Theorem C10_mark_releases_all : forall tm line id,
  check_ticket tm line id <> None ->
  exists tm', check_ticket (mark_line_to_go tm line) line id = Some (true, tm').
Proof. exact mark_releases_all. Qed.

(* ... and none on another line (signals of other classes) *)
Theorem C10_mark_other_line_untouched : forall tm line line' id,
  line' <> line ->
  option_map fst (check_ticket (mark_line_to_go tm line) line' id) = option_map fst (check_ticket tm line' id).
Proof. exact mark_other_line_untouched. Qed.

(* a dispatch that preceded the call does not satisfy it: a ticket taken after the mark is not released *)
Theorem C10_not_before : forall ops line,
  let tm := mark_line_to_go (run_ops ops) line in
  let '(id, tm') := take_ticket tm line in
  check_ticket tm' line id = Some (false, tm').
Proof. intros ops line. exact (not_before _ line (run_ops_wf ops)). Qed.

(* tickets are fresh *)
Theorem C10_take_fresh : forall ops line line',
  check_ticket (run_ops ops) line' (fst (take_ticket (run_ops ops) line)) = None.
Proof. intros ops line line'. exact (take_fresh _ line line' (run_ops_wf ops)). Qed.

(* 3. the non-waiting form does not wait: on an empty queue it returns at once *)
Theorem C10_iteration_nonblocking :
  forall U (code : nat -> signal -> nat -> prog U) f (s : lstate U),
    q_empty (get_q s (active s)) = true ->
    exec code (S (S f)) (CApi (AProcess None)) s =
    (ONormal, emit (EProcReturn None 0) (emit (EProcEnter None 0) s)).
Proof. exact @iteration_nonblocking. Qed.

(* process_signals() is blocked only if a handler it started was: some EHandler event was added *)
Theorem C10_iteration_blocks_only_in_handler :
  forall U (code : nat -> signal -> nat -> prog U) f po (s s' : lstate U),
    exec code f (CProcIter po) s = (OBlocked, s') ->
    exists tr h sid d, trace s' = tr ++ trace s /\ In (EHandler h sid d) tr.
Proof. exact @iter_blocked. Qed.

(* 4. one priority batch: at the first head whose priority differs from the batch priority, the entry goes
   back and the call returns *)
Theorem C10_iteration_one_batch :
  forall U (code : nat -> signal -> nat -> prog U) f (s : lstate U) p0 p cnt sg q',
    q_pop (get_q s (active s)) = Some ((p, cnt, sg), q') -> run_loop s = true -> p <> p0 ->
    exec code (S f) (CProcIter (Some p0)) s =
    (ONormal, emit (ERequeue (sg_id sg) (active s)) (set_q s (active s) (q_put_entry q' (p, cnt, sg)))).
Proof. exact @iteration_stops_at_other_priority. Qed.

(* the batch priority is that of the first signal taken; heads of that priority are dispatched *)
Theorem C10_iteration_batch_priority :
  forall U (code : nat -> signal -> nat -> prog U) f (s : lstate U) po p cnt sg q',
    q_pop (get_q s (active s)) = Some ((p, cnt, sg), q') -> run_loop s = true ->
    po = None \/ po = Some p ->
    exec code (S f) (CProcIter po) s =
    (let '(o, s3) := exec code f (CProcessSignal sg 0)
                       (emit (EDispatch (sg_id sg) (active s) (length (levels s))) (set_q s (active s) q')) in
     match o with ONormal => exec code f (CProcIter (Some p)) s3 | _ => (o, s3) end).
Proof. exact @iteration_dispatches_batch_priority. Qed.

(* 5. the defect fixed by 7e1f12d (finding F12).
   With lines keyed by class NAME, a waiter is released by a dispatch of any class of the same name;
   keyed by the class itself (name = identity), only by its own class *)
Theorem C10_legacy_keying : forall name ops waited dispatched,
  legacy_wait_then_dispatch name (run_ops ops) waited dispatched = Some (name waited =? name dispatched)%nat.
Proof. intros name ops waited dispatched. exact (legacy_wait_then_dispatch_spec name _ waited dispatched (run_ops_wf ops)). Qed.

Example C10_legacy_refuted :
  let name := fun c : nat => match c with 1 | 2 => 7 | _ => c end in      (* classes 1 and 2 share a name *)
  legacy_wait_then_dispatch name tm_empty 1 2 = Some true /\             (* before the fix: released by the wrong class *)
  legacy_wait_then_dispatch (fun c => c) tm_empty 1 2 = Some false /\    (* after: not released *)
  legacy_wait_then_dispatch (fun c => c) tm_empty 1 1 = Some true.
Proof. vm_compute. repeat split. Qed.

(* 6. nested waiters on one class.
   Classes: 1 = W, 2 = X, 3 = Y, 4 = Z.  W's handler enqueues Y, Y, X, Z and waits for X; the first Y's handler
   waits for X too (nested, same class); the second Y's handler does not.  The single dispatch of X happens
   inside the nested call and releases both waiters; neither dispatches Z (the top-level process_signals()
   does, afterwards).  Checked against the real MainLoop. *)
Definition ex_bodies : list (list cmd) :=
  [ [CmEnqueue 3 0 None; CmEnqueue 3 0 None; CmEnqueue 2 0 None; CmEnqueue 4 0 None; CmProcess (Some 2); CmMark 100];
    [CmIfCount 1 [CmProcess (Some 2); CmMark 101] [CmMark 102]];
    [CmMark 103];
    [CmMark 104] ].
Definition ex_acts : list (top counters) :=
  [TProg (compile_cmds 0 [CmRegHandler 1 0 0; CmRegHandler 3 1 0; CmRegHandler 2 2 0; CmRegHandler 4 3 0;
                           CmEnqueue 1 0 None; CmProcess None])].
(* 1 sid = dispatch | 2 c t = wait enters | 3 c t = wait returns | 4 / 5 = process_signals() enters / returns | 6 tag = mark *)
Definition ex_view (e : event) : list (nat * nat * nat) :=
  match e with
  | EDispatch sid _ _ => [(1, sid, 0)]
  | EProcEnter (Some c) t => [(2, c, t)]
  | EProcReturn (Some c) t => [(3, c, t)]
  | EProcEnter None _ => [(4, 0, 0)]
  | EProcReturn None _ => [(5, 0, 0)]
  | EMark t => [(6, t, 0)]
  | _ => []
  end.

Example C10_example_nested_waiters :
  let '(os, st) := run_session (handler_prog ex_bodies) 100 ex_acts (init_state []) in
  os = [ONormal] /\
  ok_C10 (rev (trace st)) = true /\
  flat_map ex_view (rev (trace st)) =
    [ (4, 0, 0); (1, 0, 0);            (* process_signals(): W dispatched *)
      (2, 2, 0); (1, 1, 0);            (* outer wait for X (ticket 0): first Y dispatched *)
      (2, 2, 1); (1, 2, 0); (6, 102, 0);   (* nested wait for X (ticket 1): second Y dispatched *)
      (1, 3, 0); (6, 103, 0);          (* X dispatched inside the nested call *)
      (3, 2, 1); (6, 101, 0);          (* the nested wait returns *)
      (3, 2, 0); (6, 100, 0);          (* the outer wait returns without dispatching anything more *)
      (1, 4, 0); (6, 104, 0); (5, 0, 0) ].   (* Z is dispatched by the top-level call *)
Proof. vm_compute. repeat split. Qed.

(* non-vacuity of the monitor: it rejects a wait that returns without its signal, a released waiter that goes
   on dispatching, and a second batch *)
Example C10_monitor_rejects :
  ok_C10 [ESigNew 0 3 0%Z None; EEnq 0 0; EProcEnter (Some 2) 0; EDispatch 0 0 1; EDispatchEnd 0;
          EProcReturn (Some 2) 0] = false /\
  ok_C10 [ESigNew 0 2 0%Z None; EEnq 0 0; ESigNew 1 3 0%Z None; EEnq 1 0; EProcEnter (Some 2) 0;
          EDispatch 0 0 1; EDispatchEnd 0; EDispatch 1 0 1] = false /\
  ok_C10 [ESigNew 0 2 0%Z None; EEnq 0 0; ESigNew 1 3 5%Z None; EEnq 1 0; EProcEnter None 0;
          EDispatch 0 0 1; EDispatchEnd 0; EDispatch 1 0 1] = false /\
  ok_C10 [ESigNew 0 2 0%Z None; EEnq 0 0; EProcEnter (Some 2) 0; EDispatch 0 0 1; EDispatchEnd 0;
          EProcReturn (Some 2) 0] = true.
Proof. vm_compute. repeat split. Qed.

Print Assumptions C10_waiting.
Print Assumptions C10_stop_flag_link.
Print Assumptions C10_ticket_machine.
Print Assumptions C10_ticket_machine_waiting.
Print Assumptions C10_mark_releases_all.
Print Assumptions C10_mark_other_line_untouched.
Print Assumptions C10_not_before.
Print Assumptions C10_take_fresh.
Print Assumptions C10_iteration_nonblocking.
Print Assumptions C10_iteration_blocks_only_in_handler.
Print Assumptions C10_iteration_one_batch.
Print Assumptions C10_iteration_batch_priority.
Print Assumptions C10_legacy_keying.

(* C12 — a screen prints exactly its content then its prompt; paging loses nothing.
   Theorem statements; every proof is [exact] of a lemma in proofs/PagingProofs.v, PromptProofs.v, C12Proofs.v
   or WidgetProofs.v, except C12_paging_output_independent_of_typed (two instances of the theorem above it) and
   C12_separator and the examples, which hold by computation.
   Models: Paging.v (UIScreen._print_widget, show_all), Prompt.v (Prompt, text_prompt),
   Containers.v (WindowContainer.render).
   The paging theorems are stated for every screen height >= 3 (real height >= 1), which contains the
   heights >= 4 of the property text. *)
From Coq Require Import ZArith NArith List Sorting.Permutation Sorting.Sorted.
From SL Require Import PyInt Widget TextWrap Containers Paging Prompt
  proofs.PagingProofs proofs.PromptProofs proofs.C12Proofs.
Import ListNotations.

(* every content line is printed exactly once and in order, whatever the length *)
Theorem C12_paging_prints_all : forall lines H, (3 <= H)%Z ->
  prints_of (print_widget lines H) = lines.
Proof. exact paging_prints_all. Qed.

(* the shape of the output: with P = H - 2, full pages of exactly P lines, each followed by one
   press-ENTER prompt, then a last page of 1..P lines (0 lines only when there is no content) with no
   prompt after it; content shorter than P is a single page *)
Theorem C12_paging_pages : forall lines H, (3 <= H)%Z ->
  let P := Z.to_nat (H - 2) in
  exists full last,
    print_widget lines H = page_events (full ++ [last]) /\
    concat full ++ last = lines /\
    Forall (fun p => length p = P) full /\
    length last <= P /\
    (lines <> [] -> 1 <= length last) /\
    (length lines < P -> full = []).
Proof. exact print_widget_pages. Qed.

(* content that fits (fewer than P lines): printed, with no press-ENTER prompt *)
Theorem C12_paging_short_no_prompt : forall lines H, (3 <= H)%Z ->
  (Z.of_nat (length lines) < H - 2)%Z -> print_widget lines H = map PPrint lines.
Proof. exact paging_short_no_prompt. Qed.

(* the number of press-ENTER prompts: (n - 1) / P, i.e. 0 for n = 0 and ceil(n / P) - 1 otherwise *)
Theorem C12_paging_ask_count : forall lines H, (3 <= H)%Z ->
  count_asks (print_widget lines H) = (length lines - 1) / Z.to_nat (H - 2).
Proof. exact paging_ask_count. Qed.

Theorem C12_paging_ask_count_ceil : forall lines H, (3 <= H)%Z -> lines <> [] ->
  S (count_asks (print_widget lines H)) = (length lines + Z.to_nat (H - 2) - 1) / Z.to_nat (H - 2).
Proof. exact paging_ask_count_ceil. Qed.

(* the loop of _print_widget always finishes *)
Theorem C12_paging_terminates : forall lines H, (3 <= H)%Z -> ~ In POutOfFuel (print_widget lines H).
Proof. exact paging_terminates_In. Qed.

(* print_widget_in threads the list of typed lines through the same loop; for every height it is
   print_widget plus the bookkeeping of the typed lines: enough lines -> same events, one line consumed
   per prompt; too few -> the events up to and including the prompt it blocks at *)
Theorem C12_paging_in_agrees : forall lines H typed,
  print_widget_in lines H typed = in_spec (print_widget lines H) typed.
Proof. exact paging_in_spec. Qed.

(* with at least (n-1)/P typed lines the run finishes, consumes exactly the first (n-1)/P of them
   (the suffix is left untouched, in order) whatever they contain — empty line or any text — and what
   is written is print_widget lines H, which does not mention the typed lines *)
Theorem C12_paging_consumes_one_line_per_prompt : forall lines H typed, (3 <= H)%Z ->
  let asks := (length lines - 1) / Z.to_nat (H - 2) in
  asks <= length typed ->
  print_widget_in lines H typed =
  {| pr_events := print_widget lines H; pr_left := skipn asks typed; pr_status := PgDone |}.
Proof. exact paging_consumes_one_line_per_prompt. Qed.

Theorem C12_paging_output_independent_of_typed : forall lines H typed1 typed2, (3 <= H)%Z ->
  (length lines - 1) / Z.to_nat (H - 2) <= length typed1 ->
  (length lines - 1) / Z.to_nat (H - 2) <= length typed2 ->
  pr_events (print_widget_in lines H typed1) = pr_events (print_widget_in lines H typed2).
Proof.
  intros lines H t1 t2 HH H1 H2. rewrite (paging_consumes_one_line_per_prompt lines H t1 HH H1), (paging_consumes_one_line_per_prompt lines H t2 HH H2). reflexivity.
Qed.

(* with k < (n-1)/P typed lines the run blocks: status PgBlocked, every typed line consumed, the output
   is the prefix of print_widget's events ending with the (k+1)-th prompt, i.e. exactly the first k+1
   full pages ((k+1)*P content lines), each followed by its prompt *)
Theorem C12_paging_blocks_without_typed_line : forall lines H typed, (3 <= H)%Z ->
  let P := Z.to_nat (H - 2) in
  length typed < (length lines - 1) / P ->
  let r := print_widget_in lines H typed in
  pr_status r = PgBlocked /\ pr_left r = [] /\
  pr_events r = upto_ask (length typed) (print_widget lines H) /\
  prints_of (pr_events r) = firstn (S (length typed) * P) lines /\
  count_asks (pr_events r) = S (length typed) /\
  exists evs, pr_events r = evs ++ [PAskContinue].
Proof. exact paging_blocks_without_typed_line. Qed.

(* a window with a (non-empty) title: title lines, one blank line, then each item's own render, in
   the order added, and nothing else — and it renders exactly when title and items render *)
Theorem C12_window_titled : forall t items w b,
  t_text t <> [] ->
  (render_tree (WWindow (Some t) items) w = ROk b <->
   exists tb ibs, render_text t w = ROk tb /\
     Forall2 (fun it ib => render_tree it w = ROk ib) items ibs /\ b = tb ++ [[]] ++ concat ibs).
Proof. exact window_titled. Qed.

(* no title (None or ""): only the items *)
Theorem C12_window_untitled : forall title items w b,
  (title = None \/ exists t, title = Some t /\ t_text t = []) ->
  (render_tree (WWindow title items) w = ROk b <->
   exists ibs, Forall2 (fun it ib => render_tree it w = ROk ib) items ibs /\ b = concat ibs).
Proof. exact window_untitled. Qed.

(* add_separator(n) / add_with_separator(.., n) add a SeparatorWidget(n): exactly n blank lines *)
Theorem C12_separator : forall n w, render_tree (WSep n) w = ROk (repeat [] n).
Proof. reflexivity. Qed.

(* the lemma behind it: drawing at the cursor left by the previous draw appends *)
Theorem C12_draw_appends : forall b src,
  draw b (length b) 0 false src = (b ++ src, (length (b ++ src), 0)).
Proof. exact WidgetProofs.draw_end. Qed.

(* show_all = render the window, then page it: what is printed is the window's lines *)
Theorem C12_show_all : forall window w H evs,
  (3 <= H)%Z -> show_all window w H = ROk evs ->
  exists b, render_tree window w = ROk b /\ evs = print_widget b H /\ prints_of evs = b.
Proof. exact show_all_prints. Qed.

(* str comparison is the lexicographic order by code point (a proper prefix is smaller) *)
Theorem C12_str_lt_lexicographic : forall a b,
  str_lt a b <->
  (exists c r, b = a ++ c :: r) \/
  (exists p x y a' b', a = p ++ x :: a' /\ b = p ++ y :: b' /\ (x < y)%N).
Proof. exact str_lt_spec. Qed.

(* after any sequence of edits the dict has unique keys and holds exactly the options of the abstract
   map (last write wins, removed keys are gone), and the message is the last one set *)
Theorem C12_prompt_refines_map : forall m0 ops,
  let p := run_pops (new_prompt m0) ops in
  NoDup (dict_keys (p_options p)) /\
  (forall k, dict_get (p_options p) k = amap_of ops k) /\
  p_message p = amsg_of m0 ops.
Proof. exact prompt_refines_map. Qed.

(* the listed keys are strictly increasing, a permutation of the dict's keys, exactly the defined ones *)
Theorem C12_prompt_sorted : forall m0 ops,
  let p := run_pops (new_prompt m0) ops in
  let ks := sort_keys (dict_keys (p_options p)) in
  StronglySorted str_lt ks /\ Permutation ks (dict_keys (p_options p)) /\
  (forall k, In k ks <-> amap_of ops k <> None).
Proof. exact prompt_sorted. Qed.

(* the text: message, then "[" 'k' desc ", " ... "]", then ": " *)
Theorem C12_prompt_format : forall m0 ops,
  let p := run_pops (new_prompt m0) ops in
  prompt_str p =
  format_prompt (amsg_of m0 ops)
    (map (fun k => (k, default_desc (amap_of ops k))) (sort_keys (dict_keys (p_options p)))).
Proof. exact prompt_format. Qed.

(* all of it without the concrete dict: the string is the format of the strictly sorted list of
   exactly the defined keys ... *)
Theorem C12_prompt_str : forall m0 ops,
  exists ks,
    StronglySorted str_lt ks /\ (forall k, In k ks <-> amap_of ops k <> None) /\
    prompt_str (run_pops (new_prompt m0) ops)
    = format_prompt (amsg_of m0 ops) (map (fun k => (k, default_desc (amap_of ops k))) ks).
Proof. exact prompt_str_spec. Qed.

(* ... and that list is unique, so the string is determined by the abstract map and the message *)
Theorem C12_prompt_listing_unique : forall l1 l2,
  StronglySorted str_lt l1 -> StronglySorted str_lt l2 -> (forall k, In k l1 <-> In k l2) -> l1 = l2.
Proof. exact sorted_lt_unique. Qed.

Local Open Scope N_scope.

(* UIScreen.prompt(): the default prompt *)
Example C12_default_prompt :
  prompt_str (run_pops (new_prompt (Some DEFAULT_MESSAGE))
                [PAddRefresh REFRESH_DESCRIPTION; PAddContinue CONTINUE_DESCRIPTION; PAddQuit QUIT_DESCRIPTION])
  = (* "Please make a selection from the above ['c' to continue, 'q' to quit, 'r' to refresh]: " *)
    [80;108;101;97;115;101;32;109;97;107;101;32;97;32;115;101;108;101;99;116;105;111;110;32;102;114;111;109;
     32;116;104;101;32;97;98;111;118;101;32;
     91;39;99;39;32;116;111;32;99;111;110;116;105;110;117;101;44;32;
     39;113;39;32;116;111;32;113;117;105;116;44;32;
     39;114;39;32;116;111;32;114;101;102;114;101;115;104;93;58;32].
Proof. vm_compute. reflexivity. Qed.

(* edits with an overwrite, a removal and keys that are prefixes of each other: "ab" < "b", "a" < "ab" *)
Example C12_prompt_edits :
  prompt_str (run_pops (new_prompt None)
                [PAdd [98] [49]; PAdd [97;98] [50]; PAdd [97] [51]; PUpdate [98] [52]; PAdd [122] [53]; PRemove [122]])
  = (* "['a' 3, 'ab' 2, 'b' 4]: " *)
    [91; 39;97;39;32;51; 44;32; 39;97;98;39;32;50; 44;32; 39;98;39;32;52; 93;58;32].
Proof. vm_compute. reflexivity. Qed.

(* 25 lines at height 10: pages of 8, 8, 8, 1 lines and three prompts *)
Example C12_paging_25_at_10 :
  let lines := map (fun i => [N.of_nat i]) (seq 0 25) in
  let page a n := map (fun i => [N.of_nat i]) (seq a n) in
  print_widget lines 10 = page_events [page 0 8; page 8 8; page 16 8; page 24 1]%nat /\
  count_asks (print_widget lines 10) = 3%nat /\
  prints_of (print_widget lines 10) = lines.
Proof. vm_compute. repeat split. Qed.

(* a titled window with a text, a separator of 2 and a text, paged at height 5 *)
Example C12_window_example :
  let t s := simple_text s in
  show_all (WWindow (Some (t [84])) [WText (t [97]); WSep 2; WText (t [98; 10; 99])]) 80 5
  = ROk (page_events [[[84]; []; [97]]; [[]; []; [98]]; [[99]]]).
Proof. vm_compute. reflexivity. Qed.

(* 7 lines at height 4 (pages of 2, 2, 2, 1 lines; three prompts): three typed lines of different
   content ("", "q", "any text") are all consumed; two more would be left; with one only, the run
   blocks at the second prompt after 4 lines *)
Example C12_paging_consumes_example :
  let lines := map (fun i => [N.of_nat i]) (seq 0 7) in
  let page a n := map (fun i => [N.of_nat i]) (seq a n) in
  let evs := page_events [page 0 2; page 2 2; page 4 2; page 6 1]%nat in
  let t1 := [] in let t2 := [113] in let t3 := [97;110;121;32;116;101;120;116] in
  print_widget_in lines 4 [t1; t2; t3] = {| pr_events := evs; pr_left := []; pr_status := PgDone |} /\
  print_widget_in lines 4 [t3; t3; t1; t2; t1] = {| pr_events := evs; pr_left := [t2; t1]; pr_status := PgDone |} /\
  print_widget_in lines 4 [t2]
  = {| pr_events := map PPrint (page 0 2)%nat ++ PAskContinue :: map PPrint (page 2 2)%nat ++ [PAskContinue];
       pr_left := []; pr_status := PgBlocked |}.
Proof. vm_compute. repeat split. Qed.

Print Assumptions C12_paging_prints_all.
Print Assumptions C12_paging_pages.
Print Assumptions C12_paging_short_no_prompt.
Print Assumptions C12_paging_ask_count.
Print Assumptions C12_paging_ask_count_ceil.
Print Assumptions C12_paging_terminates.
Print Assumptions C12_paging_in_agrees.
Print Assumptions C12_paging_consumes_one_line_per_prompt.
Print Assumptions C12_paging_output_independent_of_typed.
Print Assumptions C12_paging_blocks_without_typed_line.
Print Assumptions C12_window_titled.
Print Assumptions C12_window_untitled.
Print Assumptions C12_separator.
Print Assumptions C12_draw_appends.
Print Assumptions C12_show_all.
Print Assumptions C12_str_lt_lexicographic.
Print Assumptions C12_prompt_refines_map.
Print Assumptions C12_prompt_sorted.
Print Assumptions C12_prompt_format.
Print Assumptions C12_prompt_str.
Print Assumptions C12_prompt_listing_unique.

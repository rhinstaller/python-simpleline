(* C17sep — the separator clause of C17 (the other clauses are in props/C17.v):
   "Every screen draw is preceded by the two-line separator of exactly the configured width unless the screen
    disables it."  (The width of the separator is C17_separator_width in props/C17.v; here: WHEN it is printed.)
   C17_separator_every_draw is a projection of proofs/InputLink.v [all_accepted] (through [accepted_by]);
   C17_separator_meaning is [exact] of a lemma of proofs/C17sepProofs.v; the example is computed.

   Model: ScreenSem.v ([draw_screen]: T_SEPARATOR [scr] is the event of printing the separator, T_SHOW [entry; scr]
   the event of show_all()).  Property: the acceptor [chk_C17sep nosep] of ScreenMon.v, nosep = the screens'
   no_separator flags: every T_SHOW [id; scr] is immediately preceded (previous screen-layer event) by
   T_SEPARATOR [scr] iff the screen does not disable it, and T_SEPARATOR is only emitted for screens that do not.
   [wf_session]: every screen id used by the session's commands, and the quit screen, is one of the session's screens,
   and every SConnect names one of the seven callbacks (k < 7). *)
From Coq Require Import ZArith NArith List Bool.
From SL Require Import PyInt LoopSem ScreenSem ScreenMon proofs.InputLink proofs.C17sepProofs.
Import ListNotations.

(* every well-formed session of the model (any screens, any typed lines, any actions, any fuel) is accepted *)
Theorem C17_separator_every_draw : forall specs specl typed quit run_empty fuel acts,
  (forall n, specs n = nth n specl default_spec) -> wf_session specl quit acts = true ->
  sok (chk_C17sep (map sc_no_separator specl)) typed
      (rev (trace (snd (app_run_all specs specl typed quit run_empty fuel acts)))) = true.
Proof.
  intros specs specl typed quit run_empty fuel acts.
  apply (accepted_by (chk_C17sep (map sc_no_separator specl)) false). intros w e H. apply (chk_all_split _ _ _ _ _ H).
Qed.

(* what the acceptor says about one draw: the previous screen-layer event is this screen's separator exactly when
   the screen does not disable it *)
Theorem C17_separator_meaning : forall nosep w id scr t,
  chk_C17sep nosep w (EUser T_SHOW [id; scr] t) = true ->
  (nth scr nosep false = false <-> exists pa, sw_prev_user w = Some (T_SEPARATOR, pa) /\ nth0 pa 0 = scr).
Proof. exact C17sep_show_meaning. Qed.

(* a session with 5 draws, 2 of them of a screen that disables the separator; and the monitor is not vacuous:
   a draw without its separator, and a separator for a screen that disables it, are rejected *)
Example C17sep_example :
  wf_session ex17_specl None ex17_acts = true /\
  sok (chk_C17sep (map sc_no_separator ex17_specl)) ex17_typed ex17_trace = true /\
  count_tag T_SHOW ex17_trace = 5 /\ count_tag T_SEPARATOR ex17_trace = 3 /\
  sok (chk_C17sep [false]) [] [EUser T_SHOW [0; 0] []] = false /\
  sok (chk_C17sep [true]) [] [EUser T_SEPARATOR [0] []; EUser T_SHOW [0; 0] []] = false /\
  sok (chk_C17sep [false]) [] [EUser T_SEPARATOR [0] []; EUser T_MARK [0; 1] []; EUser T_SHOW [0; 0] []] = false.
Proof. vm_compute. repeat split. Qed.

Print Assumptions C17_separator_every_draw.
Print Assumptions C17_separator_meaning.

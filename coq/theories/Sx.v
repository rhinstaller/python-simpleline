(* Sx.v — the wire format between the Python harness and the extracted model.
   An s-expression of integers.  All decoding of cases and encoding of results
   is written in Gallina (type-checked, extracted), so that the hand-written
   OCaml glue (ocaml/glue.ml) is a tokenizer/printer and nothing else. *)
From Coq Require Import ZArith List Bool.
Import ListNotations.
Local Open Scope Z_scope.

Inductive sx := I (z : Z) | L (l : list sx).

Definition bad_input : sx := I (-999).   (* a bare atom: every normal result is a list *)

Definition as_Z (s : sx) : option Z := match s with I z => Some z | _ => None end.
Definition as_nat (s : sx) : option nat :=
  match s with I z => if z <? 0 then None else Some (Z.to_nat z) | _ => None end.
Definition as_N (s : sx) : option N :=
  match s with I z => if z <? 0 then None else Some (Z.to_N z) | _ => None end.
Definition as_bool (s : sx) : option bool :=
  match s with I 0 => Some false | I 1 => Some true | _ => None end.

Fixpoint all_some {A} (l : list (option A)) : option (list A) :=
  match l with
  | [] => Some []
  | None :: _ => None
  | Some a :: r => match all_some r with Some r' => Some (a :: r') | None => None end
  end.

Definition as_list {A} (f : sx -> option A) (s : sx) : option (list A) :=
  match s with L l => all_some (map f l) | _ => None end.

Definition as_opt {A} (f : sx -> option A) (s : sx) : option (option A) :=
  match s with
  | L [] => Some None
  | L [x] => match f x with Some a => Some (Some a) | None => None end
  | _ => None
  end.

Definition as_pair {A B} (f : sx -> option A) (g : sx -> option B) (s : sx) : option (A * B) :=
  match s with
  | L [x; y] => match f x, g y with Some a, Some b => Some (a, b) | _, _ => None end
  | _ => None
  end.

Definition as_str : sx -> option (list N) := as_list as_N.

Definition of_nat (n : nat) : sx := I (Z.of_nat n).
Definition of_N (n : N) : sx := I (Z.of_N n).
Definition of_bool (b : bool) : sx := I (if b then 1 else 0).
Definition of_list {A} (f : A -> sx) (l : list A) : sx := L (map f l).
Definition of_opt {A} (f : A -> sx) (o : option A) : sx :=
  match o with None => L [] | Some a => L [f a] end.
Definition of_pair {A B} (f : A -> sx) (g : B -> sx) (p : A * B) : sx := L [f (fst p); g (snd p)].
Definition of_str (s : list N) : sx := of_list of_N s.

Notation "'do' x <- e ; k" := (match e with Some x => k | None => bad_input end)
  (at level 200, x pattern, e at level 100, k at level 200).
